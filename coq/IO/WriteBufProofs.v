(* Proofs for C34 over the write-path model.  WritePacket's buffer logic [wp] does one of three
   things to the connection ([wp_cases]): write the packet at once (the buffer is empty), append it
   to the buffer (the queue is not empty and the buffer stays below the threshold), or append it and
   flush.  Every invariant is checked against these three and against [flush]. *)
From MV Require Import Base.Val Session.Pkt IO.WriteBuf.
From Coq Require Import Lia ZifyBool.
Open Scope N_scope.

(* the fold step of the model's idle_after, named (idle_after_fold, by computation) *)
Definition idle_step (idle : bool) (e : wev) : bool :=
  match e_src e, e_early e with Direct, true => idle | _, _ => e_qempty e end.

Lemma idle_after_fold evs : idle_after evs = fold_left idle_step evs true.
Proof. reflexivity. Qed.

Lemma idle_step_late idle e : e_early e = false -> idle_step idle e = e_qempty e.
Proof. unfold idle_step. intros ->. destruct (e_src e); reflexivity. Qed.

Lemma flush_outbuf s : outbuf (flush s) = [].
Proof. unfold flush. destruct (outbuf s) eqn:E; [exact E | reflexivity]. Qed.

Lemma flush_written s : written (flush s) = written s ++ map fst (outbuf s).
Proof. unfold flush. destruct (outbuf s) eqn:E; cbn [written map]; [symmetry; apply app_nil_r | reflexivity]. Qed.

Lemma flush_reported s : reported (flush s) = reported s.
Proof. unfold flush. destruct (outbuf s); reflexivity. Qed.

Lemma flush_dropped s : dropped (flush s) = dropped s.
Proof. unfold flush. destruct (outbuf s); reflexivity. Qed.

(* the buffer logic of WritePacket.  The model's wstep has this expression inline, as the value of its
   local s1 (wstep_eq below, by computation); it is named here so that the three cases can be stated
   once.  IO/WriteFault.v has the same logic with a failing write, wp_f; wp is its case fail = false (wp_f_nofault there). *)
Definition wp (thr : N) (s : wst) (e : wev) : wst :=
  if e_qempty e then
    (if is_nil (outbuf s) then write_direct s (e_id e) (e_size e)
     else flush (buffer s (e_id e) (e_size e)))
  else
    (if is_nil (outbuf s) then
       (if thr <=? e_size e then write_direct s (e_id e) (e_size e) else buffer s (e_id e) (e_size e))
     else
       let s2 := buffer s (e_id e) (e_size e) in
       if buflen (outbuf s2) <? thr then s2 else flush s2).

Lemma wstep_eq thr s e :
  wstep thr s e =
  if e_early e then
    match e_src e with
    | Loop => let s1 := report_drop s (e_id e) in if e_qempty e then flush s1 else s1
    | Direct => s
    end
  else report (wp thr s e) (e_id e).
Proof. reflexivity. Qed.

Inductive wp_case (thr : N) (s : wst) (e : wev) : wst -> Prop :=
| wp_direct : outbuf s = [] -> wp_case thr s e (write_direct s (e_id e) (e_size e))
| wp_buffer : e_qempty e = false -> buflen (outbuf (buffer s (e_id e) (e_size e))) < thr ->
              wp_case thr s e (buffer s (e_id e) (e_size e))
| wp_flush : wp_case thr s e (flush (buffer s (e_id e) (e_size e))).

Lemma wp_cases thr s e : wp_case thr s e (wp thr s e).
Proof.
  unfold wp. destruct (e_qempty e) eqn:Q; destruct (outbuf s) as [|p b] eqn:B; cbn [is_nil].
  - apply wp_direct. exact B.
  - apply wp_flush.
  - destruct (thr <=? e_size e) eqn:T; [apply wp_direct; exact B|].
    apply wp_buffer; [exact Q|]. cbn [buffer outbuf]. rewrite B. cbn. lia.
  - cbv zeta. destruct (buflen _ <? thr) eqn:L; [|apply wp_flush].
    apply wp_buffer; [exact Q | apply N.ltb_lt; exact L].
Qed.

(* what the connection has been given: the packets written and the packets waiting in the buffer *)
Definition content (s : wst) : list N := written s ++ map fst (outbuf s).

Lemma flush_content s : content (flush s) = content s.
Proof. unfold content. rewrite flush_written, flush_outbuf. apply app_nil_r. Qed.

Lemma wp_content thr s e :
  content (wp thr s e) = content s ++ [e_id e] /\ reported (wp thr s e) = reported s /\
  dropped (wp thr s e) = dropped s /\ (e_qempty e = true -> outbuf (wp thr s e) = []).
Proof.
  assert (B : content (buffer s (e_id e) (e_size e)) = content s ++ [e_id e])
    by (unfold content; cbn [buffer written outbuf]; rewrite map_app, app_assoc; reflexivity).
  destruct (wp_cases thr s e) as [E | Q _ |].
  - unfold content. cbn [write_direct written outbuf reported dropped]. rewrite E. cbn [map].
    rewrite !app_nil_r. repeat split.
  - rewrite B, Q. repeat split. discriminate.
  - rewrite flush_content, flush_reported, flush_dropped, flush_outbuf, B. repeat split.
Qed.

Lemma wstep_content thr s e : exists l,
  content (wstep thr s e) = content s ++ l /\ reported (wstep thr s e) = reported s ++ l.
Proof.
  rewrite wstep_eq. destruct (e_early e).
  - exists []. rewrite !app_nil_r. destruct (e_src e); [|split; reflexivity].
    cbv zeta. destruct (e_qempty e); [rewrite flush_content, flush_reported|]; split; reflexivity.
  - exists [e_id e]. destruct (wp_content thr s e) as (C & R & _). unfold content in *.
    cbn [report written outbuf reported]. rewrite C, R. split; reflexivity.
Qed.

Lemma wstep_idle thr s idle e : (idle = true -> outbuf s = []) -> idle_step idle e = true ->
  outbuf (wstep thr s e) = [].
Proof.
  intros I. rewrite wstep_eq. destruct (e_early e) eqn:Ea.
  - unfold idle_step. rewrite Ea. destruct (e_src e); [|exact I]. intros ->. apply flush_outbuf.
  - rewrite (idle_step_late idle e Ea). exact (proj2 (proj2 (proj2 (wp_content thr s e)))).
Qed.

(* everything reported is written or still in the buffer, in order; the buffer is empty whenever the
   last call that looked found the pending-writes queue empty *)
Definition inv (s : wst) (idle : bool) : Prop := reported s = content s /\ (idle = true -> outbuf s = []).

Lemma run_inv thr evs : forall s idle, inv s idle ->
  inv (fold_left (wstep thr) evs s) (fold_left idle_step evs idle).
Proof.
  induction evs as [|e r IH]; intros s idle [R I]; [split; assumption|]. cbn [fold_left]. apply IH. split.
  - destruct (wstep_content thr s e) as (l & -> & ->). rewrite R. reflexivity.
  - exact (wstep_idle thr s idle e I).
Qed.

Theorem flushed_when_idle (thr : N) (evs : list wev) :
  idle_after evs = true -> flushed (wrun thr evs).
Proof.
  intros Hidle. destruct (run_inv thr evs winit true (conj eq_refl (fun _ => eq_refl))) as [R I].
  rewrite <- idle_after_fold in I. specialize (I Hidle). unfold content in R. fold (wrun thr evs) in R, I.
  split; [exact I|]. rewrite R, I. apply app_nil_r.
Qed.

Lemma wstep_grows thr s e :
  incl (reported s) (reported (wstep thr s e)) /\ incl (dropped s) (dropped (wstep thr s e)).
Proof.
  rewrite wstep_eq. destruct (e_early e).
  - destruct (e_src e); [|split; apply incl_refl]. cbv zeta.
    destruct (e_qempty e); [rewrite flush_reported, flush_dropped|]; (split; [apply incl_refl | apply incl_appl, incl_refl]).
  - destruct (wp_content thr s e) as (_ & R & D & _). cbn [report reported dropped]. rewrite R, D.
    split; [apply incl_appl|]; apply incl_refl.
Qed.

Lemma wstep_accounts thr s e : e_src e = Loop ->
  if e_early e then In (e_id e) (dropped (wstep thr s e)) else In (e_id e) (reported (wstep thr s e)).
Proof.
  intro L. rewrite wstep_eq, L. destruct (e_early e).
  - cbv zeta. destruct (e_qempty e); [rewrite flush_dropped|]; apply in_or_app; right; left; reflexivity.
  - apply in_or_app. right. left. reflexivity.
Qed.

Lemma run_grows thr evs : forall s,
  incl (reported s) (reported (fold_left (wstep thr) evs s)) /\
  incl (dropped s) (dropped (fold_left (wstep thr) evs s)).
Proof.
  induction evs as [|e r IH]; intros s; cbn [fold_left]; [split; apply incl_refl|].
  destruct (IH (wstep thr s e)) as [R D]. destruct (wstep_grows thr s e) as [R0 D0].
  split; eapply incl_tran; eassumption.
Qed.

Lemma run_accounts thr evs : forall s e, In e evs -> e_src e = Loop ->
  (if e_early e then In (e_id e) (dropped (fold_left (wstep thr) evs s))
   else In (e_id e) (reported (fold_left (wstep thr) evs s))).
Proof.
  induction evs as [|x r IH]; intros s e Hin Hl; [destruct Hin|].
  cbn [fold_left]. destruct Hin as [->|Hin]; [|apply IH; assumption].
  pose proof (wstep_accounts thr s e Hl) as A. destruct (run_grows thr r (wstep thr s e)) as [R D].
  destruct (e_early e); [exact (D _ A) | exact (R _ A)].
Qed.

Theorem accounted_when_idle (thr : N) (evs : list wev) :
  idle_after evs = true -> accounted evs (wrun thr evs).
Proof.
  intros Hidle e Hin Hl. destruct (flushed_when_idle thr evs Hidle) as [_ Hrw].
  pose proof (run_accounts thr evs winit e Hin Hl) as H. unfold wrun in *.
  destruct (e_early e); [right; exact H|left; rewrite <- Hrw; exact H].
Qed.

(* every prefix of the buffer stays below the threshold *)
Fixpoint below (thr acc : N) (l : list N) : bool :=
  match l with [] => true | x :: r => (acc + x <? thr) && below thr (acc + x) r end.

Lemma below_app thr l : forall acc x,
  below thr acc (l ++ [x]) = below thr acc l && (acc + fold_right N.add 0 l + x <? thr).
Proof.
  induction l as [|y r IH]; intros acc x; cbn.
  - rewrite N.add_0_r, Bool.andb_true_r. reflexivity.
  - rewrite IH. rewrite <- Bool.andb_assoc. f_equal. f_equal. f_equal. lia.
Qed.

(* a Write call may carry one more packet than fits below the threshold *)
Lemma below_chunk thr l : forall acc x, below thr acc l = true ->
  chunk_ok_from thr acc l = true /\ chunk_ok_from thr acc (l ++ [x]) = true.
Proof.
  induction l as [|y r IH]; intros acc x H; [split; reflexivity|].
  cbn [below] in H. apply Bool.andb_true_iff in H. destruct H as [H1 H2]. destruct (IH (acc + y) x H2) as [A B].
  cbn [chunk_ok_from app]. rewrite H1, A, B. destruct r; split; reflexivity.
Qed.

Lemma buflen_sum b : buflen b = fold_right N.add 0 (map snd b).
Proof. induction b as [|p r IH]; cbn; [reflexivity|]. unfold buflen in IH. rewrite IH. reflexivity. Qed.

Definition shape_inv (thr : N) (s : wst) : Prop :=
  below thr 0 (map snd (outbuf s)) = true /\ Forall (fun c => chunk_ok thr c = true) (chunks s).

Lemma flush_shape thr s : shape_inv thr s -> shape_inv thr (flush s).
Proof.
  intros [Hb Hc]. unfold flush. destruct (outbuf s) eqn:B; [split; [rewrite B; exact Hb|exact Hc]|].
  split; [reflexivity|]. cbn [chunks]. apply Forall_app. split; [exact Hc|]. constructor; [|constructor].
  exact (proj1 (below_chunk thr _ 0 0 Hb)).
Qed.

Lemma wp_shape thr s e : shape_inv thr s -> shape_inv thr (wp thr s e).
Proof.
  intros [Hb Hc]. destruct (wp_cases thr s e) as [_ | _ L |].
  - split; [exact Hb|]. cbn [write_direct chunks]. apply Forall_app. split; [exact Hc|]. repeat constructor.
  - split; [|exact Hc]. rewrite buflen_sum in L. cbn [buffer outbuf] in *. rewrite map_app in *.
    cbn [map snd] in *. rewrite below_app, Hb. rewrite fold_right_app in L. cbn [fold_right andb] in *.
    assert (G : forall l a, fold_right N.add a l = fold_right N.add 0 l + a)
      by (induction l as [|y r IH]; intros a; cbn; [lia|rewrite IH; lia]).
    rewrite G in L. lia.
  - unfold flush. cbn [buffer outbuf]. destruct (outbuf s ++ [(e_id e, e_size e)]) eqn:B; [destruct (outbuf s); discriminate|].
    split; [reflexivity|]. cbn [chunks]. apply Forall_app. split; [exact Hc|]. constructor; [|constructor].
    rewrite <- B, map_app. exact (proj2 (below_chunk thr _ 0 (e_size e) Hb)).
Qed.

Lemma wstep_shape thr s e : shape_inv thr s -> shape_inv thr (wstep thr s e).
Proof.
  intro H. rewrite wstep_eq. destruct (e_early e).
  - destruct (e_src e); [|exact H]. cbv zeta. destruct (e_qempty e); [apply flush_shape|]; exact H.
  - exact (wp_shape thr s e H).
Qed.

Theorem chunks_shape (thr : N) (evs : list wev) :
  Forall (fun c => chunk_ok thr c = true) (chunks (wrun thr evs)).
Proof.
  assert (forall evs s, shape_inv thr s -> shape_inv thr (fold_left (wstep thr) evs s)) as K.
  { induction evs0 as [|e r IH]; intros s H; [exact H|]. cbn. apply IH, wstep_shape, H. }
  apply (K evs winit). split; [reflexivity|constructor].
Qed.

(* publishToClient: a message for a connected client that is neither queued nor held is reported *)
Theorem fate_drop_reported (f : fate) : fate_is_drop f = true -> fate_report f <> None.
Proof. destruct f; cbn; intros H; try discriminate. Qed.

Lemma mem_n_In x l : mem_n x l = true -> In x l.
Proof.
  induction l as [|y r IH]; cbn; [discriminate|]. intro H. apply Bool.orb_prop in H as [H|H].
  - left. symmetry. apply N.eqb_eq. exact H.
  - right. exact (IH H).
Qed.

Theorem fault_ok_sound reported written : fault_ok reported written false = true ->
  forall k, In k reported -> In k written.
Proof.
  unfold fault_ok. cbn [orb]. intros H k Hk. rewrite forallb_forall in H. apply mem_n_In. exact (H k Hk).
Qed.
