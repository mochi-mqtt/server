(* The keepalive model (C37).  The deadline is 1.5 x keepalive, without overflow in nanoseconds
   (deadline_ns_no_overflow, deadline_ms_pos).  While inbound packets arrive within the deadline of each
   other the connection stays open (never_early); once the deadline after the last one has passed it is
   closed, and a packet that comes later is not read (closes_by, late_packet_not_read); keepalive 0
   disables the check (zero_disables).  Outbound writes do not move the deadline (mixed_*,
   writes_do_not_extend). *)
From MV Require Import Base.Val IO.Keepalive.
From Coq Require Import Lia ZifyBool.
Local Ltac Zify.zify_post_hook ::= Z.div_mod_to_equations.
Open Scope Z_scope.

(* the int64 product of the Go expression never wraps for a uint16 keepalive *)
Lemma deadline_ns_no_overflow K : 0 <= K <= 65535 ->
  0 <= K * second_ns * 3 < 2 ^ 63.
Proof. unfold second_ns. intro H. split; [lia|]. change (2 ^ 63) with 9223372036854775808. lia. Qed.

Lemma deadline_ms_pos K : 0 < K -> deadline_ms K = Some (limit_ms K).
Proof.
  intro H. unfold deadline_ms, deadline_ns, second_ns, limit_ms.
  replace (0 <? K) with true by lia. f_equal. lia.
Qed.

Lemma deadline_ms_nonpos K : K <= 0 -> deadline_ms K = None.
Proof. intro H. unfold deadline_ms. replace (0 <? K) with false by lia. reflexivity. Qed.

Lemma run_closed K t l : run K (Closed t) l = Closed t.
Proof. induction l as [|a r IH]; [reflexivity|]. exact IH. Qed.

Lemma run_cons K c a r : run K c (a :: r) = run K (step K c a) r.
Proof. reflexivity. Qed.

Lemma last_cons (a : Z) r d : last (a :: r) d = last r a.
Proof.
  revert a d. induction r as [|b r IH]; intros a d; [reflexivity|].
  change (last (a :: b :: r) d) with (last (b :: r) d). rewrite IH. symmetry. apply IH.
Qed.

Lemma ordered_last t0 l : ordered_from t0 l -> t0 <= last l t0.
Proof.
  revert t0. induction l as [|a r IH]; intros t0 H; [cbn; lia|].
  destruct H as [H1 H2]. rewrite last_cons. specialize (IH a H2). lia.
Qed.

Lemma gaps_ordered t0 l b : gaps_below t0 l b -> ordered_from t0 l.
Proof.
  revert t0. induction l as [|a r IH]; intros t0 H; [exact I|].
  destruct H as (H1 & _ & H3). split; [exact H1|]. apply IH. exact H3.
Qed.

Lemma run_open K t0 l : (forall d, deadline_ms K = Some d -> gaps_below t0 l d) ->
  run K (Open t0) l = Open (last l t0).
Proof.
  revert t0. induction l as [|a r IH]; intros t0 G; [reflexivity|].
  rewrite run_cons, last_cons.
  assert (S : step K (Open t0) a = Open a).
  { cbn [step]. destruct (deadline_ms K) as [d|]; [|reflexivity].
    destruct (G d eq_refl) as (_ & H2 & _). replace (a <? t0 + d) with true by lia. reflexivity. }
  rewrite S. apply IH. intros d E. exact (proj2 (proj2 (G d E))).
Qed.

Lemma never_early K t0 l t : 0 <= K ->
  gaps_below t0 l (limit_ms K) -> t < last l t0 + limit_ms K ->
  run K (Open t0) l = Open (last l t0) /\ closed_by K (run K (Open t0) l) t = false.
Proof.
  intros HK G Ht. destruct (Z.eq_dec K 0) as [-> | Hnz].
  - rewrite run_open by (rewrite deadline_ms_nonpos by lia; discriminate). split; [reflexivity|].
    cbn [closed_by]. rewrite deadline_ms_nonpos by lia. reflexivity.
  - rewrite run_open by (rewrite deadline_ms_pos by lia; intros d E; injection E as <-; exact G).
    split; [reflexivity|]. cbn [closed_by]. rewrite deadline_ms_pos by lia. lia.
Qed.

Lemma run_shape K t0 l : 0 < K -> ordered_from t0 l ->
  run K (Open t0) l = Open (last l t0) \/
  exists tc, run K (Open t0) l = Closed tc /\ tc <= last l t0.
Proof.
  intro HK. revert t0. induction l as [|a r IH]; intros t0 H; [left; reflexivity|].
  destruct H as [H1 H2]. rewrite run_cons, last_cons. cbn [step].
  rewrite deadline_ms_pos by exact HK.
  destruct (a <? t0 + limit_ms K) eqn:E.
  - apply IH. exact H2.
  - right. exists (t0 + limit_ms K). rewrite run_closed. split; [reflexivity|].
    pose proof (ordered_last a r H2). lia.
Qed.

Lemma closes_by K t0 l t : 0 < K -> ordered_from t0 l ->
  last l t0 + limit_ms K <= t -> closed_by K (run K (Open t0) l) t = true.
Proof.
  intros HK O Ht. destruct (run_shape K t0 l HK O) as [E | (tc & E & Htc)]; rewrite E; cbn [closed_by].
  - rewrite deadline_ms_pos by lia. lia.
  - unfold limit_ms in Ht. lia.
Qed.

Lemma late_packet_not_read K t0 l late rest : 0 < K ->
  gaps_below t0 l (limit_ms K) -> last l t0 + limit_ms K <= late ->
  run K (Open t0) (l ++ late :: rest) = Closed (last l t0 + limit_ms K).
Proof.
  intros HK G HL. unfold run. rewrite fold_left_app. fold (run K (Open t0) l).
  rewrite (proj1 (never_early K t0 l (last l t0) ltac:(lia) G ltac:(unfold limit_ms; lia))).
  change (run K (step K (Open (last l t0)) late) rest = Closed (last l t0 + limit_ms K)).
  cbn [step]. rewrite deadline_ms_pos by lia.
  replace (late <? last l t0 + limit_ms K) with false by lia. apply run_closed.
Qed.

Lemma zero_disables t0 l t :
  run 0 (Open t0) l = Open (last l t0) /\ closed_by 0 (run 0 (Open t0) l) t = false.
Proof.
  rewrite run_open by (rewrite deadline_ms_nonpos by lia; discriminate). split; [reflexivity|].
  cbn [closed_by]. rewrite deadline_ms_nonpos by lia. reflexivity.
Qed.

Lemma arm_model_is_spec K d off : 0 <= K -> arm_ok_model K d off = arm_ok_spec K d off.
Proof.
  intro HK. unfold arm_ok_model, arm_ok_spec. destruct (Z.eq_dec K 0) as [-> | Hnz].
  - reflexivity.
  - rewrite deadline_ms_pos by lia. replace (0 <? K) with true by lia. reflexivity.
Qed.

Lemma run_ev_inbounds K h : forall c, run_ev K c h = run K c (inbounds h).
Proof.
  induction h as [|e r IH]; intro c; [reflexivity|].
  destruct e as [a | t]; cbn [run_ev fold_left step_ev inbounds].
  - change (run_ev K (step K c a) r = run K (step K c a) (inbounds r)). apply IH.
  - change (run_ev K c r = run K c (inbounds r)). apply IH.
Qed.

Lemma mixed_closes_by K t0 h t : 0 < K -> ordered_from t0 (inbounds h) ->
  last (inbounds h) t0 + limit_ms K <= t -> closed_by K (run_ev K (Open t0) h) t = true.
Proof. intros HK O Ht. rewrite run_ev_inbounds. exact (closes_by K t0 (inbounds h) t HK O Ht). Qed.

Lemma mixed_never_early K t0 h t : 0 <= K ->
  gaps_below t0 (inbounds h) (limit_ms K) -> t < last (inbounds h) t0 + limit_ms K ->
  run_ev K (Open t0) h = Open (last (inbounds h) t0) /\ closed_by K (run_ev K (Open t0) h) t = false.
Proof. intros HK G Ht. rewrite run_ev_inbounds. exact (never_early K t0 (inbounds h) t HK G Ht). Qed.

Lemma writes_do_not_extend K t0 outs t : 0 < K -> t0 + limit_ms K <= t ->
  closed_by K (run_ev K (Open t0) (map HOut outs)) t = true.
Proof.
  intros HK Ht. assert (E : inbounds (map HOut outs) = []) by (induction outs as [|x r IH]; [reflexivity|exact IH]).
  apply mixed_closes_by; [exact HK | |]; rewrite E; [exact I | exact Ht].
Qed.
