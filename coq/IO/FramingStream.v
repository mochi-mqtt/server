(* C28 (framing part, whole streams) — the read loop over a stream of ANY number of packets:
   a sequence of complete, in-limit packets is cut into exactly those packets whatever follows them
   (a truncated packet, garbage, an over-size packet, nothing), and the outcome for what follows is
   the outcome it would have on its own: nothing a packet contains is ever taken for part of another
   packet.  Conversely every list of frames the loop delivers is a segmentation of a prefix of the
   stream into standard packets within the limit.  Induction over the packet list / the fuel. *)
From MV Require Import Base.Val Base.Bytes Codec.Vbi Codec.VbiProofs IO.Framing IO.FramingProofs.
From Coq Require Import Lia ZifyBool.
Open Scope N_scope.

(* a stream that is the concatenation of complete in-limit packets, with the frames it must yield *)
Inductive good_stream (maxsize : N) : list (fhdr * N) -> bytes -> Prop :=
| gs_nil : good_stream maxsize [] []
| gs_cons hb n e body h fr bs :
    hb < 256 -> n <= vbi_max -> vbi_encode n = Some e -> fh_decode hb = Some h ->
    N.of_nat (length body) = n -> wf_bytes body ->
    (maxsize = 0 \/ 1 + N.of_nat (length e) + n <= maxsize) ->
    good_stream maxsize fr bs ->
    good_stream maxsize ((h, n) :: fr) (hb :: e ++ body ++ bs).

Lemma good_stream_wf maxsize fr bs : good_stream maxsize fr bs -> wf_bytes bs.
Proof.
  induction 1 as [|hb n e body h fr bs Hb Hn He Hh Hl Wb Hm G IH]; [constructor|].
  constructor; [exact Hb|]. apply wf_app; [exact (enc_wf n e Hn He)|]. apply wf_app; assumption.
Qed.

(* each packet is at least two bytes long: the fuel S (length stream) used by the engine suffices *)
Lemma good_stream_len maxsize fr bs : good_stream maxsize fr bs -> (2 * length fr <= length bs)%nat.
Proof.
  induction 1 as [|hb n e body h fr bs Hb Hn He Hh Hl Wb Hm G IH]; [cbn; lia|].
  pose proof (enc_length n e Hn He) as L.
  assert (1 <= vbi_min_len n) by (unfold vbi_min_len; repeat destruct (_ <? _); lia).
  cbn [length]. rewrite !app_length. lia.
Qed.

Lemma read_frames_S f maxsize bs :
  read_frames (S f) maxsize bs =
  match read_frame maxsize bs with
  | Frame h bu body rest => let (l, fin) := read_frames f maxsize rest in ((h, N.of_nat (length body)) :: l, fin)
  | NeedMore => ([], 0) | BadHeader => ([], 1) | BadLength => ([], 2) | TooLarge => ([], 3)
  end.
Proof. reflexivity. Qed.

Theorem frames_of_good_prefix maxsize fr bs : good_stream maxsize fr bs ->
  forall tail fuel, wf_bytes tail -> (length fr <= fuel)%nat ->
  read_frames fuel maxsize (bs ++ tail) =
  (fr ++ fst (read_frames (fuel - length fr) maxsize tail), snd (read_frames (fuel - length fr) maxsize tail)).
Proof.
  induction 1 as [|hb n e body h fr bs Hb Hn He Hh Hl Wb Hm G IH]; intros tail fuel Wt Hf.
  - cbn [app length]. rewrite Nat.sub_0_r. destruct (read_frames fuel maxsize tail). reflexivity.
  - cbn [length] in Hf. destruct fuel as [|f]; [lia|].
    rewrite read_frames_S.
    replace ((hb :: e ++ body ++ bs) ++ tail) with (hb :: e ++ body ++ (bs ++ tail))
      by (cbn [app]; rewrite <- !app_assoc; reflexivity).
    rewrite (frame_complete maxsize hb n e body (bs ++ tail) h Hn He Hh Hl Wb
               (wf_app _ _ (good_stream_wf _ _ _ G) Wt) Hm).
    rewrite (IH tail f Wt ltac:(lia)). cbn [length Nat.sub fst snd]. rewrite Hl. reflexivity.
Qed.

Lemma read_frames_nil fuel maxsize : read_frames fuel maxsize [] = ([], 0).
Proof. destruct fuel; reflexivity. Qed.

(* [S (length bs)] is the fuel the engine uses *)
Corollary frames_of_good_stream maxsize fr bs : good_stream maxsize fr bs ->
  read_frames (S (length bs)) maxsize bs = (fr, 0).
Proof.
  intro G. pose proof (good_stream_len _ _ _ G) as L.
  pose proof (frames_of_good_prefix maxsize fr bs G [] (S (length bs)) ltac:(constructor) ltac:(lia)) as H.
  rewrite app_nil_r, read_frames_nil in H. cbn [fst snd] in H. rewrite app_nil_r in H. exact H.
Qed.

Corollary bad_tail_after_good maxsize fr bs tail fuel : good_stream maxsize fr bs -> wf_bytes tail ->
  (length fr < fuel)%nat ->
  forall code, match read_frame maxsize tail with
               | Frame _ _ _ _ => False | NeedMore => code = 0 | BadHeader => code = 1
               | BadLength => code = 2 | TooLarge => code = 3 end ->
  read_frames fuel maxsize (bs ++ tail) = (fr, code).
Proof.
  intros G Wt Hf code Hc.
  rewrite (frames_of_good_prefix maxsize fr bs G tail fuel Wt ltac:(lia)).
  destruct (fuel - length fr)%nat as [|f] eqn:E; [lia|].
  rewrite read_frames_S.
  destruct (read_frame maxsize tail); try contradiction; subst code; cbn [fst snd]; rewrite app_nil_r; reflexivity.
Qed.

(* [segmented maxsize fr bs tail]: [bs] is packets with a standard first byte and a length field the standard
   accepts, within the limit, whose headers and lengths are [fr], followed by [tail] *)
Inductive segmented (maxsize : N) : list (fhdr * N) -> bytes -> bytes -> Prop :=
| sg_nil tail : segmented maxsize [] tail tail
| sg_cons hb lenb body h fr bs tail :
    fh_spec hb = Some h ->
    spec_decode (lenb ++ body ++ bs) = Some (N.of_nat (length body), body ++ bs) ->
    1 <= N.of_nat (length lenb) <= 4 ->
    (0 < maxsize -> 1 + N.of_nat (length lenb) + N.of_nat (length body) <= maxsize) ->
    segmented maxsize fr bs tail ->
    segmented maxsize ((h, N.of_nat (length body)) :: fr) (hb :: lenb ++ body ++ bs) tail.

Theorem frames_sound_stream maxsize : forall fuel bs fr fin,
  wf_bytes bs -> read_frames fuel maxsize bs = (fr, fin) ->
  exists tail, segmented maxsize fr bs tail /\
    (fin = 0 \/ (fin = 1 /\ read_frame maxsize tail = BadHeader) \/ (fin = 2 /\ read_frame maxsize tail = BadLength)
     \/ (fin = 3 /\ read_frame maxsize tail = TooLarge)).
Proof.
  induction fuel as [|f IH]; intros bs fr fin W H.
  - cbn in H. injection H as <- <-. exists bs. split; [constructor|left; reflexivity].
  - rewrite read_frames_S in H.
    destruct (read_frame maxsize bs) as [h bu body rest| | | |] eqn:R.
    + destruct (read_frames f maxsize rest) as [l fin'] eqn:RF. injection H as <- <-.
      destruct (frame_sound maxsize bs h bu body rest W R) as (hb & lenb & Ebs & Hh & Hs & Hbu & Hr & Hm).
      assert (Wr : wf_bytes rest).
      { rewrite Ebs in W. inversion W as [|? ? _ W']; subst. apply wf_app_iff in W'. destruct W' as [_ W']. apply wf_app_iff in W'. exact (proj2 W'). }
      destruct (IH rest l fin' Wr RF) as (tail & Sg & Hfin).
      exists tail. split; [|exact Hfin]. rewrite Ebs.
      apply sg_cons; try assumption. lia. intro Hp. specialize (Hm Hp). lia.
    + injection H as <- <-. exists bs. split; [constructor|left; reflexivity].
    + injection H as <- <-. exists bs. split; [constructor|right; left; split; [reflexivity|exact R]].
    + injection H as <- <-. exists bs. split; [constructor|right; right; left; split; [reflexivity|exact R]].
    + injection H as <- <-. exists bs. split; [constructor|right; right; right; split; [reflexivity|exact R]].
Qed.
