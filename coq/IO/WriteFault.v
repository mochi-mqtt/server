(* C34 — the write path of one client connection WITH transient write faults.
   Extension of IO/WriteBuf.v: every event carries a flag "the Write call this WritePacket makes on the
   connection fails (nothing is written)".  Faithful to clients.go: a failed direct write / failed
   flushOutbuf leaves cl.Net.outbuf as it is (flushOutbuf clears the buffer only after a successful
   write) and WritePacket returns the error before OnPacketSent; WriteLoop then reports the PUBLISH as
   dropped and calls flushIdle (the retry; the fault being transient it succeeds); a handler that gets
   the error ends the connection.  Engine flushfault (IO/WriteBuf.v fault_ok) observes exactly the
   conclusion of fault_flushed on the real client. *)
From MV Require Import Base.Val Session.Pkt IO.WriteBuf IO.WriteBufProofs.
Open Scope N_scope.

Definition flush_f (fail : bool) (s : wst) : wst * bool :=
  match outbuf s with
  | [] => (s, false)
  | _ => if fail then (s, true) else (flush s, false)
  end.

Definition write_direct_f (fail : bool) (s : wst) (id size : N) : wst * bool :=
  if fail then (s, true) else (write_direct s id size, false).

(* the locked section of WritePacket: new state, error *)
Definition wp_f (thr : N) (fail : bool) (s : wst) (e : wev) : wst * bool :=
  if e_qempty e then
    (if is_nil (outbuf s) then write_direct_f fail s (e_id e) (e_size e)
     else flush_f fail (buffer s (e_id e) (e_size e)))
  else
    (if is_nil (outbuf s) then
       (if thr <=? e_size e then write_direct_f fail s (e_id e) (e_size e)
        else (buffer s (e_id e) (e_size e), false))
     else
       let s2 := buffer s (e_id e) (e_size e) in
       if buflen (outbuf s2) <? thr then (s2, false) else flush_f fail s2).

(* state, connection closed *)
Definition fstep (thr : N) (x : wst * bool) (ef : wev * bool) : wst * bool :=
  let (s, cl) := x in
  let (e, fail) := ef in
  if cl then x
  else if e_early e then
    match e_src e with
    | Loop => let s1 := report_drop s (e_id e) in
              ((if e_qempty e then fst (flush_f fail s1) else s1), false)          (* flushIdle ignores the error *)
    | Direct => (s, false)
    end
  else
    let (s1, err) := wp_f thr fail s e in
    if err then
      match e_src e with
      | Loop => let s2 := report_drop s1 (e_id e) in
                ((if e_qempty e then flush s2 else s2), false)                      (* flushIdle: the retry succeeds *)
      | Direct => (s1, true)                                                        (* the handler ends the connection *)
      end
    else (report s1 (e_id e), false).

Definition frun (thr : N) (evs : list (wev * bool)) : wst * bool := fold_left (fstep thr) evs (winit, false).

(* the buffer is not empty once a packet has been appended, so the flush does attempt a write *)
Lemma flush_f_buffer fail s id size :
  flush_f fail (buffer s id size) =
  if fail then (buffer s id size, true) else (flush (buffer s id size), false).
Proof. unfold flush_f. cbn [buffer outbuf]. destruct (outbuf s); reflexivity. Qed.

Lemma flush_f_nofault s : flush_f false s = (flush s, false).
Proof. unfold flush_f, flush. destruct (outbuf s); reflexivity. Qed.

(* the locked section either does what it does without faults, or (the write it attempts fails) leaves
   the connection alone, the packet at most appended to the buffer *)
Lemma wp_f_spec thr fail s e :
  wp_f thr fail s e = (wp thr s e, false) \/
  wp_f thr fail s e = (s, true) \/ wp_f thr fail s e = (buffer s (e_id e) (e_size e), true).
Proof.
  unfold wp_f, wp, write_direct_f. cbv zeta. rewrite !flush_f_buffer.
  destruct fail, (e_qempty e), (is_nil (outbuf s)), (thr <=? e_size e), (buflen (outbuf (buffer s (e_id e) (e_size e))) <? thr); auto.
Qed.

Lemma wp_f_nofault thr s e : wp_f thr false s e = (wp thr s e, false).
Proof.
  unfold wp_f, wp, write_direct_f. cbv zeta. rewrite !flush_f_buffer.
  destruct (e_qempty e), (is_nil (outbuf s)), (thr <=? e_size e), (buflen (outbuf (buffer s (e_id e) (e_size e))) <? thr); reflexivity.
Qed.

Theorem fstep_nofault thr s e : fstep thr (s, false) (e, false) = (wstep thr s e, false).
Proof.
  unfold fstep. rewrite wstep_eq, wp_f_nofault. destruct (e_early e); [|reflexivity].
  destruct (e_src e); [|reflexivity]. destruct (e_qempty e); [|reflexivity]. rewrite flush_f_nofault. reflexivity.
Qed.

Theorem frun_nofault thr evs : frun thr (map (fun e => (e, false)) evs) = (wrun thr evs, false).
Proof.
  unfold frun, wrun. generalize winit. induction evs as [|e r IH]; intro s; [reflexivity|].
  cbn [map fold_left]. rewrite fstep_nofault. apply IH.
Qed.

(* while the connection is open: idle means nothing is buffered, and whatever is reported as sent
   was given to the connection *)
Definition Inv (x : wst * bool) (idle : bool) : Prop :=
  snd x = false -> (idle = true -> outbuf (fst x) = []) /\ incl (reported (fst x)) (content (fst x)).

(* the write loop after a failed write: the packet is reported dropped, and the buffer - which holds
   at least what it held - is flushed if the queue is empty *)
Lemma retry_inv (s s1 : wst) (id : N) (q : bool) : reported s1 = reported s -> incl (content s) (content s1) ->
  incl (reported s) (content s) ->
  Inv ((if q then flush (report_drop s1 id) else report_drop s1 id), false) q.
Proof.
  intros R C I _. cbn [fst snd]. destruct q.
  - rewrite flush_outbuf, flush_reported, flush_content. split; [reflexivity|]. cbn [report_drop reported]. rewrite R.
    exact (incl_tran I C).
  - split; [discriminate|]. cbn [report_drop reported]. rewrite R. exact (incl_tran I C).
Qed.

Lemma step_inv thr x idle e fail :
  (e_early e = true -> fail = false) ->
  Inv x idle -> Inv (fstep thr x (e, fail)) (idle_step idle e).
Proof.
  intros Hf I. destruct x as [s cl]. destruct cl; [intro C; discriminate C|].
  specialize (I eq_refl). cbn [fst snd] in I. destruct I as [Iidle Irep].
  (* a call without a failing write is a step of the fault-free model *)
  assert (NF : Inv (wstep thr s e, false) (idle_step idle e)).
  { intros _. cbn [fst snd]. split; [exact (wstep_idle thr s idle e Iidle)|].
    destruct (wstep_content thr s e) as (l & -> & ->).
    apply incl_app; [apply incl_appl; exact Irep | apply incl_appr, incl_refl]. }
  destruct (e_early e) eqn:Ea.
  - rewrite (Hf eq_refl), fstep_nofault. exact NF.
  - unfold fstep. rewrite Ea, (idle_step_late idle e Ea).
    destruct (wp_f_spec thr fail s e) as [W | [W | W]]; rewrite W.
    + rewrite wstep_eq, Ea, (idle_step_late idle e Ea) in NF. exact NF.
    + destruct (e_src e); [|intro C; discriminate C].
      exact (retry_inv s s (e_id e) (e_qempty e) eq_refl (incl_refl _) Irep).
    + destruct (e_src e); [|intro C; discriminate C].
      apply (retry_inv s (buffer s (e_id e) (e_size e)) (e_id e) (e_qempty e) eq_refl); [|exact Irep].
      unfold content. cbn [buffer written outbuf]. rewrite map_app, app_assoc. apply incl_appl, incl_refl.
Qed.

Lemma closed_absorbing thr evs s : snd (fold_left (fstep thr) evs (s, true)) = true.
Proof. revert s. induction evs as [|[e f] r IH]; intro s; [reflexivity|]. cbn [fold_left fstep]. apply IH. Qed.

Lemma run_inv thr : forall evs x idle,
  (forall e f, In (e, f) evs -> e_early e = true -> f = false) ->
  Inv x idle -> Inv (fold_left (fstep thr) evs x) (fold_left idle_step (map fst evs) idle).
Proof.
  induction evs as [|[e f] r IH]; intros x idle H I; [exact I|].
  cbn [fold_left map fst]. apply IH.
  - intros e' f' Hin. apply H. right. exact Hin.
  - apply step_inv; [|exact I]. apply H. left. reflexivity.
Qed.

(* For EVERY history of WritePacket calls in which any of the connection writes may fail once (the retry by flushIdle
   succeeds; a fault is not placed on a packet that is refused before the buffer logic): if the connection was not
   ended and it is idle, nothing is left in the write buffer and every packet reported as sent has been written. *)
Theorem fault_flushed thr evs :
  (forall e f, In (e, f) evs -> e_early e = true -> f = false) ->
  snd (frun thr evs) = false -> idle_after (map fst evs) = true ->
  outbuf (fst (frun thr evs)) = [] /\
  forall id, In id (reported (fst (frun thr evs))) -> In id (written (fst (frun thr evs))).
Proof.
  intros H C Idle. unfold frun in *.
  assert (I0 : Inv (winit, false) true) by (intros _; split; [reflexivity | intros id []]).
  pose proof (run_inv thr evs (winit, false) true H I0) as I.
  rewrite <- idle_after_fold in I. specialize (I C). destruct I as [Io Ir].
  rewrite Idle in Io. specialize (Io eq_refl). split; [exact Io|].
  intros id Hi. specialize (Ir id Hi). unfold content in Ir. rewrite Io, app_nil_r in Ir. exact Ir.
Qed.

(* the seeded change C34d as a model variant: flushOutbuf forgets the buffer BEFORE the write.  One parked PUBACK (id 1,
   reported), then the queued PUBLISH (id 2) whose flush fails: the PUBACK is reported and never written. *)
Definition flush_f_lossy (fail : bool) (s : wst) : wst * bool :=
  match outbuf s with
  | [] => (s, false)
  | _ => if fail then ({| outbuf := []; written := written s; chunks := chunks s; reported := reported s;
                          dropped := dropped s |}, true)
         else (flush s, false)
  end.

Example lossy_flush_strands :
  let s0 := report (buffer winit 1 4) 1 in                              (* PUBACK parked and reported *)
  let (s1, err) := flush_f_lossy true (buffer s0 2 30) in               (* the write loop's flush fails *)
  let s2 := flush (report_drop s1 2) in                                  (* drop reported, flushIdle *)
  err = true /\ outbuf s2 = [] /\ reported s2 = [1] /\ written s2 = [].
Proof. vm_compute. repeat split. Qed.
