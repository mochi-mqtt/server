(* The inbound framing model (C28).  The first-byte decoder is the standard's for all 256 bytes
   (fh_decode_is_spec).  An accepted frame is header byte, a length field the standard accepts, the body
   and the rest, within the configured maximum (frame_sound); an over-size packet is refused from the
   header alone (toolarge_before_body); a complete packet within the limit is accepted as one frame and
   the bytes after it are left for the next (frame_complete). *)
From MV Require Import Base.Val Base.Bytes Codec.Vbi Codec.VbiProofs IO.Framing.
From Coq Require Import Lia ZifyBool.
Open Scope N_scope.

Lemma fhdr_eqb_eq a b : fhdr_eqb a b = true -> a = b.
Proof.
  destruct a as [t q d r], b as [t' q' d' r']. unfold fhdr_eqb. cbn.
  intro H. apply andb_prop in H as [H Hr]. apply andb_prop in H as [H Hd]. apply andb_prop in H as [Ht Hq].
  apply N.eqb_eq in Ht, Hq. apply Bool.eqb_prop in Hd, Hr. subst. reflexivity.
Qed.

Lemma ofhdr_eqb_eq a b : ofhdr_eqb a b = true -> a = b.
Proof.
  destruct a as [x|], b as [y|]; cbn; intro H; try discriminate; try reflexivity.
  f_equal. apply fhdr_eqb_eq. exact H.
Qed.

Lemma fh_decode_is_spec (hb : N) : hb < 256 -> fh_decode hb = fh_spec hb.
Proof.
  intro H. apply ofhdr_eqb_eq.
  assert (S : forallb (fun b => ofhdr_eqb (fh_decode b) (fh_spec b)) (rangeN 256) = true)
    by (vm_compute; reflexivity).
  exact (forall_below _ 256 S hb H).
Qed.

Theorem frame_sound (maxsize : N) (bs : bytes) h bu body rest :
  wf_bytes bs -> read_frame maxsize bs = Frame h bu body rest ->
  exists hb lenb,
    bs = hb :: lenb ++ body ++ rest /\
    fh_spec hb = Some h /\
    spec_decode (lenb ++ body ++ rest) = Some (N.of_nat (length body), body ++ rest) /\
    N.of_nat (length lenb) = bu /\ 1 <= bu <= 4 /\
    (0 < maxsize -> 1 + bu + N.of_nat (length body) <= maxsize).
Proof.
  intros Hwf H. destruct bs as [|hb r]; [discriminate|]. cbn [read_frame] in H.
  inversion Hwf as [|? ? Hb Hr]; subst.
  destruct (fh_decode hb) as [h'|] eqn:F; [|discriminate].
  destruct (vbi_decode r) as [n bu' rest'| |] eqn:V; try discriminate.
  destruct ((0 <? maxsize) && (maxsize <? n + 1 + bu')) eqn:M; [discriminate|].
  destruct (N.of_nat (length rest') <? n) eqn:L; [discriminate|].
  injection H as <- <- <- <-.
  destruct (decoded_bounded r n bu' rest' Hr V) as (Hn & Hbu & S).
  pose proof (decode_refines_spec r Hr) as D. rewrite S in D. destruct D as [D _].
  rewrite V in D. injection D as Dbu.
  unfold spec_decode in S. destruct (spec_value_prefix _ _ _ _ S) as (pre & Epre & Lpre & P & _).
  exists hb, pre. rewrite fh_decode_is_spec in F by exact Hb.
  assert (Hlen : (N.to_nat n <= length rest')%nat) by lia.
  assert (Hbody : length (firstn (N.to_nat n) rest') = N.to_nat n) by (apply firstn_length_le; exact Hlen).
  rewrite firstn_skipn. split; [rewrite Epre; reflexivity|]. split; [exact F|].
  split; [unfold spec_decode; rewrite P, Hbody, N2Nat.id; reflexivity|].
  assert (Hpre : N.of_nat (length pre) = bu').
  { rewrite Dbu. unfold consumed. rewrite Epre, app_length. lia. }
  split; [exact Hpre|]. split; [exact Hbu|].
  intro Hm. rewrite Hbody. lia.
Qed.

Theorem toolarge_before_body (maxsize hb n : N) (e : bytes) :
  n <= vbi_max -> vbi_encode n = Some e -> fh_decode hb <> None ->
  0 < maxsize -> maxsize < 1 + N.of_nat (length e) + n ->
  forall y, wf_bytes y -> read_frame maxsize (hb :: e ++ y) = TooLarge.
Proof.
  intros Hn E F Hm Hs y Hy. cbn [read_frame].
  destruct (fh_decode hb) as [h|]; [|congruence].
  destruct (roundtrip n Hn) as (e' & E' & Le & R). rewrite E in E'. injection E' as <-.
  rewrite (R y Hy).
  replace ((0 <? maxsize) && (maxsize <? n + 1 + vbi_min_len n)) with true by lia.
  reflexivity.
Qed.

Theorem frame_complete (maxsize hb n : N) (e body rest : bytes) h :
  n <= vbi_max -> vbi_encode n = Some e -> fh_decode hb = Some h ->
  N.of_nat (length body) = n -> wf_bytes body -> wf_bytes rest ->
  (maxsize = 0 \/ 1 + N.of_nat (length e) + n <= maxsize) ->
  read_frame maxsize (hb :: e ++ body ++ rest) = Frame h (vbi_min_len n) body rest.
Proof.
  intros Hn E F Lb Wb Wr Hm. cbn [read_frame]. rewrite F.
  destruct (roundtrip n Hn) as (e' & E' & Le & R). rewrite E in E'. injection E' as <-.
  rewrite (R (body ++ rest) (wf_app _ _ Wb Wr)).
  replace ((0 <? maxsize) && (maxsize <? n + 1 + vbi_min_len n)) with false by lia.
  rewrite app_length.
  replace (N.of_nat (length body + length rest) <? n) with false by lia.
  replace (N.to_nat n) with (length body) by lia.
  rewrite firstn_app, Nat.sub_diag, firstn_all. cbn [firstn]. rewrite app_nil_r.
  rewrite skipn_app, Nat.sub_diag, skipn_all. reflexivity.
Qed.
