(* The WebSocket adapter model (C39).  A read returns data, never gets stuck, and returns at least one byte
   for a non-empty buffer (ws_read_spec, ws_read_not_stuck, ws_read_nonempty).  Reading a sequence of
   binary messages yields their payloads concatenated, a prefix of it while data is outstanding
   (concat_all_binary, concat_all_binary_complete); a non-binary message ends the stream with the invalid-message
   error after exactly the payloads before it (nonbinary_ends, nonbinary_ends_complete).  Writes are one
   binary message per packet (write_side).  stale_reader_leaks: what a reader delivers that inherited
   the unread tail of another connection's message. *)
From MV Require Import Base.Val IO.WsFrame.
From Coq Require Import Lia.
Open Scope N_scope.

Definition cbytes (c : option bytes) : bytes := match c with Some r => r | None => [] end.

Lemma is_nil_true {A} (l : list A) : is_nil l = true -> l = [].
Proof. destruct l; [reflexivity|discriminate]. Qed.

Lemma mr_read_spec rest k o chunk rest' eof : (0 < k)%nat ->
  mr_read rest k o = (chunk, rest', eof) ->
  chunk ++ rest' = rest /\ (length chunk <= k)%nat /\ (eof = true -> rest' = []) /\
  (rest <> [] -> (1 <= length chunk)%nat) /\ (rest = [] -> eof = true).
Proof.
  intros Hk H. destruct rest as [|b r].
  - cbn in H. inversion H; subst. split; [reflexivity|]. split; [cbn; lia|]. split; [reflexivity|].
    split; [intro C; contradiction|reflexivity].
  - unfold mr_read in H.
    set (j := match fst o with O => k | S h => Nat.min (S h) k end) in H.
    assert (Hj : (1 <= j <= k)%nat) by (unfold j; destruct (fst o); lia).
    inversion H; subst chunk rest' eof; clear H.
    split; [apply firstn_skipn|]. split; [rewrite firstn_length; lia|].
    split. { intro E. apply andb_prop in E. apply is_nil_true. exact (proj2 E). }
    split; [intros _; rewrite firstn_length; cbn [length]; lia | intro C; discriminate].
Qed.

Lemma rd_loop_spec : forall fuel need rest o acc d c o', (need < fuel)%nat ->
  rd_loop fuel need rest o acc = (d, c, o') ->
  exists dd, d = acc ++ dd /\ dd ++ cbytes c = rest /\ (length dd <= need)%nat /\
             (c = None \/ length dd = need).
Proof.
  induction fuel as [|f IH]; intros need rest o acc d c o' Hf H; [lia|].
  cbn [rd_loop] in H. destruct need as [|n].
  - injection H as <- <- <-. exists []. rewrite app_nil_r. cbn [cbytes app length].
    split; [reflexivity|]. split; [reflexivity|]. split; [lia | right; reflexivity].
  - destruct (next_or o) as [x o1]. destruct (mr_read rest (S n) x) as [[chunk rest'] eof] eqn:Em.
    destruct (mr_read_spec rest (S n) x chunk rest' eof ltac:(lia) Em) as (A1 & A2 & A3 & A4 & A5).
    destruct eof.
    + injection H as <- <- <-. exists chunk. rewrite (A3 eq_refl) in A1. cbn [cbytes].
      split; [reflexivity|]. split; [exact A1|]. split; [exact A2 | left; reflexivity].
    + assert (Hne : rest <> []) by (intro E; specialize (A5 E); discriminate).
      specialize (A4 Hne).
      destruct (IH (S n - length chunk)%nat rest' o1 (acc ++ chunk) d c o' ltac:(lia) H) as (dd & B1 & B2 & B3 & B4).
      exists (chunk ++ dd). rewrite app_assoc. split; [exact B1|].
      split; [rewrite <- app_assoc, B2; exact A1|].
      split; [rewrite app_length; lia|].
      destruct B4 as [B4 | B4]; [left; exact B4 | right; rewrite app_length; lia].
Qed.

Fixpoint tail_after (ms : list msg) : option (list msg) :=
  match ms with
  | [] => None
  | m :: r => if is_binary m then tail_after r else Some r
  end.

Lemma all_binary_stream ms : all_binary ms = true ->
  stream ms = concat (map snd ms) /\ tail_after ms = None.
Proof.
  induction ms as [|m r IH]; intro H; [split; reflexivity|].
  cbn [all_binary forallb] in H. apply andb_prop in H. destruct H as [Hm Hr].
  destruct (IH Hr) as [I1 I2]. cbn [stream tail_after map concat]. rewrite Hm, I1, I2. split; reflexivity.
Qed.

Lemma stream_app_nonbinary pre m post : all_binary pre = true -> is_binary m = false ->
  stream (pre ++ m :: post) = concat (map snd pre) /\ tail_after (pre ++ m :: post) = Some post.
Proof.
  induction pre as [|x r IH]; intros H Hm.
  - cbn. rewrite Hm. split; reflexivity.
  - cbn [all_binary forallb] in H. apply andb_prop in H. destruct H as [Hx Hr].
    destruct (IH Hr Hm) as [I1 I2]. cbn [app stream tail_after map concat]. rewrite Hx, I1, I2.
    split; reflexivity.
Qed.

Lemma read_data sz rest ms o d c o' : rd_loop (S sz) sz rest o [] = (d, c, o') ->
  d ++ pending (mkWs c ms) = rest ++ stream ms /\ (length d <= sz)%nat /\
  (d = [] -> (0 < sz)%nat -> c = None).
Proof.
  intro E. destruct (rd_loop_spec _ _ _ _ _ _ _ _ (Nat.lt_succ_diag_r sz) E) as (dd & B1 & B2 & B3 & B4).
  cbn [app] in B1. subst dd. unfold pending. cbn [cur msgs].
  split; [rewrite <- B2, <- app_assoc; reflexivity|]. split; [exact B3|].
  intros -> Hsz. destruct B4 as [B4 | B4]; [exact B4 | cbn in B4; lia].
Qed.

Definition measure (s : ws) : nat := (length (msgs s) + match cur s with Some _ => 1 | None => 0 end)%nat.

Lemma read1_spec sz s o r s' o' : read1 sz s o = (r, s', o') ->
  match r with
  | R1Data d => d ++ pending s' = pending s /\ (length d <= sz)%nat /\
                tail_after (msgs s') = tail_after (msgs s) /\
                (d = [] -> (0 < sz)%nat -> (measure s' < measure s)%nat)
  | R1Invalid => pending s = [] /\ cur s' = None /\ tail_after (msgs s) = Some (msgs s')
  | R1Closed => pending s = [] /\ tail_after (msgs s) = None /\ pending s' = []
  end.
Proof.
  unfold read1. destruct s as [c ms]. cbn [cur msgs]. destruct c as [rest|].
  - destruct (rd_loop (S sz) sz rest o []) as [[d c'] o1] eqn:E. intro H. injection H as <- <- <-.
    destruct (read_data sz rest ms o d c' o1 E) as (P1 & P2 & P3).
    split; [exact P1|]. split; [exact P2|]. split; [reflexivity|].
    intros Ed Hsz. rewrite (P3 Ed Hsz). unfold measure. cbn [cur msgs]. lia.
  - destruct ms as [|m r0]; [intro H; injection H as <- <- <-; repeat split; reflexivity|].
    unfold pending. cbn [cur app stream tail_after msgs]. destruct (is_binary m).
    + destruct (rd_loop (S sz) sz (snd m) o []) as [[d c'] o1] eqn:E. intro H. injection H as <- <- <-.
      destruct (read_data sz (snd m) r0 o d c' o1 E) as (P1 & P2 & P3).
      split; [exact P1|]. split; [exact P2|]. split; [reflexivity|].
      intros Ed Hsz. rewrite (P3 Ed Hsz). unfold measure. cbn [cur msgs length]. lia.
    + intro H. injection H as <- <- <-. repeat split; reflexivity.
Qed.

(* what a Read returns: bytes from the front of what is pending (at least one if there is room),
   or an error exactly where the stream of binary messages ends *)
Definition read_post (sz : nat) (s : ws) (r : rres) (s' : ws) : Prop :=
  match r with
  | ROk d => d ++ pending s' = pending s /\ (length d <= sz)%nat /\ ((0 < sz)%nat -> d <> []) /\
             tail_after (msgs s') = tail_after (msgs s)
  | RInvalid => pending s = [] /\ cur s' = None /\ tail_after (msgs s) = Some (msgs s')
  | RClosed => pending s = [] /\ tail_after (msgs s) = None /\ pending s' = []
  | RStuck => False
  end.

Lemma read_fuel_spec : forall fuel sz s o r s' o', (measure s < fuel)%nat ->
  read_fuel fuel sz s o = (r, s', o') -> read_post sz s r s'.
Proof.
  induction fuel as [|f IH]; intros sz s o r s' o' Hf H; [lia|].
  cbn [read_fuel] in H. destruct (read1 sz s o) as [[r1 s1] o1] eqn:E1.
  pose proof (read1_spec sz s o r1 s1 o1 E1) as S1. destruct r1 as [d| |].
  - destruct S1 as (P1 & P2 & P3 & P4).
    destruct (negb (is_nil d) || Nat.eqb sz 0) eqn:Ec.
    + injection H as <- <- <-. split; [exact P1|]. split; [exact P2|]. split; [|exact P3].
      intros Hsz Ed. subst d. cbn in Ec. apply Nat.eqb_eq in Ec. lia.
    + (* an empty read with room: the next round starts from a smaller state with the same pending bytes *)
      apply orb_false_elim in Ec. destruct Ec as [Ed Esz].
      assert (d = []) by (destruct d; [reflexivity|discriminate]). subst d.
      apply Nat.eqb_neq in Esz. specialize (P4 eq_refl ltac:(lia)).
      specialize (IH sz s1 o1 r s' o' ltac:(lia) H). cbn [app] in P1.
      unfold read_post in *. rewrite <- P1, <- P3. exact IH.
  - injection H as <- <- <-. exact S1.
  - injection H as <- <- <-. exact S1.
Qed.

Lemma ws_read_spec sz s o r s' o' : ws_read sz s o = (r, s', o') -> read_post sz s r s'.
Proof. unfold ws_read. apply read_fuel_spec. unfold measure. destruct (cur s); lia. Qed.

Lemma ws_read_not_stuck sz s o s' o' : ws_read sz s o <> (RStuck, s', o').
Proof. intro H. exact (ws_read_spec sz s o RStuck s' o' H). Qed.

Lemma ws_read_nonempty sz s o d s' o' : (0 < sz)%nat -> ws_read sz s o = (ROk d, s', o') -> d <> [].
Proof. intros Hsz H. exact (proj1 (proj2 (proj2 (ws_read_spec sz s o (ROk d) s' o' H))) Hsz). Qed.

Lemma read_all_spec : forall sizes s o d e sf, read_all sizes s o = (d, e, sf) ->
  match e with
  | EOpen => d ++ pending sf = pending s /\ tail_after (msgs sf) = tail_after (msgs s)
  | EInvalid => d = pending s /\ tail_after (msgs s) = Some (msgs sf) /\ cur sf = None
  | EClosed => d = pending s /\ tail_after (msgs s) = None /\ pending sf = []
  | EStuck => False
  end.
Proof.
  induction sizes as [|sz r IH]; intros s o d e sf H; cbn [read_all] in H.
  - inversion H; subst. split; reflexivity.
  - destruct (ws_read sz s o) as [[rr s1] o1] eqn:E. pose proof (ws_read_spec sz s o rr s1 o1 E) as S1.
    destruct rr as [d1| | |].
    + destruct (read_all r s1 o1) as [[ds e1] sf1] eqn:E2. inversion H; subst; clear H.
      destruct S1 as (P1 & _ & _ & P4). specialize (IH s1 o1 ds e sf E2).
      destruct e.
      * destruct IH as [Q1 Q2]. rewrite <- app_assoc, Q1, P1, Q2, P4. split; reflexivity.
      * destruct IH as (Q1 & Q2 & Q3). rewrite Q1, P1, <- P4. repeat split; assumption.
      * destruct IH as (Q1 & Q2 & Q3). rewrite Q1, P1, <- P4. repeat split; assumption.
      * exact IH.
    + inversion H; subst; clear H. destruct S1 as (P1 & P2 & P3). rewrite P1. repeat split; assumption.
    + inversion H; subst; clear H. destruct S1 as (P1 & P2 & P3). rewrite P1. repeat split; assumption.
    + contradiction.
Qed.

Lemma read_all_progress : forall sizes s o d e sf, Forall (fun z => (0 < z)%nat) sizes ->
  (length (pending s) < length sizes)%nat -> read_all sizes s o = (d, e, sf) -> e <> EOpen.
Proof.
  induction sizes as [|sz r IH]; intros s o d e sf HF HL H; [cbn in HL; lia|].
  cbn [read_all] in H. inversion HF as [|? ? Hsz HFr]; subst.
  destruct (ws_read sz s o) as [[rr s1] o1] eqn:E. pose proof (ws_read_spec sz s o rr s1 o1 E) as S1.
  destruct rr as [d1| | |].
  - destruct (read_all r s1 o1) as [[ds e1] sf1] eqn:E2. inversion H; subst; clear H.
    destruct S1 as (P1 & _ & P3 & _). specialize (P3 Hsz).
    apply (IH s1 o1 ds e sf HFr); [|exact E2].
    assert (L : length (pending s) = (length d1 + length (pending s1))%nat) by (rewrite <- P1, app_length; reflexivity).
    destruct d1; [contradiction|]. cbn [length] in *. lia.
  - inversion H; subst. discriminate.
  - inversion H; subst. discriminate.
  - inversion H; subst. discriminate.
Qed.

Lemma pending_fresh ms : pending (mkWs None ms) = stream ms.
Proof. reflexivity. Qed.

Lemma concat_all_binary ms sizes o d e sf : all_binary ms = true ->
  read_all sizes (mkWs None ms) o = (d, e, sf) ->
  e <> EInvalid /\ e <> EStuck /\
  (e = EOpen -> d ++ pending sf = concat (map snd ms)) /\
  (e = EClosed -> d = concat (map snd ms) /\ pending sf = []).
Proof.
  intros Hb H. destruct (all_binary_stream ms Hb) as [S1 S2].
  pose proof (read_all_spec sizes _ o d e sf H) as R. rewrite pending_fresh, S1 in R. cbn [msgs] in R. rewrite S2 in R.
  destruct e.
  - destruct R as [R1 _]. repeat split; try discriminate; auto.
  - destruct R as (_ & R2 & _). discriminate R2.
  - destruct R as (R1 & _ & R3). repeat split; try discriminate; auto.
  - contradiction.
Qed.

Lemma concat_all_binary_complete ms sizes o d e sf : all_binary ms = true ->
  Forall (fun z => (0 < z)%nat) sizes -> (length (concat (map snd ms)) < length sizes)%nat ->
  read_all sizes (mkWs None ms) o = (d, e, sf) ->
  e = EClosed /\ d = concat (map snd ms).
Proof.
  intros Hb HF HL H. destruct (concat_all_binary ms sizes o d e sf Hb H) as (N1 & N2 & _ & N4).
  assert (e <> EOpen).
  { apply (read_all_progress sizes (mkWs None ms) o d e sf HF); [|exact H].
    rewrite pending_fresh, (proj1 (all_binary_stream ms Hb)). exact HL. }
  destruct e; try contradiction. split; [reflexivity|exact (proj1 (N4 eq_refl))].
Qed.

Lemma nonbinary_ends pre m post sizes o d e sf : all_binary pre = true -> is_binary m = false ->
  read_all sizes (mkWs None (pre ++ m :: post)) o = (d, e, sf) ->
  e <> EClosed /\ e <> EStuck /\
  (exists rest, d ++ rest = concat (map snd pre)) /\
  (e = EInvalid -> d = concat (map snd pre) /\ msgs sf = post /\ cur sf = None).
Proof.
  intros Hb Hm H. destruct (stream_app_nonbinary pre m post Hb Hm) as [S1 S2].
  pose proof (read_all_spec sizes _ o d e sf H) as R. rewrite pending_fresh, S1 in R. cbn [msgs] in R. rewrite S2 in R.
  destruct e.
  - destruct R as [R1 _]. split; [discriminate|]. split; [discriminate|].
    split; [exists (pending sf); exact R1 | discriminate].
  - destruct R as (R1 & R2 & R3). injection R2 as R2.
    split; [discriminate|]. split; [discriminate|]. split; [exists []; rewrite app_nil_r; exact R1|].
    intros _. repeat split; auto.
  - destruct R as (_ & R2 & _). discriminate R2.
  - contradiction.
Qed.

Lemma nonbinary_ends_complete pre m post sizes o d e sf : all_binary pre = true -> is_binary m = false ->
  Forall (fun z => (0 < z)%nat) sizes -> (length (concat (map snd pre)) < length sizes)%nat ->
  read_all sizes (mkWs None (pre ++ m :: post)) o = (d, e, sf) ->
  e = EInvalid /\ d = concat (map snd pre) /\ msgs sf = post.
Proof.
  intros Hb Hm HF HL H. destruct (nonbinary_ends pre m post sizes o d e sf Hb Hm H) as (N1 & N2 & _ & N4).
  assert (e <> EOpen).
  { apply (read_all_progress sizes (mkWs None (pre ++ m :: post)) o d e sf HF); [|exact H].
    rewrite pending_fresh, (proj1 (stream_app_nonbinary pre m post Hb Hm)). exact HL. }
  destruct e; try contradiction. destruct (N4 eq_refl) as (A & B & _). repeat split; assumption.
Qed.

Lemma write_side ps : all_binary (map ws_write ps) = true /\ stream (map ws_write ps) = concat ps.
Proof.
  induction ps as [|p r [I1 I2]]; [split; reflexivity|].
  cbn [map all_binary forallb stream]. unfold ws_write at 1 3. cbn [is_binary fst snd].
  change (2 =? 2) with true. cbn [andb]. split; [exact I1|]. rewrite I2. reflexivity.
Qed.

Lemma serve_independent before c after :
  serve (before ++ c :: after) = serve before ++ serve1 c :: serve after.
Proof. unfold serve. rewrite map_app. reflexivity. Qed.

Lemma stale_reader_leaks tail ms sizes o d e sf : all_binary ms = true ->
  Forall (fun z => (0 < z)%nat) sizes -> (length (tail ++ concat (map snd ms)) < length sizes)%nat ->
  read_all sizes (mkWs (Some tail) ms) o = (d, e, sf) ->
  d = tail ++ concat (map snd ms).
Proof.
  intros Hb HF HL H. pose proof (read_all_spec sizes _ o d e sf H) as R.
  assert (P : pending (mkWs (Some tail) ms) = tail ++ concat (map snd ms)).
  { unfold pending. cbn [cur msgs]. rewrite (proj1 (all_binary_stream ms Hb)). reflexivity. }
  assert (Ne : e <> EOpen).
  { apply (read_all_progress sizes (mkWs (Some tail) ms) o d e sf HF); [rewrite P; exact HL|exact H]. }
  destruct e; try contradiction.
  - destruct R as (R1 & _). rewrite R1. exact P.
  - destruct R as (R1 & _). rewrite R1. exact P.
Qed.
