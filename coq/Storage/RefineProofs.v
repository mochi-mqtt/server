(* Generic refinement used by the C20 / C21 proofs: a byte-keyed store that holds records under
   encoded keys, against an association map over the structured keys, under the same sequence of
   set / delete operations; and the effect of loading the stored records back into a map keyed by
   the key each record carries.

   The idea: as long as the encoding tells the keys of the history apart, the store is the image of
   the map, entry by entry ([srun_image]); loading the records of a map without duplicate keys visits
   every key once ([load_image]). *)
From MV Require Import Base.Val Base.BytesEq Storage.Kv Storage.KvProofs Storage.Restart.
Open Scope N_scope.

Section KVFACTS.
  Context {R : Type}.
  Implicit Types (s : kv R).

  Lemma kv_get_none_notin k s : ~ In k (map fst s) -> kv_get k s = None.
  Proof. exact (aget_notin beq_bytes beq_bytes_eq k s). Qed.
End KVFACTS.

Section REFINE.
  Context {K V R W : Type}.
  Variable keqb : K -> K -> bool.
  Hypothesis keqb_eq : forall a b, keqb a b = true <-> a = b.
  Variable enc : K -> bytes.           (* the storage key of a structured key *)
  Variable rec_of : K -> V -> R.       (* the record stored for a value under a key *)
  Variable key_of : R -> K.            (* the key a loader derives from a stored record *)
  Hypothesis key_of_rec : forall k v, key_of (rec_of k v) = k.

  Inductive op := OSet (k : K) (v : V) | ODel (k : K).
  Definition op_key (o : op) : K := match o with OSet k _ => k | ODel k => k end.

  Definition sstep (s : kv R) (o : op) : kv R :=
    match o with OSet k v => kv_set (enc k) (rec_of k v) s | ODel k => kv_del (enc k) s end.
  Definition mstep (m : amap K V) (o : op) : amap K V :=
    match o with OSet k v => aset keqb k v m | ODel k => adel keqb k m end.
  Definition srun (ops : list op) : kv R := fold_left sstep ops [].
  Definition mrun (ops : list op) : amap K V := fold_left mstep ops [].

  Definition keys (ops : list op) : list K := map op_key ops.
  Definition inj_on (ks : list K) : Prop := forall a b, In a ks -> In b ks -> enc a = enc b -> a = b.

  Lemma keys_mstep k m o : In k (map fst (mstep m o)) -> k = op_key o \/ In k (map fst m).
  Proof.
    destruct o as [k0 v | k0]; cbn [mstep op_key]; intro H.
    - exact (keys_aset keqb keqb_eq _ _ _ _ H).
    - right. exact (keys_adel keqb _ _ _ H).
  Qed.

  Lemma nodup_mstep m o : NoDup (map fst m) -> NoDup (map fst (mstep m o)).
  Proof. destruct o; cbn [mstep]; [apply (nodup_aset keqb keqb_eq) | apply nodup_adel]. Qed.

  Lemma nodup_mrun ops : NoDup (map fst (mrun ops)).
  Proof.
    unfold mrun. assert (G : forall m, NoDup (map fst m) -> NoDup (map fst (fold_left mstep ops m))).
    { induction ops as [|o ops IH]; intros m H; [exact H|]. apply IH, nodup_mstep, H. }
    apply G. constructor.
  Qed.

  Lemma fold_mstep_untouched ops k : ~ In k (keys ops) -> forall m,
    aget keqb k (fold_left mstep ops m) = aget keqb k m.
  Proof.
    induction ops as [|o ops IH]; intros NI m; [reflexivity|]. cbn [fold_left].
    rewrite IH by (intro X; apply NI; right; exact X).
    assert (N : keqb k (op_key o) = false) by (apply (keqb_neq keqb keqb_eq); intro X; apply NI; left; symmetry; exact X).
    destruct o; cbn [mstep op_key] in *; [rewrite (aget_aset keqb keqb_eq)|rewrite (aget_adel keqb keqb_eq)];
      rewrite N; reflexivity.
  Qed.

  Lemma mrun_app_untouched ops1 ops2 k : ~ In k (keys ops2) ->
    aget keqb k (mrun (ops1 ++ ops2)) = aget keqb k (mrun ops1).
  Proof. intro NI. unfold mrun. rewrite fold_left_app. apply fold_mstep_untouched. exact NI. Qed.

  Lemma mrun_origin ops k v : aget keqb k (mrun ops) = Some v -> In (OSet k v) ops.
  Proof.
    unfold mrun. assert (G : forall m, aget keqb k (fold_left mstep ops m) = Some v ->
                                       In (OSet k v) ops \/ aget keqb k m = Some v).
    { induction ops as [|o ops IH]; intros m H; [right; exact H|]. cbn [fold_left] in H.
      destruct (IH _ H) as [I|A]; [left; right; exact I|].
      destruct o as [k' v' | k']; cbn [mstep] in A;
        [rewrite (aget_aset keqb keqb_eq) in A|rewrite (aget_adel keqb keqb_eq) in A];
        (destruct (keqb k k') eqn:E; [|right; exact A]).
      - apply keqb_eq in E. subst k'. injection A as ->. left. left. reflexivity.
      - discriminate A. }
    intro H. destruct (G [] H) as [I|A]; [exact I | discriminate A].
  Qed.

  Definition entry (e : K * V) : bytes * R := (enc (fst e), rec_of (fst e) (snd e)).

  Lemma inj_tells_apart ks k (m : amap K V) : inj_on ks -> In k ks -> incl (map fst m) ks -> tells_apart keqb enc k m.
  Proof.
    intros INJ Ik Im k' I. destruct (keqb k k') eqn:E.
    - apply keqb_eq in E. subst k'. apply beq_bytes_refl.
    - apply beq_bytes_neq. intro X. apply (INJ k k' Ik (Im k' I)) in X. subst k'.
      rewrite (keqb_refl keqb keqb_eq) in E. discriminate.
  Qed.

  Lemma srun_image ops : inj_on (keys ops) -> srun ops = map entry (mrun ops).
  Proof.
    intro INJ. unfold srun, mrun.
    assert (G : forall ops', incl (keys ops') (keys ops) -> forall m, incl (map fst m) (keys ops) ->
                fold_left sstep ops' (map entry m) = map entry (fold_left mstep ops' m)).
    { induction ops' as [|o ops' IH]; intros Io m Im; [reflexivity|]. cbn [fold_left].
      assert (Ik : In (op_key o) (keys ops)) by (apply Io; left; reflexivity).
      rewrite <- IH.
      - f_equal. pose proof (inj_tells_apart _ _ _ INJ Ik Im) as T.
        destruct o; cbn [sstep mstep op_key] in *; symmetry; [apply (map_aset keqb) | apply (map_adel keqb)]; exact T.
      - intros k I. apply Io. right. exact I.
      - intros k I. destruct (keys_mstep _ _ _ I) as [->|I']; [exact Ik | exact (Im k I')]. }
    apply (G ops (incl_refl _) []). intros k [].
  Qed.

  (* what a loader does with one record: skip it, clear its key, or set its key *)
  Inductive action := Skip | Clear | Put (w : W).
  Variable act : R -> action.

  Definition lstep (m : amap K W) (r : R) : amap K W :=
    match act r with Skip => m | Clear => adel keqb (key_of r) m | Put w => aset keqb (key_of r) w m end.
  Definition load (rs : list R) : amap K W := fold_left lstep rs [].

  Definition put_of (r : R) : option W := match act r with Put w => Some w | _ => None end.

  Lemma load_image (m : amap K V) : NoDup (map fst m) -> forall acc k,
    aget keqb k (fold_left lstep (kv_vals (map entry m)) acc) =
    match aget keqb k m with
    | Some v => match act (rec_of k v) with Skip => aget keqb k acc | Clear => None | Put w => Some w end
    | None => aget keqb k acc
    end.
  Proof.
    induction m as [|[k0 v0] r IH]; intros ND acc k; [reflexivity|].
    cbn [map fst] in ND. inversion ND as [|? ? NI ND']; subst.
    unfold kv_vals in *. cbn [map entry fold_left fst snd aget]. rewrite (IH ND'). unfold lstep. rewrite key_of_rec.
    (* the first record decides under its own key, which no later record has *)
    destruct (keqb k k0) eqn:E.
    - apply keqb_eq in E. subst k0. rewrite (aget_notin keqb keqb_eq _ _ NI).
      destruct (act (rec_of k v0)); [reflexivity|rewrite (aget_adel keqb keqb_eq)|rewrite (aget_aset keqb keqb_eq)];
        rewrite (keqb_refl keqb keqb_eq); reflexivity.
    - replace (aget keqb k (match act (rec_of k0 v0) with
                            | Skip => acc | Clear => adel keqb k0 acc | Put w => aset keqb k0 w acc end))
        with (aget keqb k acc); [reflexivity|].
      destruct (act (rec_of k0 v0)); [reflexivity|rewrite (aget_adel keqb keqb_eq)|rewrite (aget_aset keqb keqb_eq)];
        rewrite E; reflexivity.
  Qed.

  Theorem load_refines ops : inj_on (keys ops) -> forall k,
    aget keqb k (load (kv_vals (srun ops))) =
    match aget keqb k (mrun ops) with Some v => put_of (rec_of k v) | None => None end.
  Proof.
    intros INJ k. unfold load. rewrite (srun_image ops INJ).
    rewrite (load_image _ (nodup_mrun ops) [] k). unfold put_of.
    destruct (aget keqb k (mrun ops)) as [v|]; [|reflexivity]. destruct (act (rec_of k v)); reflexivity.
  Qed.
End REFINE.
