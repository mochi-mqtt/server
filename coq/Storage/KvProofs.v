(* Lemmas about association lists: the maps over an arbitrary key type of Storage/Restart.v, and
   the byte-keyed store of Storage/Kv.v, which is the same three functions at key type [bytes]
   ([kv_get] = [aget beq_bytes], [kv_set] = [aset beq_bytes], [kv_del] = [adel beq_bytes], by
   conversion). *)
From MV Require Import Base.Val Base.BytesEq Topics.Alist Topics.AlistProofs Storage.Kv Storage.StoreHooks Storage.Restart.
Open Scope N_scope.

Lemma beq_bytes_false (a b : bytes) : beq_bytes a b = false -> a <> b.
Proof. apply beq_bytes_neq. Qed.

Lemma has_prefix_app (p r : bytes) : has_prefix p (p ++ r) = true.
Proof.
  induction p as [|x p IH]; cbn [app has_prefix]; [reflexivity|]. rewrite N.eqb_refl, IH. reflexivity.
Qed.

Section AMAP.
  Context {K V : Type}.
  Variable keqb : K -> K -> bool.
  Hypothesis keqb_eq : forall a b, keqb a b = true <-> a = b.
  Implicit Types (m : amap K V) (k : K) (v : V).

  Lemma keqb_refl a : keqb a a = true.
  Proof. apply keqb_eq. reflexivity. Qed.

  Lemma keqb_neq a b : a <> b -> keqb a b = false.
  Proof. exact (eqb_neq keqb_eq a b). Qed.

  (* [aget keqb k m] tests [keqb k k'] where [al_get eqb k m] of Topics/Alist.v tests [eqb k' k]: aget, aset, adel
     are al_get, al_set, al_del at the flipped test, by conversion, and take their lemmas from Topics/AlistProofs.v *)
  Definition flipped (a b : K) : bool := keqb b a.
  Lemma flipped_eq a b : flipped a b = true <-> a = b.
  Proof. unfold flipped. rewrite keqb_eq. split; intro H; symmetry; exact H. Qed.

  Lemma aget_aset k k' v m : aget keqb k (aset keqb k' v m) = if keqb k k' then Some v else aget keqb k m.
  Proof. exact (al_get_set flipped_eq k' k v m). Qed.

  Lemma aget_adel k k' m : aget keqb k (adel keqb k' m) = if keqb k k' then None else aget keqb k m.
  Proof. exact (al_get_del flipped_eq k' k m). Qed.

  Lemma aget_notin k m : ~ In k (map fst m) -> aget keqb k m = None.
  Proof. exact (proj2 (al_get_None_notin flipped_eq k m)). Qed.

  Lemma keys_aset k k0 v m : In k (map fst (aset keqb k0 v m)) -> k = k0 \/ In k (map fst m).
  Proof.
    intro H. destruct (proj1 (keys_al_set_in flipped_eq k0 v m k) H) as [E|I]; [left; symmetry; exact E | right; exact I].
  Qed.

  Lemma keys_adel k k0 m : In k (map fst (adel keqb k0 m)) -> In k (map fst m).
  Proof. exact (keys_al_del_in (eqb:=flipped) k0 m k). Qed.

  Lemma nodup_aset k v m : NoDup (map fst m) -> NoDup (map fst (aset keqb k v m)).
  Proof. exact (NoDup_al_set flipped_eq k v m). Qed.

  Lemma nodup_adel k m : NoDup (map fst m) -> NoDup (map fst (adel keqb k m)).
  Proof. exact (NoDup_al_del (eqb:=flipped) k m). Qed.

  (* Mapping the entries of a map to entries of a byte-keyed store commutes with set / delete as
     long as the key translation [f] tells the key apart from the keys present. *)
  Context {W : Type}.
  Variable f : K -> bytes.
  Variable g : K -> V -> W.
  Let e := fun x : K * V => (f (fst x), g (fst x) (snd x)).
  Definition tells_apart k m : Prop := forall k', In k' (map fst m) -> beq_bytes (f k) (f k') = keqb k k'.

  Lemma map_aset k v m : tells_apart k m -> map e (aset keqb k v m) = kv_set (f k) (g k v) (map e m).
  Proof.
    induction m as [|[k' v'] r IH]; intro T; cbn [aset kv_set map]; [reflexivity|].
    unfold e at 2. cbn [fst snd]. rewrite (T k') by (left; reflexivity).
    destruct (keqb k k'); cbn [map]; [reflexivity|].
    rewrite IH by (intros k2 I; apply T; right; exact I). reflexivity.
  Qed.

  Lemma map_adel k m : tells_apart k m -> map e (adel keqb k m) = kv_del (f k) (map e m).
  Proof.
    induction m as [|[k' v'] r IH]; intro T; cbn [adel kv_del map]; [reflexivity|].
    unfold e at 2. cbn [fst snd]. rewrite (T k') by (left; reflexivity).
    assert (T' : tells_apart k r) by (intros k2 I; apply T; right; exact I).
    destruct (keqb k k'); cbn [map]; rewrite IH by exact T'; reflexivity.
  Qed.
End AMAP.

Section KV.
  Context {V : Type}.
  Implicit Types (s : kv V) (k : bytes) (v : V).

  Lemma kv_get_set k k' v s : kv_get k (kv_set k' v s) = if beq_bytes k k' then Some v else kv_get k s.
  Proof. exact (aget_aset beq_bytes beq_bytes_eq k k' v s). Qed.

  Lemma kv_get_del k k' s : kv_get k (kv_del k' s) = if beq_bytes k k' then None else kv_get k s.
  Proof. exact (aget_adel beq_bytes beq_bytes_eq k k' s). Qed.

  Variable P : bytes -> bool.
  Definition keyp := fun e : bytes * V => P (fst e).

  Lemma filter_set k v s :
    filter keyp (kv_set k v s) = if P k then kv_set k v (filter keyp s) else filter keyp s.
  Proof.
    unfold keyp. induction s as [|[k' v'] r IH]; cbn [kv_set filter fst]; [destruct (P k); reflexivity|].
    destruct (beq_bytes k k') eqn:E; cbn [filter fst].
    - apply beq_bytes_eq in E. subst k'. destruct (P k); [|reflexivity]. cbn [kv_set]. rewrite beq_bytes_refl. reflexivity.
    - rewrite IH. destruct (P k'), (P k); try reflexivity. cbn [kv_set]. rewrite E. reflexivity.
  Qed.

  Lemma filter_del k s :
    filter keyp (kv_del k s) = if P k then kv_del k (filter keyp s) else filter keyp s.
  Proof.
    unfold keyp. induction s as [|[k' v'] r IH]; cbn [kv_del filter fst]; [destruct (P k); reflexivity|].
    destruct (beq_bytes k k') eqn:E; cbn [filter fst]; rewrite IH.
    - apply beq_bytes_eq in E. subst k'. destruct (P k); [|reflexivity]. cbn [kv_del]. rewrite beq_bytes_refl. reflexivity.
    - destruct (P k'), (P k); try reflexivity. cbn [kv_del]. rewrite E. reflexivity.
  Qed.
End KV.

Section HASHES.
  Context {V : Type}.
  Implicit Types (s : hashes V).

  Lemma hash_of_hset h' h f v s :
    hash_of h' (hset h f v s) = if beq_bytes h' h then kv_set f v (hash_of h' s) else hash_of h' s.
  Proof.
    unfold hset. unfold hash_of at 1. rewrite kv_get_set. destruct (beq_bytes h' h) eqn:E; [|reflexivity].
    apply beq_bytes_eq in E. subst h'. reflexivity.
  Qed.

  Lemma hash_of_hdel h' h f s :
    hash_of h' (hdel h f s) = if beq_bytes h' h then kv_del f (hash_of h' s) else hash_of h' s.
  Proof.
    unfold hdel, hash_of. destruct (kv_get h s) as [m|] eqn:G.
    - rewrite kv_get_set. destruct (beq_bytes h' h) eqn:E; [|reflexivity].
      apply beq_bytes_eq in E. subst h'. rewrite G. reflexivity.
    - destruct (beq_bytes h' h) eqn:E; [|reflexivity]. apply beq_bytes_eq in E. subst h'. rewrite G. reflexivity.
  Qed.
End HASHES.
