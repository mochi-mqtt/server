(* C20 / C21: the state a restarted broker loads from the store is the state the storage writes
   describe, for every sequence of writes (hence for every history and for every prefix of its
   write log), on every back end, outside the listed findings. *)
From Coq Require Import Lia ZArith ZifyBool.
From MV Require Import Base.Val Base.BytesEq Base.ListMisc Storage.Kv Storage.KvProofs Storage.StoreHooks
                       Storage.StoreProofs Storage.Restart Storage.RefineProofs.
Open Scope N_scope.

Lemma pair_eqb_eq {B} (eqb : B -> B -> bool) (eqb_eq : forall x y, eqb x y = true <-> x = y) (a b : bytes * B) :
  beq_bytes (fst a) (fst b) && eqb (snd a) (snd b) = true <-> a = b.
Proof.
  destruct a as [a1 a2], b as [b1 b2]. cbn [fst snd]. rewrite andb_true_iff, beq_bytes_eq, eqb_eq.
  split; [intros [-> ->]; reflexivity | intro H; injection H as -> ->; split; reflexivity].
Qed.

Lemma sub_key_eqb_eq (a b : sub_key) : sub_key_eqb a b = true <-> a = b.
Proof. exact (pair_eqb_eq beq_bytes beq_bytes_eq a b). Qed.

Lemma ifm_key_eqb_eq (a b : ifm_key) : ifm_key_eqb a b = true <-> a = b.
Proof. exact (pair_eqb_eq N.eqb N.eqb_eq a b). Qed.

(* "<id>:<decimal>" splits in one way only *)
Definition no_colon (d : bytes) : bool := forallb (fun b => negb (b =? colon)) d.

Lemma no_colon_app_colon a d : no_colon (a ++ colon :: d) = false.
Proof.
  induction a as [|x a IH]; cbn [app no_colon forallb].
  - rewrite N.eqb_refl. reflexivity.
  - fold (no_colon (a ++ colon :: d)). rewrite IH. apply andb_false_r.
Qed.

Lemma app_colon_inj a b d1 d2 : no_colon d1 = true -> no_colon d2 = true ->
  a ++ colon :: d1 = b ++ colon :: d2 -> a = b /\ d1 = d2.
Proof.
  revert b. induction a as [|x a IH]; intros [|y b] N1 N2 E; cbn [app] in E.
  - injection E as ->. split; reflexivity.
  - injection E as _ E. subst d1. rewrite no_colon_app_colon in N1. discriminate.
  - injection E as _ E. subst d2. rewrite no_colon_app_colon in N2. discriminate.
  - injection E as -> E. destruct (IH b N1 N2 E) as [-> ->]. split; reflexivity.
Qed.

(* strconv.FormatUint prints digits only, and reading the digits back (most significant first, on
   top of the digits [acc] already printed) gives the number: so the printing is injective; 20
   digits (the fuel of [dec]) cover every uint64 *)
Definition digit_step (a b : N) : N := a * 10 + (b - 48).

Lemma dec_fuel_value f : forall n acc, n < 10 ^ N.of_nat f ->
  fold_left digit_step (dec_fuel f n acc) 0 = fold_left digit_step acc n.
Proof.
  induction f as [|f IH]; intros n acc H.
  - change (10 ^ N.of_nat 0) with 1 in H. assert (n = 0) by lia. subst n. reflexivity.
  - cbn [dec_fuel]. rewrite Nat2N.inj_succ, N.pow_succ_r' in H.
    pose proof (N.div_mod n 10 ltac:(discriminate)) as E.
    assert (S : digit_step (n / 10) (48 + n mod 10) = n)
      by (unfold digit_step; rewrite (N.add_comm 48), N.add_sub; lia).
    destruct (n / 10 =? 0) eqn:Z.
    + apply N.eqb_eq in Z. rewrite Z in S. cbn [fold_left]. rewrite S. reflexivity.
    + rewrite IH by (apply N.div_lt_upper_bound; lia). cbn [fold_left]. rewrite S. reflexivity.
Qed.

Lemma dec_fuel_no_colon f : forall n acc, no_colon acc = true -> no_colon (dec_fuel f n acc) = true.
Proof.
  induction f as [|f IH]; intros n acc H; [exact H|]. cbn [dec_fuel].
  assert (A : no_colon ((48 + n mod 10) :: acc) = true).
  { cbn [no_colon forallb]. fold (no_colon acc). rewrite H, andb_true_r. apply negb_true_iff, N.eqb_neq.
    pose proof (N.mod_lt n 10 ltac:(discriminate)). unfold colon. lia. }
  destruct (n / 10 =? 0); [exact A | apply IH, A].
Qed.

Lemma dec_inj n m : n < 10 ^ 20 -> m < 10 ^ 20 -> dec n = dec m -> n = m.
Proof.
  intros Hn Hm E. apply (f_equal (fun d => fold_left digit_step d 0)) in E. unfold dec in E.
  rewrite !dec_fuel_value in E by assumption. exact E.
Qed.

Lemma ifm_suffix_inj c1 p1 c2 p2 : p1 < 10 ^ 20 -> p2 < 10 ^ 20 ->
  ifm_suffix c1 p1 = ifm_suffix c2 p2 -> (c1, p1) = (c2, p2).
Proof.
  intros H1 H2 E.
  destruct (app_colon_inj _ _ _ _ (dec_fuel_no_colon 20 p1 [] eq_refl) (dec_fuel_no_colon 20 p2 [] eq_refl) E) as [-> D].
  rewrite (dec_inj p1 p2 H1 H2 D). reflexivity.
Qed.

Lemma fold_left_flat_map {A B C} (f : A -> C -> A) (g : B -> list C) l a :
  fold_left f (flat_map g l) a = fold_left (fun x y => fold_left f (g y) x) l a.
Proof.
  revert a. induction l as [|y l IH]; intro a; cbn [fold_left flat_map]; [reflexivity|].
  rewrite fold_left_app. apply IH.
Qed.

(* one record type: from the hash redis keeps for it to the loaded map *)
Section TABLE.
  Context {K V R W : Type}.
  Variable t : rtype.
  Variable keqb : K -> K -> bool.
  Hypothesis keqb_eq : forall a b, keqb a b = true <-> a = b.
  Variable enc : K -> bytes.
  Variable rec_of : K -> V -> R.
  Variable key_of : R -> K.
  Hypothesis key_of_rec : forall k v, key_of (rec_of k v) = k.
  Variable inj : R -> srec.
  Variable as_t : srec -> option R.
  Hypothesis as_inj : forall r, as_t (inj r) = Some r.
  Variable ops_of : awr -> list (@op K V).

  (* a write either is one operation on this type's table or does not concern it *)
  Definition step_ok (a : awr) : Prop :=
    match wr_of a with
    | WSet t' suf v =>
        if rtype_eqb t t'
        then exists k v', ops_of a = [OSet k v'] /\ suf = enc k /\ with_key suf v = inj (rec_of k v')
        else ops_of a = []
    | WDel t' suf =>
        if rtype_eqb t t' then exists k, ops_of a = [ODel k] /\ suf = enc k else ops_of a = []
    end.
  Hypothesis all_ok : forall a, step_ok a.

  Definition tag_val (e : bytes * R) : bytes * srec := (fst e, inj (snd e)).

  Lemma tag_set k x s : map tag_val (kv_set k x s) = kv_set k (inj x) (map tag_val s).
  Proof. exact (map_aset beq_bytes (fun y => y) (fun _ => inj) k x s (fun _ _ => eq_refl)). Qed.
  Lemma tag_del k s : map tag_val (kv_del k s) = kv_del k (map tag_val s).
  Proof. exact (map_adel beq_bytes (fun y => y) (fun _ => inj) k s (fun _ _ => eq_refl)). Qed.

  Lemma proj_run aws : forall H S, hash_of (hname t) H = map tag_val S ->
    hash_of (hname t) (fold_left hash_apply (map wr_of aws) H) =
    map tag_val (fold_left (sstep enc rec_of) (flat_map ops_of aws) S).
  Proof.
    induction aws as [|a aws IH]; intros H S REL; cbn [map fold_left flat_map]; [exact REL|].
    rewrite fold_left_app. apply IH. pose proof (all_ok a) as OK. unfold step_ok in OK.
    destruct (wr_of a) as [t' suf v | t' suf]; cbn [hash_apply];
      [rewrite hash_of_hset|rewrite hash_of_hdel]; rewrite hname_eqb; destruct (rtype_eqb t t') eqn:E.
    - apply rtype_eqb_eq in E. subst t'. destruct OK as [k [v' [-> [-> WK]]]].
      cbn [fold_left sstep]. rewrite WK, REL, tag_set. reflexivity.
    - rewrite OK. exact REL.
    - apply rtype_eqb_eq in E. subst t'. destruct OK as [k [-> ->]].
      cbn [fold_left sstep]. rewrite REL, tag_del. reflexivity.
    - rewrite OK. exact REL.
  Qed.

  Lemma proj_vals aws :
    filter_map as_t (hgetall (hname t) (fold_left hash_apply (map wr_of aws) [])) =
    kv_vals (srun enc rec_of (flat_map ops_of aws)).
  Proof.
    unfold hgetall. rewrite (proj_run aws [] [] eq_refl). unfold srun.
    induction (fold_left (sstep enc rec_of) (flat_map ops_of aws) []) as [|[f r] s IH]; [reflexivity|].
    cbn [map tag_val kv_vals snd fst filter_map]. rewrite as_inj. f_equal. exact IH.
  Qed.

  Variable act : R -> @action W.

  Lemma table_loaded aws k : inj_on enc (keys (flat_map ops_of aws)) ->
    aget keqb k (load keqb key_of act
                   (filter_map as_t (values_of_type (run_awrites Redis aws) t))) =
    match aget keqb k (mrun keqb (flat_map ops_of aws)) with
    | Some v => put_of act (rec_of k v)
    | None => None
    end.
  Proof.
    intro INJ. rewrite hash_run. cbn [values_of_type]. rewrite proj_vals.
    exact (load_refines keqb keqb_eq enc rec_of key_of key_of_rec act _ INJ k).
  Qed.
End TABLE.
Arguments table_loaded {K V R W} t {keqb} keqb_eq {enc rec_of key_of} key_of_rec {inj as_t} as_inj {ops_of} all_ok act aws k _.

Definition cl_ops (a : awr) : list (@op bytes client_rec) :=
  match a with ASetClient c => [OSet (cr_id c) c] | ADelClient cid => [ODel cid] | _ => [] end.
Definition sub_ops (a : awr) : list (@op sub_key (subscription * N)) :=
  match a with ASetSub cid s g => [OSet (cid, su_filter s) (s, g)] | ADelSub cid f => [ODel (cid, f)] | _ => [] end.
Definition ret_ops (a : awr) : list (@op bytes (bytes * pkt)) :=
  match a with ASetRet cid p => [OSet (p_topic p) (cid, p)] | ADelRet topic => [ODel topic] | _ => [] end.
Definition ifm_ops (a : awr) : list (@op ifm_key (pkt * N)) :=
  match a with ASetIfm cid p sent => [OSet (cid, p_pid p) (p, sent)] | ADelIfm cid pid => [ODel (cid, pid)] | _ => [] end.

Definition id_enc (k : bytes) : bytes := k.
Definition sub_enc (k : sub_key) : bytes := sub_suffix (fst k) (snd k).
Definition ifm_enc (k : ifm_key) : bytes := ifm_suffix (fst k) (snd k).

(* the record stored under a key (redis layout: the ID field is the key suffix) *)
Definition cl_rec (k : bytes) (c : client_rec) : client_rec :=
  mkClientRec k (cr_listener c) (cr_remote c) (cr_username c) (cr_clean c) (cr_ver c) (cr_sei c) (cr_sei_flag c)
              (cr_rpi c) (cr_rpi_flag c) (cr_props c) (cr_will c).
Definition sub_rec_of (k : sub_key) (v : subscription * N) : sub_rec :=
  let s := fst v in
  mkSubRec (sub_enc k) (fst k) (snd k) (su_identifier s) (su_rh s) (snd v) (su_rap s) (su_nolocal s).
Definition ret_rec_of (k : bytes) (v : bytes * pkt) : msg_rec :=
  let p := snd v in
  mkMsgRec k (fst v) (p_origin p) 0 (p_fh p) k (p_payload p) 0 (p_created p) (p_pf p) (p_pf_flag p) (p_mei p)
           (strip_alias (p_props p)).
Definition ifm_rec_of (k : ifm_key) (v : pkt * N) : msg_rec :=
  let p := fst v in
  mkMsgRec (ifm_enc k) (fst k) (p_origin p) (snd k) (p_fh p) (p_topic p) (p_payload p) (snd v) (p_created p)
           (p_pf p) (p_pf_flag p) (p_mei p) (strip_alias (p_props p)).

Definition sub_key_of (r : sub_rec) : sub_key := (sr_client r, sr_filter r).
Definition ifm_key_of (r : msg_rec) : ifm_key := (mr_client r, mr_pid r).

Lemma cl_rec_key k c : cr_id (cl_rec k c) = k.
Proof. reflexivity. Qed.
Lemma cl_rec_id c : cl_rec (cr_id c) c = c.
Proof. destruct c; reflexivity. Qed.
Lemma sub_rec_key k v : sub_key_of (sub_rec_of k v) = k.
Proof. destruct k; reflexivity. Qed.
Lemma ifm_rec_key k v : ifm_key_of (ifm_rec_of k v) = k.
Proof. destruct k; reflexivity. Qed.
Lemma ret_rec_key k v : mr_topic (ret_rec_of k v) = k.
Proof. reflexivity. Qed.
Lemma as_client_inj r : as_client (SClient r) = Some r.
Proof. reflexivity. Qed.
Lemma as_sub_inj r : StoreHooks.as_sub (SSub r) = Some r.
Proof. reflexivity. Qed.
Lemma as_msg_inj r : as_msg (SMsg r) = Some r.
Proof. reflexivity. Qed.

Lemma cl_ok a : step_ok TCL id_enc cl_rec SClient cl_ops a.
Proof.
  destruct a; cbn; try reflexivity.
  - exists (cr_id c), c. repeat split. destruct c; reflexivity.
  - exists cid. split; reflexivity.
Qed.
Lemma sub_ok a : step_ok TSUB sub_enc sub_rec_of SSub sub_ops a.
Proof.
  destruct a; cbn; try reflexivity.
  - exists (cid, su_filter s), (s, granted). repeat split.
  - exists (cid, filter). split; reflexivity.
Qed.
Lemma ret_ok a : step_ok TRET id_enc ret_rec_of SMsg ret_ops a.
Proof.
  destruct a; cbn; try reflexivity.
  - exists (p_topic p), (cid, p). repeat split.
  - exists topic. split; reflexivity.
Qed.
Lemma ifm_ok a : step_ok TIFM ifm_enc ifm_rec_of SMsg ifm_ops a.
Proof.
  destruct a; cbn; try reflexivity.
  - exists (cid, p_pid p), (p, sent). repeat split.
  - exists (cid, pid). split; reflexivity.
Qed.

Lemma arun_maps aws :
  as_cl (arun aws) = mrun beq_bytes (flat_map cl_ops aws) /\
  as_sub (arun aws) = mrun sub_key_eqb (flat_map sub_ops aws) /\
  as_ifm (arun aws) = mrun ifm_key_eqb (flat_map ifm_ops aws) /\
  as_ret (arun aws) = mrun beq_bytes (flat_map ret_ops aws).
Proof.
  unfold arun, mrun.
  assert (G : forall st,
    as_cl (fold_left astep aws st) = fold_left (mstep beq_bytes) (flat_map cl_ops aws) (as_cl st) /\
    as_sub (fold_left astep aws st) = fold_left (mstep sub_key_eqb) (flat_map sub_ops aws) (as_sub st) /\
    as_ifm (fold_left astep aws st) = fold_left (mstep ifm_key_eqb) (flat_map ifm_ops aws) (as_ifm st) /\
    as_ret (fold_left astep aws st) = fold_left (mstep beq_bytes) (flat_map ret_ops aws) (as_ret st)).
  { induction aws as [|a aws IH]; intro st; cbn [fold_left flat_map]; [repeat split|].
    rewrite !fold_left_app. destruct (IH (astep st a)) as [A [B [C D]]]. rewrite A, B, C, D.
    destruct a; cbn [astep cl_ops sub_ops ifm_ops ret_ops fold_left mstep as_cl as_sub as_ifm as_ret];
      repeat split. }
  exact (G astate0).
Qed.

Lemma written {K V} keqb (keqb_eq : forall a b, keqb a b = true <-> a = b) (ops_of : awr -> list (@op K V)) aws k v :
  aget keqb k (mrun keqb (flat_map ops_of aws)) = Some v -> exists a, In a aws /\ In (OSet k v) (ops_of a).
Proof. intro A. apply in_flat_map. exact (mrun_origin keqb keqb_eq _ _ _ A). Qed.

Lemma cl_origin aws cid c : aget beq_bytes cid (mrun beq_bytes (flat_map cl_ops aws)) = Some c -> cid = cr_id c.
Proof.
  intro A. destruct (written _ beq_bytes_eq _ _ _ _ A) as [a [_ O]].
  destruct a; cbn [cl_ops] in O; try contradiction; destruct O as [O|[]]; try discriminate O.
  injection O as <- <-. reflexivity.
Qed.
Lemma sub_origin aws k s g : aget sub_key_eqb k (mrun sub_key_eqb (flat_map sub_ops aws)) = Some (s, g) ->
  snd k = su_filter s.
Proof.
  intro A. destruct (written _ sub_key_eqb_eq _ _ _ _ A) as [a [_ O]].
  destruct a; cbn [sub_ops] in O; try contradiction; destruct O as [O|[]]; try discriminate O.
  injection O as <- <- <-. reflexivity.
Qed.
Lemma ifm_origin aws k p sent : aget ifm_key_eqb k (mrun ifm_key_eqb (flat_map ifm_ops aws)) = Some (p, sent) ->
  snd k = p_pid p /\ In (ASetIfm (fst k) p sent) aws.
Proof.
  intro A. destruct (written _ ifm_key_eqb_eq _ _ _ _ A) as [a [I O]].
  destruct a; cbn [ifm_ops] in O; try contradiction; destruct O as [O|[]]; try discriminate O.
  injection O as <- <- <-. split; [reflexivity | exact I].
Qed.
Lemma ret_origin aws t cid p : aget beq_bytes t (mrun beq_bytes (flat_map ret_ops aws)) = Some (cid, p) ->
  t = p_topic p /\ In (ASetRet cid p) aws.
Proof.
  intro A. destruct (written _ beq_bytes_eq _ _ _ _ A) as [a [I O]].
  destruct a; cbn [ret_ops] in O; try contradiction; destruct O as [O|[]]; try discriminate O.
  injection O as <- <- <-. split; [reflexivity | exact I].
Qed.

(* the restart reads nothing of the storage keys, and up to those every back end reads back what redis
   does (StoreProofs.same_as_redis): everything else in this file argues on the redis layout only *)
Lemma restart_erase maxcap rb : restart maxcap (erase_keys rb) = restart maxcap rb.
Proof.
  unfold restart, erase_keys. cbn [rb_clients rb_subs rb_inflight rb_retained rb_sys].
  f_equal.
  - unfold load_subs. rewrite fold_left_map. apply fold_left_ext. intros m s. destruct s; reflexivity.
  - unfold load_inflight. rewrite fold_left_map. apply fold_left_ext. intros m r. destruct r; reflexivity.
  - unfold load_retained. rewrite fold_left_map. apply fold_left_ext. intros m r. destruct r; reflexivity.
Qed.

Lemma restart_any_backend maxcap aws b : key_limit_exceeded aws = false ->
  restart maxcap (read_back (run_awrites b aws)) = restart maxcap (read_back (run_awrites Redis aws)).
Proof.
  intro K. rewrite <- (restart_erase maxcap (read_back (run_awrites b aws))).
  rewrite (same_as_redis aws b K). apply restart_erase.
Qed.

Lemma id_inj_on ks : inj_on id_enc ks.
Proof. intros a b _ _ E. exact E. Qed.

Lemma sub_keys_eq aws : keys (flat_map sub_ops aws) = sub_keys aws.
Proof.
  induction aws as [|a aws IH]; [reflexivity|]. cbn [flat_map]. unfold keys in *. rewrite map_app, IH.
  destruct a; reflexivity.
Qed.

Lemma sub_inj_on aws : KF_C20_sub_key_collision aws = false -> inj_on sub_enc (keys (flat_map sub_ops aws)).
Proof.
  intros KF a b Ia Ib E. rewrite sub_keys_eq in Ia, Ib. apply sub_key_eqb_eq.
  pose proof (existsb_false_In _ _ b (existsb_false_In _ _ a KF Ia) Ib) as C. unfold collide in C.
  apply beq_bytes_eq in E. unfold sub_enc in E. rewrite E, andb_true_r in C. apply negb_false_iff. exact C.
Qed.

Lemma ifm_keys_bounded aws : pids_ok aws = true -> forall k, In k (keys (flat_map ifm_ops aws)) -> snd k < 65536.
Proof.
  intros P k I. unfold keys in I. apply in_map_iff in I. destruct I as [o [<- I]].
  apply in_flat_map in I. destruct I as [a [Ia I]].
  unfold pids_ok in P. rewrite forallb_forall in P. specialize (P a Ia).
  destruct a; cbn [ifm_ops] in I; try contradiction; destruct I as [<-|[]]; cbn [op_key snd]; apply N.ltb_lt; exact P.
Qed.

Lemma ifm_inj_on aws : pids_ok aws = true -> inj_on ifm_enc (keys (flat_map ifm_ops aws)).
Proof.
  intros P [c1 p1] [c2 p2] Ia Ib E.
  assert (B : forall k, In k (keys (flat_map ifm_ops aws)) -> snd k < 10 ^ 20)
    by (intros k I; exact (N.lt_trans _ 65536 (10 ^ 20) (ifm_keys_bounded aws P k I) eq_refl)).
  exact (ifm_suffix_inj c1 p1 c2 p2 (B _ Ia) (B _ Ib) E).
Qed.

Definition act_cl (c : client_rec) : @action client_rec :=
  if ends_on_disconnect c then Skip else Put (session_obs c).
Definition act_sub (cl : amap bytes client_rec) (s : sub_rec) : @action subscription :=
  if has_client cl (sr_client s)
  then Put (mkSub (sr_filter s) (sr_identifier s) (sr_rh s) (sr_qos s) (sr_rap s) (sr_nolocal s)) else Skip.
Definition act_ifm (maxcap : N) (cl : amap bytes client_rec) (r : msg_rec) : @action pkt :=
  if has_client cl (mr_client r) then Put (to_packet maxcap r) else Skip.
Definition act_ret (maxcap : N) (r : msg_rec) : @action pkt :=
  if is_nil (mr_payload r) then Clear else Put (to_packet maxcap r).

Lemma load_clients_eq cs : load_clients cs = load beq_bytes cr_id act_cl cs.
Proof.
  unfold load_clients, load. apply fold_left_ext. intros m c. unfold lstep, act_cl.
  destruct (ends_on_disconnect c); reflexivity.
Qed.
Lemma load_subs_eq cl ss : load_subs cl ss = load sub_key_eqb sub_key_of (act_sub cl) ss.
Proof.
  unfold load_subs, load. apply fold_left_ext. intros m s. unfold lstep, act_sub, sub_key_of.
  destruct (has_client cl (sr_client s)); reflexivity.
Qed.
Lemma load_inflight_eq maxcap cl ms : load_inflight maxcap cl ms = load ifm_key_eqb ifm_key_of (act_ifm maxcap cl) ms.
Proof.
  unfold load_inflight, load. apply fold_left_ext. intros m r. unfold lstep, act_ifm, ifm_key_of.
  destruct (has_client cl (mr_client r)); reflexivity.
Qed.
Lemma load_retained_eq maxcap ms : load_retained maxcap ms = load beq_bytes mr_topic (act_ret maxcap) ms.
Proof.
  unfold load_retained, load. apply fold_left_ext. intros m r. unfold lstep, act_ret.
  destruct (is_nil (mr_payload r)); reflexivity.
Qed.

Lemma regular_of_kf maxcap aws : KF_C20_irregular_expiry maxcap aws = false ->
  (forall cid p sent, In (ASetIfm cid p sent) aws -> irregular maxcap p = false) /\
  (forall cid p, In (ASetRet cid p) aws -> irregular maxcap p = false).
Proof.
  intro KF. split; [intros cid p sent I | intros cid p I]; exact (existsb_false_In _ _ _ KF I).
Qed.

Lemma min_nz_0 a : min_nz a 0 = a.
Proof. unfold min_nz. destruct (a =? 0) eqn:E; [apply N.eqb_eq in E; congruence | reflexivity]. Qed.

Lemma unhold_regular maxcap created m : unhold (regular_expiry maxcap created m) = regular_expiry maxcap created m.
Proof.
  unfold unhold, regular_expiry. destruct (min_nz maxcap m =? 0); [reflexivity|].
  replace (Z.of_N (created + min_nz maxcap m) <? 0)%Z with false by lia. reflexivity.
Qed.

(* without an interval of its own a message lives exactly as long as the server's maximum allows: the
   expiry time recomputed for it is that bound, which the deadline takes into account anyway *)
Lemma cap_absorbs maxcap created :
  let e := regular_expiry maxcap created 0 in
  let cap := if 0 <? maxcap then Some (Z.of_N (created + maxcap)) else None in
  min_optz (if (0 <? e)%Z then Some e else None) cap = cap.
Proof.
  unfold regular_expiry. rewrite min_nz_0. destruct (maxcap =? 0) eqn:C; cbn zeta.
  - apply N.eqb_eq in C. subst maxcap. reflexivity.
  - replace (0 <? maxcap) with true by lia. replace (0 <? Z.of_N (created + maxcap))%Z with true by lia.
    cbn [min_optz]. rewrite Z.min_id. reflexivity.
Qed.

(* the packet [q] made from the stored record of a regular packet [p]: same header, creation time and
   interval, the expiry time recomputed, marked MQTT 5 iff it has one *)
Lemma expiry_restored maxcap p q :
  let e := regular_expiry maxcap (p_created p) (eff_mei (p_fh p) (p_mei p)) in
  p_fh q = p_fh p -> p_created q = p_created p -> p_expiry q = e -> p_ver q = (if (0 <? e)%Z then 5 else 0) ->
  irregular maxcap p = false ->
  deadline maxcap q = deadline maxcap p /\ wire_expiry q = wire_expiry p.
Proof.
  cbn zeta. intros Hfh Hcr Hex Hver IRR. unfold deadline, wire_expiry. rewrite Hfh, Hcr, Hex, Hver, unhold_regular.
  change (match p_fh p with VL (VN t :: _) => t | _ => 3 end) with (fh_type (p_fh p)).
  assert (Q : forall e : Z, (if ((if (0 <? e)%Z then 5 else 0) =? 5) && (0 <? e)%Z then Some e else None) =
                            (if (0 <? e)%Z then Some e else None)) by (intro e; destruct (0 <? e)%Z; reflexivity).
  rewrite Q. unfold irregular in IRR. unfold eff_mei in *. destruct (fh_type (p_fh p) =? 3).
  - (* a PUBLISH: its expiry time is the regular one; an interval only on a packet marked MQTT 5 *)
    apply orb_false_iff in IRR. destruct IRR as [E M]. apply negb_false_iff, Z.eqb_eq in E. rewrite E.
    split; [|reflexivity]. destruct (p_ver p =? 5); cbn [andb]; [reflexivity|].
    cbn [negb] in M. rewrite andb_true_r in M. apply N.ltb_ge in M. assert (M0 : p_mei p = 0) by lia.
    rewrite M0. apply cap_absorbs.
  - (* an acknowledgement: no interval, nothing on the wire *)
    split; [|reflexivity]. rewrite cap_absorbs. destruct (p_ver p =? 5); cbn [andb]; [|reflexivity].
    cbn [andb] in IRR. apply negb_false_iff, Z.eqb_eq in IRR. rewrite IRR. symmetry. apply cap_absorbs.
Qed.

Lemma strip_alias_idem v : strip_alias (strip_alias v) = strip_alias v.
Proof.
  destruct v as [n | b | l]; try reflexivity.
  do 6 (destruct l as [|? l]; try reflexivity).
  destruct v4 as [n | b | l']; try reflexivity. destruct l; reflexivity.
Qed.

Lemma obs_restored maxcap p pid' topic' key cid sent :
  irregular maxcap p = false ->
  obs_of_pkt maxcap
    (to_packet maxcap (mkMsgRec key cid (p_origin p) pid' (p_fh p) topic' (p_payload p) sent (p_created p)
                                (p_pf p) (p_pf_flag p) (p_mei p) (strip_alias (p_props p)))) =
  obs_of_pkt maxcap (mkPkt (p_fh p) pid' topic' (p_payload p) (p_origin p) (p_created p) (p_expiry p) (p_ver p)
                           (p_pf p) (p_pf_flag p) (p_mei p) (p_props p)).
Proof.
  intro IRR. unfold obs_of_pkt.
  destruct (expiry_restored maxcap p
              (to_packet maxcap (mkMsgRec key cid (p_origin p) pid' (p_fh p) topic' (p_payload p) sent (p_created p)
                                          (p_pf p) (p_pf_flag p) (p_mei p) (strip_alias (p_props p))))
              eq_refl eq_refl eq_refl eq_refl IRR) as [-> ->].
  cbn [to_packet mr_fh mr_pid mr_topic mr_payload mr_origin mr_created mr_mei mr_pf mr_pf_flag mr_props
       p_fh p_pid p_topic p_payload p_origin p_created p_pf p_pf_flag p_mei p_props].
  rewrite strip_alias_idem. reflexivity.
Qed.

Section MAIN.
  Variable maxcap : N.
  Variable aws : list awr.
  Hypothesis NOCOLL : KF_C20_sub_key_collision aws = false.
  Hypothesis REG : KF_C20_irregular_expiry maxcap aws = false.
  Hypothesis PIDS : pids_ok aws = true.

  Let rs := restart maxcap (read_back (run_awrites Redis aws)).
  Let st := arun aws.

  Lemma sessions_restored cid : rest_session rs cid = spec_session st cid.
  Proof.
    unfold rest_session, spec_session, rs, st, restart. cbn [rs_cl read_back rb_clients].
    rewrite load_clients_eq. destruct (arun_maps aws) as [-> _].
    rewrite (table_loaded TCL beq_bytes_eq cl_rec_key as_client_inj cl_ok act_cl aws cid (id_inj_on _)).
    destruct (aget beq_bytes cid (mrun beq_bytes (flat_map cl_ops aws))) as [c|] eqn:A; [|reflexivity].
    rewrite (cl_origin aws cid c A), cl_rec_id. unfold put_of, act_cl.
    destruct (ends_on_disconnect c); reflexivity.
  Qed.

  Lemma clients_sessions cid :
    has_client (load_clients (rb_clients (read_back (run_awrites Redis aws)))) cid = has_session (arun aws) cid.
  Proof.
    pose proof (sessions_restored cid) as S. unfold rest_session, rs, st, restart in S. cbn [rs_cl] in S.
    unfold has_client, has_session. rewrite S. reflexivity.
  Qed.

  Lemma subs_restored k : rest_sub rs k = spec_sub st k.
  Proof.
    unfold rest_sub, spec_sub, rs, st, restart. cbn [rs_sub read_back rb_subs rb_clients].
    rewrite load_subs_eq. destruct (arun_maps aws) as [_ [-> _]].
    rewrite (table_loaded TSUB sub_key_eqb_eq sub_rec_key as_sub_inj sub_ok _ aws k (sub_inj_on aws NOCOLL)).
    destruct (aget sub_key_eqb k (mrun sub_key_eqb (flat_map sub_ops aws))) as [[s g]|] eqn:A; cbn [option_map].
    - unfold put_of, act_sub, sub_rec_of. cbn [sr_client sr_filter sr_identifier sr_rh sr_qos sr_rap sr_nolocal fst snd].
      rewrite clients_sessions. destruct (has_session (arun aws) (fst k)); [|reflexivity].
      unfold sub_obs. rewrite (sub_origin aws k s g A). reflexivity.
    - destruct (has_session (arun aws) (fst k)); reflexivity.
  Qed.

  Lemma inflight_restored k : rest_ifm maxcap rs k = spec_ifm maxcap st k.
  Proof.
    unfold rest_ifm, spec_ifm, rs, st, restart. cbn [rs_ifm read_back rb_inflight rb_clients].
    rewrite load_inflight_eq. destruct (arun_maps aws) as [_ [_ [-> _]]].
    rewrite (table_loaded TIFM ifm_key_eqb_eq ifm_rec_key as_msg_inj ifm_ok _ aws k (ifm_inj_on aws PIDS)).
    destruct (aget ifm_key_eqb k (mrun ifm_key_eqb (flat_map ifm_ops aws))) as [[p sent]|] eqn:A; cbn [option_map].
    - destruct (ifm_origin aws k p sent A) as [F I].
      unfold put_of, act_ifm. unfold ifm_rec_of at 1. cbn [mr_client fst snd].
      rewrite clients_sessions. destruct (has_session (arun aws) (fst k)); [|reflexivity].
      cbn [option_map]. f_equal. unfold ifm_rec_of. cbn [fst snd]. rewrite F.
      rewrite (obs_restored maxcap p (p_pid p) (p_topic p) _ _ _ (proj1 (regular_of_kf maxcap aws REG) _ _ _ I)).
      destruct p; reflexivity.
    - destruct (has_session (arun aws) (fst k)); reflexivity.
  Qed.

  Lemma retained_restored t : rest_ret maxcap rs t = spec_ret maxcap st t.
  Proof.
    unfold rest_ret, spec_ret, rs, st, restart. cbn [rs_ret read_back rb_retained].
    rewrite load_retained_eq. destruct (arun_maps aws) as [_ [_ [_ ->]]].
    rewrite (table_loaded TRET beq_bytes_eq ret_rec_key as_msg_inj ret_ok _ aws t (id_inj_on _)).
    destruct (aget beq_bytes t (mrun beq_bytes (flat_map ret_ops aws))) as [[cid p]|] eqn:A; [|reflexivity].
    destruct (ret_origin aws t cid p A) as [F I].
    unfold put_of, act_ret. unfold ret_rec_of at 1. cbn [mr_payload snd].
    destruct (is_nil (p_payload p)); [reflexivity|]. cbn [option_map]. f_equal.
    unfold ret_rec_of. cbn [fst snd]. rewrite F.
    exact (obs_restored maxcap p 0 (p_topic p) _ _ _ (proj2 (regular_of_kf maxcap aws REG) _ _ I)).
  Qed.

  Theorem redis_restores : restores maxcap rs st.
  Proof.
    split; [exact sessions_restored|]. split; [exact subs_restored|].
    split; [exact inflight_restored | exact retained_restored].
  Qed.
End MAIN.

Theorem restart_restores : forall maxcap aws b,
  key_limit_exceeded aws = false ->
  KF_C20_sub_key_collision aws = false ->
  KF_C20_irregular_expiry maxcap aws = false ->
  pids_ok aws = true ->
  restores maxcap (restart maxcap (read_back (run_awrites b aws))) (arun aws).
Proof.
  intros maxcap aws b K C R P. rewrite (restart_any_backend maxcap aws b K).
  exact (redis_restores maxcap aws C R P).
Qed.

(* the full statement fails: one witness per finding *)

Definition wsub (f : bytes) (q : N) : subscription := mkSub f 0 0 q false false.
Definition wclient (id : bytes) : client_rec := mkClientRec id (tag "t") [] [] false 4 0 false 0 false (VL []) (VL []).

(* clients "a" and "a:b" subscribe to "b:c" and "c": one key "a:b:c", the second write replaces the first *)
Definition collision_history : list awr :=
  [ASetClient (wclient (tag "a")); ASetClient (wclient (tag "a:b"));
   ASetSub (tag "a") (wsub (tag "b:c") 1) 1; ASetSub (tag "a:b") (wsub (tag "c") 2) 2].

Lemma collision_witness :
  KF_C20_sub_key_collision collision_history = true /\
  rest_sub (restart 86400 (read_back (run_awrites Redis collision_history))) (tag "a", tag "b:c") = None /\
  spec_sub (arun collision_history) (tag "a", tag "b:c") = Some (wsub (tag "b:c") 1).
Proof. vm_compute. repeat split. Qed.

(* a retained will: sendLWT stores it without an expiry time although the server caps message life *)
Definition will_pkt : pkt := mkPkt (VL [VN 3; VN 1; VN 0; VN 1; VN 0]) 0 (tag "w") (tag "gone") (tag "a") 1000 0%Z 0 0 false 0 (VL []).
Definition irregular_history : list awr := [ASetRet (tag "a") will_pkt].

Lemma irregular_witness :
  KF_C20_irregular_expiry 86400 irregular_history = true /\
  option_map mo_wire_expiry (rest_ret 86400 (restart 86400 (read_back (run_awrites Redis irregular_history))) (tag "w"))
    = Some 87400%Z /\
  option_map mo_wire_expiry (spec_ret 86400 (arun irregular_history) (tag "w")) = Some 0%Z.
Proof. vm_compute. repeat split. Qed.

(* a client id too long for bbolt's keys: the session is not stored *)
Definition long_key_history : list awr := [ASetClient (wclient long_id)].

Lemma long_key_witness :
  key_limit_exceeded long_key_history = true /\
  rest_session (restart 86400 (read_back (run_awrites Bolt long_key_history))) long_id = None /\
  match spec_session (arun long_key_history) long_id with Some _ => true | None => false end = true.
Proof.
  split; [|split].
  - unfold key_limit_exceeded. cbn [long_key_history map wr_of existsb is_set wr_key_len andb wclient cr_id].
    rewrite flat_key_cl_len, long_id_len. reflexivity.
  - exact (f_equal (fun st => rest_session (restart 86400 (read_back st)) long_id)
             (long_client_refused (wclient long_id) eq_refl)).
  - unfold spec_session, arun. unfold astate0. cbn [long_key_history fold_left astep as_cl aset aget wclient cr_id].
    rewrite beq_bytes_refl. reflexivity.
Qed.
