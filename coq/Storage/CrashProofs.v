(* C21: every prefix of the write log is a sequence of writes, so the restart theorem applies to it;
   the known findings are monotone in the log; a write leaves the state under every other key as it
   was; a taken-over client causes no write to its client record. *)
From MV Require Import Base.Val Base.BytesEq Base.ListMisc Storage.Kv Storage.KvProofs Storage.StoreHooks
                       Storage.StoreProofs Storage.Restart Storage.RefineProofs Storage.RestartProofs Storage.Crash.
Open Scope N_scope.

Lemma incl_firstn {A} (k : nat) (l : list A) : incl (firstn k l) l.
Proof. intros x I. rewrite <- (firstn_skipn k l). apply in_or_app. left. exact I. Qed.

Lemma sub_keys_incl a b : incl a b -> incl (sub_keys a) (sub_keys b).
Proof.
  intros I k H. rewrite <- sub_keys_eq in *. unfold keys in *.
  apply in_map_iff in H. destruct H as [o [E H]]. apply in_flat_map in H. destruct H as [x [Ix Ho]].
  apply in_map_iff. exists o. split; [exact E|]. apply in_flat_map. exists x. split; [exact (I x Ix) | exact Ho].
Qed.

Lemma findings_incl maxcap part aws : incl part aws ->
  key_limit_exceeded aws = false -> KF_C20_sub_key_collision aws = false ->
  KF_C20_irregular_expiry maxcap aws = false -> pids_ok aws = true ->
  key_limit_exceeded part = false /\ KF_C20_sub_key_collision part = false /\
  KF_C20_irregular_expiry maxcap part = false /\ pids_ok part = true.
Proof.
  intros I K C R P. repeat split.
  - exact (existsb_incl _ _ _ (incl_map wr_of I) K).
  - pose proof (sub_keys_incl _ _ I) as S. unfold KF_C20_sub_key_collision in *.
    destruct (existsb _ (sub_keys part)) eqn:E; [|reflexivity].
    apply existsb_exists in E. destruct E as [x [Ix E]]. apply existsb_exists in E. destruct E as [y [Iy E]].
    rewrite <- E. exact (existsb_false_In _ _ y (existsb_false_In _ _ x C (S x Ix)) (S y Iy)).
  - exact (existsb_incl _ _ _ I R).
  - unfold pids_ok in *. rewrite forallb_forall in *. intros a Ia. exact (P a (I a Ia)).
Qed.

(* C21, state part: after a process death behind the k-th write the restarted broker holds exactly
   the state the first k writes describe *)
Theorem crash_restores : forall maxcap evs k b,
  key_limit_exceeded (awrites_of evs) = false ->
  KF_C20_sub_key_collision (awrites_of evs) = false ->
  KF_C20_irregular_expiry maxcap (awrites_of evs) = false ->
  pids_ok (awrites_of evs) = true ->
  restores maxcap (restart maxcap (read_back (crashed_store b evs k))) (arun (firstn k (awrites_of evs))).
Proof.
  intros maxcap evs k b K C R P. unfold crashed_store.
  destruct (findings_incl maxcap _ _ (incl_firstn k _) K C R P) as [K' [C' [R' P']]].
  apply restart_restores; assumption.
Qed.

(* what further writes do not touch stays as it was: a crash inside an operation leaves every
   session, subscription, in-flight and retained message the operation does not write as it was
   acknowledged before *)
Definition touched_cl (aws : list awr) : list bytes := keys (flat_map cl_ops aws).
Definition touched_sub (aws : list awr) : list sub_key := keys (flat_map sub_ops aws).
Definition touched_ifm (aws : list awr) : list ifm_key := keys (flat_map ifm_ops aws).
Definition touched_ret (aws : list awr) : list bytes := keys (flat_map ret_ops aws).

Theorem untouched_kept : forall maxcap done more,
  (forall cid, ~ In cid (touched_cl more) ->
     spec_session (arun (done ++ more)) cid = spec_session (arun done) cid) /\
  (forall k, ~ In (fst k) (touched_cl more) -> ~ In k (touched_sub more) ->
     spec_sub (arun (done ++ more)) k = spec_sub (arun done) k) /\
  (forall k, ~ In (fst k) (touched_cl more) -> ~ In k (touched_ifm more) ->
     spec_ifm maxcap (arun (done ++ more)) k = spec_ifm maxcap (arun done) k) /\
  (forall t, ~ In t (touched_ret more) ->
     spec_ret maxcap (arun (done ++ more)) t = spec_ret maxcap (arun done) t).
Proof.
  intros maxcap done more.
  destruct (arun_maps (done ++ more)) as [A1 [A2 [A3 A4]]]. destruct (arun_maps done) as [B1 [B2 [B3 B4]]].
  assert (S : forall cid, ~ In cid (touched_cl more) ->
                spec_session (arun (done ++ more)) cid = spec_session (arun done) cid).
  { intros cid N. unfold spec_session. rewrite A1, B1, flat_map_app.
    rewrite (mrun_app_untouched beq_bytes beq_bytes_eq _ _ cid N). reflexivity. }
  assert (HS : forall cid, ~ In cid (touched_cl more) ->
                has_session (arun (done ++ more)) cid = has_session (arun done) cid).
  { intros cid N. unfold has_session. rewrite (S cid N). reflexivity. }
  split; [exact S|]. split; [|split].
  - intros k N1 N2. unfold spec_sub. rewrite (HS _ N1), A2, B2, flat_map_app.
    rewrite (mrun_app_untouched sub_key_eqb sub_key_eqb_eq _ _ k N2). reflexivity.
  - intros k N1 N2. unfold spec_ifm. rewrite (HS _ N1), A3, B3, flat_map_app.
    rewrite (mrun_app_untouched ifm_key_eqb ifm_key_eqb_eq _ _ k N2). reflexivity.
  - intros t N. unfold spec_ret. rewrite A4, B4, flat_map_app.
    rewrite (mrun_app_untouched beq_bytes beq_bytes_eq _ _ t N). reflexivity.
Qed.

Theorem superseded_no_client_writes : forall c expire, rc_takenover c = true ->
  hook_awrites (ESessionEstablished c) = [] /\ hook_awrites (EWillSent c) = [] /\
  hook_awrites (EDisconnect c expire) = [].
Proof.
  intros c expire T. cbn [hook_awrites]. unfold update_client. rewrite T. cbn [negb]. rewrite andb_false_r.
  repeat split.
Qed.

(* the finding KF_C21_ack_before_forward: a recorded history *)

Definition w_fh_pub : val := VL [VN 3; VN 1; VN 0; VN 0; VN 9].
Definition w_fh_ack : val := VL [VN 4; VN 0; VN 0; VN 0; VN 0].
Definition w_ack : pkt := mkPkt w_fh_ack 101 [] [] [] 1000 87400%Z 0 0 false 0 (VL []).
Definition w_pub : pkt := mkPkt w_fh_pub 1 (tag "a/b") (tag "m1") (tag "p") 1000 87400%Z 4 0 false 0 (VL []).
Definition w_sub_client : client_rec := mkClientRec (tag "s") (tag "t") [] [] false 4 0 false 0 false (VL []) (VL []).

(* client "s" holds a session and a QoS 1 subscription; "p" publishes with QoS 1: the broker stores
   its PUBACK record, writes the PUBACK, completes the record, and only then queues and stores the
   message for "s" *)
Definition w_history : list event :=
  [ESessionEstablished (mkRClient w_sub_client false);
   ESubscribed (tag "s") [(mkSub (tag "a/b") 0 0 1 false false, 1)];
   EQosPublish (tag "p") w_ack 1000; EAckSent (tag "p") 4 101 0; EQosComplete (tag "p") 101;
   EQosPublish (tag "s") w_pub 1000; EProcessed (tag "p")].

Lemma w_history_window :
  KF_C21_ack_before_forward w_history 4 = true /\
  rest_ifm 86400 (restart 86400 (read_back (crashed_store Bolt w_history 4))) (tag "s", 1) = None /\
  rest_ifm 86400 (restart 86400 (read_back (crashed_store Bolt w_history 5))) (tag "s", 1) <> None.
Proof. vm_compute. repeat split. discriminate. Qed.

(* [sub_key_eqb] and [ifm_key_eqb] both unfold to the test written out here *)
Lemma no_entry {B V} (eqb : B -> B -> bool) c x (m : amap (bytes * B) V) :
  existsb (fun e => beq_bytes (fst (fst e)) c) m = false ->
  aget (fun a b => beq_bytes (fst a) (fst b) && eqb (snd a) (snd b)) (c, x) m = None.
Proof.
  induction m as [|[[c' x'] v] r IH]; cbn [existsb aget fst snd]; intro H; [reflexivity|].
  apply orb_false_iff in H. destruct H as [H1 H2]. rewrite beq_bytes_sym, H1. exact (IH H2).
Qed.

(* when the writes have discarded everything recorded for a client id (which the broker must have
   done by the time it establishes a session with Clean Start 1: [clean_start_leftover] checks it on
   every recorded history), a restart at that point restores no subscription and no in-flight message
   for it *)
Theorem clean_start_nothing_restored : forall maxcap aws b c,
  key_limit_exceeded aws = false -> KF_C20_sub_key_collision aws = false ->
  KF_C20_irregular_expiry maxcap aws = false -> pids_ok aws = true ->
  session_leftover c (arun aws) = false ->
  forall f pid,
    rest_sub (restart maxcap (read_back (run_awrites b aws))) (c, f) = None /\
    rest_ifm maxcap (restart maxcap (read_back (run_awrites b aws))) (c, pid) = None.
Proof.
  intros maxcap aws b c K C R P L f pid.
  destruct (restart_restores maxcap aws b K C R P) as [_ [S [I _]]].
  unfold session_leftover in L. apply orb_false_iff in L. destruct L as [L1 L2].
  rewrite S, I. unfold spec_sub, spec_ifm. cbn [fst].
  unfold sub_key_eqb, ifm_key_eqb. rewrite (no_entry _ c f _ L1), (no_entry _ c pid _ L2). cbn [option_map].
  destruct (has_session (arun aws) c); split; reflexivity.
Qed.
