(* C22: the flat layout (badger, pebble, bbolt) and the hash-per-type layout (redis) return the same
   records for every sequence of storage hook events, as long as no key exceeds an engine's key-size
   limit.  Proof: a simulation between the flat store and the hashes, preserved by every logical
   write, from which the read-backs are equal (even as lists, in the model's insertion order). *)
From Coq Require Import Permutation Lia.
From MV Require Import Base.Val Base.BytesEq Base.ListMisc Storage.Kv Storage.KvProofs Storage.StoreHooks.
Open Scope N_scope.

Definition erase (v : srec) : srec := with_key [] v.

Lemma erase_with_key k v : erase (with_key k v) = erase v.
Proof. destruct v; reflexivity. Qed.

Definition is_main (t : rtype) : bool := match t with TSYS => false | _ => true end.

Definition rtype_eqb (a b : rtype) : bool :=
  match a, b with
  | TCL, TCL | TSUB, TSUB | TRET, TRET | TIFM, TIFM | TSYS, TSYS => true
  | _, _ => false
  end.

Lemma rtype_eqb_eq a b : rtype_eqb a b = true <-> a = b.
Proof. destruct a, b; cbn; split; intro H; try reflexivity; try discriminate. Qed.

Lemma prefix_flat_key t' t suf : is_main t' = true ->
  has_prefix (type_tag t') (flat_key t suf) = rtype_eqb t' t.
Proof. intro M. destruct t', t; try discriminate M; reflexivity. Qed.

Lemma sys_flat_key t suf : beq_bytes (type_tag TSYS) (flat_key t suf) = rtype_eqb TSYS t.
Proof. destruct t; reflexivity. Qed.

Lemma hname_eqb t' t : beq_bytes (hname t') (hname t) = rtype_eqb t' t.
Proof. unfold hname. rewrite beq_bytes_app. destruct t', t; reflexivity. Qed.

Definition pfx (t : rtype) (f : bytes) : bytes := type_tag t ++ underscore :: f.

Lemma pfx_eqb t a b : beq_bytes (pfx t a) (pfx t b) = beq_bytes a b.
Proof. unfold pfx. rewrite beq_bytes_app. cbn [beq_bytes]. rewrite N.eqb_refl. reflexivity. Qed.

Lemma flat_key_main t suf : is_main t = true -> flat_key t suf = pfx t suf.
Proof. destruct t; try discriminate; reflexivity. Qed.

(* writes on the system info always use the key "SYS" (sysInfoKey()) *)
Definition wf_wr (w : wr) : Prop :=
  match w with
  | WSet TSYS s _ => s = type_tag TSYS
  | WDel TSYS s => s = type_tag TSYS
  | _ => True
  end.

Lemma writes_wf aws w : In w (map wr_of aws) -> wf_wr w.
Proof.
  intro H. apply in_map_iff in H. destruct H as [a [<- _]].
  destruct a; cbn [wr_of wf_wr]; exact Logic.I || reflexivity.
Qed.

Definition ev (e : bytes * srec) : bytes * srec := (fst e, erase (snd e)).
Definition pv (t : rtype) (e : bytes * srec) : bytes * srec := (pfx t (fst e), erase (snd e)).

Record sim (s : kv srec) (h : hashes srec) : Prop := mkSim {
  sim_main : forall t, is_main t = true ->
    map ev (filter (keyp (has_prefix (type_tag t))) s) = map (pv t) (hash_of (hname t) h);
  sim_sys : option_map erase (kv_get (type_tag TSYS) s) =
            option_map erase (kv_get (type_tag TSYS) (hash_of (hname TSYS) h)) }.

Lemma sim_empty : sim [] [].
Proof. split; [intros t _|]; reflexivity. Qed.

Lemma map_ev_set k v s : map ev (kv_set k v s) = kv_set k (erase v) (map ev s).
Proof. exact (map_aset beq_bytes (fun x => x) (fun _ => erase) k v s (fun _ _ => eq_refl)). Qed.
Lemma map_ev_del k s : map ev (kv_del k s) = kv_del k (map ev s).
Proof. exact (map_adel beq_bytes (fun x => x) (fun _ => erase) k s (fun _ _ => eq_refl)). Qed.
Lemma map_pv_set t k v s : map (pv t) (kv_set k v s) = kv_set (pfx t k) (erase v) (map (pv t) s).
Proof. exact (map_aset beq_bytes (pfx t) (fun _ => erase) k v s (fun k' _ => pfx_eqb t k k')). Qed.
Lemma map_pv_del t k s : map (pv t) (kv_del k s) = kv_del (pfx t k) (map (pv t) s).
Proof. exact (map_adel beq_bytes (pfx t) (fun _ => erase) k s (fun k' _ => pfx_eqb t k k')). Qed.

Definition wr_fits (b : backend) (w : wr) : Prop :=
  match w with WSet t suf _ => key_fits b (flat_key t suf) = true | WDel _ _ => True end.

Lemma sim_step b s h w : wf_wr w -> wr_fits b w -> sim s h -> sim (flat_apply b s w) (hash_apply h w).
Proof.
  intros WF FIT [SM SS]. destruct w as [t suf v | t suf]; cbn [flat_apply hash_apply].
  - cbn [wr_fits] in FIT. rewrite FIT. split.
    + intros t' M. rewrite filter_set, hash_of_hset, prefix_flat_key, hname_eqb by exact M.
      destruct (rtype_eqb t' t) eqn:E; [|exact (SM t' M)]. apply rtype_eqb_eq in E. subst t'.
      rewrite map_ev_set, map_pv_set, !erase_with_key, (SM t M), flat_key_main by exact M. reflexivity.
    + rewrite kv_get_set, hash_of_hset, sys_flat_key, hname_eqb.
      destruct (rtype_eqb TSYS t) eqn:E; [|exact SS]. apply rtype_eqb_eq in E. subst t. cbn [wf_wr] in WF. subst suf.
      rewrite kv_get_set, beq_bytes_refl. cbn [option_map]. rewrite !erase_with_key. reflexivity.
  - split.
    + intros t' M. rewrite filter_del, hash_of_hdel, prefix_flat_key, hname_eqb by exact M.
      destruct (rtype_eqb t' t) eqn:E; [|exact (SM t' M)]. apply rtype_eqb_eq in E. subst t'.
      rewrite map_ev_del, map_pv_del, (SM t M), flat_key_main by exact M. reflexivity.
    + rewrite kv_get_del, hash_of_hdel, sys_flat_key, hname_eqb.
      destruct (rtype_eqb TSYS t) eqn:E; [|exact SS]. apply rtype_eqb_eq in E. subst t. cbn [wf_wr] in WF. subst suf.
      rewrite kv_get_del, beq_bytes_refl. reflexivity.
Qed.

Lemma sim_run b ws : forall s h,
  (forall w, In w ws -> wf_wr w /\ wr_fits b w) -> sim s h ->
  sim (fold_left (flat_apply b) ws s) (fold_left hash_apply ws h).
Proof.
  induction ws as [|w ws IH]; intros s h H S; cbn [fold_left]; [exact S|].
  apply IH; [intros w' I; apply H; right; exact I|].
  destruct (H w (or_introl eq_refl)) as [WF FIT]. apply sim_step; assumption.
Qed.

Lemma filter_map_map {A B} (f : A -> option B) (g : A -> A) (h : B -> B) (l : list A) :
  (forall x, f (g x) = option_map h (f x)) -> filter_map f (map g l) = map h (filter_map f l).
Proof.
  intro H. induction l as [|x r IH]; cbn [map filter_map]; [reflexivity|].
  rewrite H. destruct (f x); cbn [option_map map]; rewrite IH; reflexivity.
Qed.

Lemma as_client_erase v : as_client (erase v) = option_map (fun c => c) (as_client v).
Proof. destruct v; reflexivity. Qed.
Lemma as_sub_erase v : as_sub (erase v) = option_map erase_sub_key (as_sub v).
Proof. destruct v; reflexivity. Qed.
Lemma as_msg_erase v : as_msg (erase v) = option_map erase_msg_key (as_msg v).
Proof. destruct v; reflexivity. Qed.
Lemma as_sys_erase v : bind_opt (option_map erase v) as_sys = bind_opt v as_sys.
Proof. destruct v as [[]|]; reflexivity. Qed.

Definition rb_of (vals : rtype -> list srec) (sys : option srec) : readback :=
  mkReadback (filter_map as_client (vals TCL)) (filter_map as_sub (vals TSUB))
             (filter_map as_msg (vals TIFM)) (filter_map as_msg (vals TRET)) (bind_opt sys as_sys).

Lemma erase_keys_read_back st :
  erase_keys (read_back st) =
  rb_of (fun t => map erase (values_of_type st t)) (option_map erase (sys_value st)).
Proof.
  unfold erase_keys, read_back, rb_of. cbn [rb_clients rb_subs rb_inflight rb_retained rb_sys].
  rewrite (filter_map_map as_client erase (fun c => c) _ as_client_erase), map_id.
  rewrite (filter_map_map as_sub erase erase_sub_key _ as_sub_erase).
  rewrite !(filter_map_map as_msg erase erase_msg_key _ as_msg_erase).
  rewrite as_sys_erase. reflexivity.
Qed.

Lemma map_snd_ev l : map snd (map ev l) = map erase (map snd l).
Proof. rewrite !map_map. reflexivity. Qed.
Lemma map_snd_pv t l : map snd (map (pv t) l) = map erase (map snd l).
Proof. rewrite !map_map. reflexivity. Qed.

Lemma sim_values s h t : is_main t = true -> sim s h ->
  map erase (values_of_type (FlatStore s) t) = map erase (values_of_type (HashStore h) t).
Proof.
  intros M [SM _]. cbn [values_of_type]. unfold kv_iter, hgetall, kv_vals.
  rewrite <- map_snd_ev, <- (map_snd_pv t). f_equal. exact (SM t M).
Qed.

Lemma sim_read_back s h : sim s h ->
  erase_keys (read_back (FlatStore s)) = erase_keys (read_back (HashStore h)).
Proof.
  intro S. rewrite !erase_keys_read_back. unfold rb_of.
  rewrite (sim_values s h TCL eq_refl S), (sim_values s h TSUB eq_refl S),
          (sim_values s h TIFM eq_refl S), (sim_values s h TRET eq_refl S).
  cbn [sys_value]. unfold hget. rewrite (sim_sys _ _ S). reflexivity.
Qed.

Lemma key_limit_fits aws : key_limit_exceeded aws = false ->
  forall b w, In w (map wr_of aws) -> wr_fits b w.
Proof.
  intros K b w HI. destruct w as [t suf v|]; [|exact Logic.I]. cbn [wr_fits].
  pose proof (existsb_false_In _ _ _ K HI) as E.
  cbn [is_set wr_key_len andb] in E. apply N.ltb_ge in E.
  unfold key_fits. destruct b; cbn [max_key]; try reflexivity; apply N.leb_le; lia.
Qed.

Definition is_flat (b : backend) : bool := match b with Redis => false | _ => true end.

Lemma apply_writes_flat b ws : forall s,
  apply_writes b (FlatStore s) ws = FlatStore (fold_left (flat_apply b) ws s).
Proof. unfold apply_writes. induction ws as [|w ws IH]; intro s; cbn [fold_left apply_wr]; [reflexivity | apply IH]. Qed.

Lemma apply_writes_hash b ws : forall h,
  apply_writes b (HashStore h) ws = HashStore (fold_left hash_apply ws h).
Proof. unfold apply_writes. induction ws as [|w ws IH]; intro h; cbn [fold_left apply_wr]; [reflexivity | apply IH]. Qed.

Lemma flat_run b aws : is_flat b = true ->
  run_awrites b aws = FlatStore (fold_left (flat_apply b) (map wr_of aws) []).
Proof. intro F. unfold run_awrites. destruct b; try discriminate F; apply apply_writes_flat. Qed.

Lemma hash_run aws : run_awrites Redis aws = HashStore (fold_left hash_apply (map wr_of aws) []).
Proof. apply apply_writes_hash. Qed.

Lemma fitting_as_redis aws b : (forall w, In w (map wr_of aws) -> wr_fits b w) ->
  erase_keys (read_back (run_awrites b aws)) = erase_keys (read_back (run_awrites Redis aws)).
Proof.
  intro FIT. destruct (is_flat b) eqn:F; [|destruct b; try discriminate F; reflexivity].
  rewrite (flat_run b aws F), hash_run. apply sim_read_back. apply sim_run; [|exact sim_empty].
  intros w HI. split; [exact (writes_wf aws w HI) | exact (FIT w HI)].
Qed.

Lemma same_as_redis aws b : key_limit_exceeded aws = false ->
  erase_keys (read_back (run_awrites b aws)) = erase_keys (read_back (run_awrites Redis aws)).
Proof. intro K. apply fitting_as_redis. exact (key_limit_fits aws K b). Qed.

Lemma erase_keys_equiv r1 r2 : erase_keys r1 = erase_keys r2 -> rb_equiv r1 r2.
Proof.
  unfold erase_keys. intro H. injection H as H1 H2 H3 H4 H5. unfold rb_equiv.
  rewrite H1, H2, H3, H4, H5. repeat split; apply Permutation_refl.
Qed.

Theorem same_modulo_key_limit : forall evs, KF_C22_key_limit evs = false ->
  forall b1 b2, rb_equiv (read_back (run_hooks b1 evs)) (read_back (run_hooks b2 evs)).
Proof.
  intros evs K b1 b2. apply erase_keys_equiv. unfold run_hooks.
  rewrite (same_as_redis _ b1 K), (same_as_redis _ b2 K). reflexivity.
Qed.

(* the back ends that accept every key in range (pebble, redis) agree on every history *)
Theorem pebble_redis_same : forall evs,
  rb_equiv (read_back (run_hooks Pebble evs)) (read_back (run_hooks Redis evs)).
Proof.
  intro evs. apply erase_keys_equiv, fitting_as_redis. intros w _. destruct w; [reflexivity | exact Logic.I].
Qed.

(* the full statement fails: a key longer than bbolt's limit *)

Definition long_id : bytes := repeat 107 (N.to_nat 32766).   (* "CL_" + 32766 bytes = 32769 > 32768 *)
Definition long_client : rclient :=
  mkRClient (mkClientRec long_id [] [] [] false 4 0 false 0 false (VL []) (VL [])) false.
Definition long_history : list event := [ESessionEstablished long_client].

(* the witnesses are judged by the length of the key, without walking through it *)
Lemma flat_key_cl_len id : N.of_nat (length (flat_key TCL id)) = N.of_nat (length id) + 3.
Proof. change (flat_key TCL id) with ([67; 76] ++ underscore :: id). rewrite app_length. cbn [length]. lia. Qed.

Lemma long_id_len : N.of_nat (length long_id) = 32766.
Proof. unfold long_id. rewrite repeat_length. apply N2Nat.id. Qed.

Lemma long_history_kf : KF_C22_key_limit long_history = true.
Proof.
  unfold KF_C22_key_limit, key_limit_exceeded.
  cbn [long_history awrites_of flat_map hook_awrites update_client long_client rc_takenover rc_rec app map wr_of
       existsb is_set wr_key_len andb cr_id]. rewrite flat_key_cl_len, long_id_len. reflexivity.
Qed.

Lemma long_client_refused c : cr_id c = long_id -> run_awrites Bolt [ASetClient c] = FlatStore [].
Proof.
  intro E. unfold run_awrites, apply_writes. cbn [map wr_of fold_left empty_store apply_wr flat_apply].
  unfold key_fits. cbn [max_key]. rewrite E, flat_key_cl_len, long_id_len. reflexivity.
Qed.

Lemma long_history_differs :
  ~ rb_equiv (read_back (run_hooks Bolt long_history)) (read_back (run_hooks Redis long_history)).
Proof.
  intros [H _].
  assert (B : run_hooks Bolt long_history = FlatStore []) by exact (long_client_refused (rc_rec long_client) eq_refl).
  rewrite B in H. apply Permutation_nil in H. discriminate H.
Qed.
