(* WIP generated: not part of the shared build.  Compiled on every run of ./check C32 by
   lib/conc_gen.py (private copy under .build/gen/C32); by hand:
   make -C /verif/coq && coqc -Q /verif/coq MV /verif/coq/Gen/LockCheck.v *)
From Coq Require Import List NArith.
From MV Require Import Conc.Locks Conc.LocksProofs.
From MV Require Import Gen.LockGraph.
Import ListNotations.

(* the call closure of the table and a numbering of its lock order, computed once from the table
   regenerated from the Go source.  LocksProofs.certified_table_sound asks nothing of where they come
   from, only that they pass the checks below: so the kernel does three linear passes over this data
   and never runs the fixpoint computations themselves *)
Definition reach : amap := Eval vm_compute in closure_of table.
Definition ranks : rmap := Eval vm_compute in ranking_of table.

(* every function releases on every path what it acquired (no unbalanced function), [reach] is closed
   under calls, and [ranks] increases strictly along every edge "held -> acquired" of the lock order
   (so in particular no lock class is re-acquired while held) *)
Lemma lockgraph_ok :
  balanced_ok fn_names unbalanced = true /\ closedb table reach = true /\
  rankedb (edges_m table reach) ranks = true.
Proof. repeat split; vm_compute; reflexivity. Qed.

(* hence: goroutines whose lock behaviour is described by the table never deadlock on the broker's
   locks and can always run to completion, whatever the schedule *)
Theorem C32_holds_for_this_tree :
  (forall g, existsb (N.eqb g) unbalanced = false) /\
  forall (cl : lock -> cls) (gs : list (fname * list ev)),
    (forall f es, In (f, es) gs -> conforms cl table unbalanced [(f, [])] es = true) ->
    forall sched,
      ~ deadlocked (run sched (map (fun g => thread_of (snd g)) gs)) /\
      exists sched', all_done (run (sched ++ sched') (map (fun g => thread_of (snd g)) gs)).
Proof.
  destruct lockgraph_ok as (B & C & R).
  exact (certified_table_sound fn_names unbalanced table reach ranks B C R).
Qed.

Print Assumptions C32_holds_for_this_tree.
