(* Finite exploration of an interleaving model (Base/Sched.v): if a finite list of configurations
   contains the initial one and is closed under one schedule entry of every thread, every schedule
   ends in that list; a property checked on the list (vm_compute) therefore holds after every
   schedule.  Used by the takeover / CONNACK window models (C13, C14, C16). *)
From MV Require Import Base.Val Base.Sched Base.SchedProofs.
From Coq Require Import Lia.
Open Scope nat_scope.

Fixpoint beq_list {A} (eq : A -> A -> bool) (a b : list A) : bool :=
  match a, b with [], [] => true | x :: a', y :: b' => eq x y && beq_list eq a' b' | _, _ => false end.

Lemma beq_list_ok {A} (eq : A -> A -> bool) : (forall x y, eq x y = true -> x = y) ->
  forall a b, beq_list eq a b = true -> a = b.
Proof.
  intros H a. induction a as [|x a IH]; intros [|y b] E; cbn in E; try discriminate; [reflexivity|].
  apply andb_true_iff in E. destruct E as [E1 E2]. f_equal; [apply H, E1|apply IH, E2].
Qed.

(* the remaining programs are compared first: they tell most configurations apart at their first instruction *)
Definition beq_cfg {St Ins} (beq_i : Ins -> Ins -> bool) (beq_s : St -> St -> bool) (a b : cfg St Ins) : bool :=
  beq_list (beq_list beq_i) (threads a) (threads b) && beq_s (shared a) (shared b).

Lemma beq_cfg_ok {St Ins} (beq_i : Ins -> Ins -> bool) (beq_s : St -> St -> bool) :
  (forall x y, beq_i x y = true -> x = y) -> (forall x y, beq_s x y = true -> x = y) ->
  forall a b, beq_cfg beq_i beq_s a b = true -> a = b.
Proof.
  intros Hi Hs [s1 t1] [s2 t2]. unfold beq_cfg. cbn. rewrite andb_true_iff. intros [E2 E1].
  apply Hs in E1. apply (beq_list_ok _ (beq_list_ok _ Hi)) in E2. subst. reflexivity.
Qed.

Section Reach.
  Variables St Ins : Type.
  Variable exec : tid -> Ins -> St -> outcome St.
  Variable beq : cfg St Ins -> cfg St Ins -> bool.
  Hypothesis beq_ok : forall a b, beq a b = true -> a = b.

  Definition mem (c : cfg St Ins) (L : list (cfg St Ins)) : bool := existsb (beq c) L.

  Lemma mem_in c L : mem c L = true -> In c L.
  Proof. unfold mem. rewrite existsb_exists. intros (x & I & E). apply beq_ok in E. subst. exact I. Qed.

  Definition succs (n : nat) (c : cfg St Ins) : list (cfg St Ins) := map (fun t => step exec t c) (seq 0 n).

  Definition checked (n : nat) (P : cfg St Ins -> bool) (c0 : cfg St Ins) (L : list (cfg St Ins)) : bool :=
    mem c0 L &&
    forallb (fun c => P c && Nat.eqb (length (threads c)) n && forallb (fun c' => mem c' L) (succs n c)) L.

  Lemma checked_sound n P c0 L : checked n P c0 L = true -> forall sched, P (run exec sched c0) = true.
  Proof.
    unfold checked. rewrite andb_true_iff, forallb_forall. intros [M CL] sched.
    assert (I : In (run exec sched c0) L).
    { apply (run_invariant exec (fun c => In c L)); [|apply mem_in, M]. intros t c I.
      specialize (CL c I). rewrite !andb_true_iff, Nat.eqb_eq, forallb_forall in CL. destruct CL as [[_ LEN] ST].
      destruct (Nat.lt_ge_cases t n) as [LT|GE].
      - apply mem_in, ST. unfold succs. apply (in_map (fun t => step exec t c)), in_seq. lia.
      - (* no such thread: the entry is skipped *)
        unfold step, step_thread. replace (nth_error (threads c) t) with (@None (list Ins)); [exact I|].
        symmetry. apply nth_error_None. lia. }
    apply CL in I. rewrite !andb_true_iff in I. apply I.
  Qed.

  (* The list is found by breadth-first search; [checked] tests the result, so the search needs no proof. *)
  Fixpoint fresh (cs seen : list (cfg St Ins)) : list (cfg St Ins) :=
    match cs with
    | [] => []
    | c :: r => if mem c seen then fresh r seen else c :: fresh r (c :: seen)
    end.

  Fixpoint explore (n fuel : nat) (front seen : list (cfg St Ins)) : list (cfg St Ins) :=
    match fuel with
    | O => seen
    | S f => match fresh (flat_map (succs n) front) seen with
             | [] => seen
             | new => explore n f new (new ++ seen)
             end
    end.
End Reach.
Arguments explore {St Ins}.
Arguments checked_sound {St Ins}.
