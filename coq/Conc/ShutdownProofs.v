(* C36 — proofs about Conc/Shutdown.v, part 2 (part 1: Conc/ShutdownConn.v): the invariant of the
   shared state, its preservation by every instruction, and the theorems. *)
From Coq Require Import Lia.
From MV Require Import Base.Val Base.ListMisc Base.Sched Base.SchedProofs Conc.Shutdown Conc.ShutdownConn.
Open Scope Z_scope.

Definition cnt : list conn -> Z := countZ counted.

Lemma upd_set_nth {i f l c0} : nth_error l i = Some c0 -> upd i f l = set_nth i (f c0) l.
Proof.
  revert i; induction l as [|c r IH]; intros [|i] H; cbn in *; try discriminate.
  - congruence.
  - now rewrite (IH _ H).
Qed.

Lemma upd_none i f l : nth_error l i = None -> upd i f l = l.
Proof.
  revert i; induction l as [|c r IH]; intros [|i] H; cbn in *; auto; try discriminate. now rewrite IH.
Qed.

Lemma cnt_upd {i f l c0} :
  nth_error l i = Some c0 -> cnt (upd i f l) = cnt l - b2z (counted c0) + b2z (counted (f c0)).
Proof. intro H. rewrite (upd_set_nth H). apply (sumZ_set_nth (fun c => b2z (counted c))), H. Qed.

Lemma Forall_upd {P : conn -> Prop} {i f l c0} :
  nth_error l i = Some c0 -> Forall P l -> P (f c0) -> Forall P (upd i f l).
Proof. intros H F Hf. rewrite (upd_set_nth H). now apply Forall_set_nth. Qed.

Lemma phase_eqb_eq p q : phase_eqb p q = true <-> p = q.
Proof. destruct p, q; cbn; split; intro H; try reflexivity; try discriminate. Qed.

Lemma same_phase {c c' : conn} {p} :
  phase_eqb (c_phase c') p = phase_eqb (c_phase c) p -> (c_phase c' = p <-> c_phase c = p).
Proof. intro E. rewrite <- !phase_eqb_eq, E. reflexivity. Qed.

Definition at_phase (l : list conn) (j : nat) (p : phase) : Prop :=
  exists c, nth_error l j = Some c /\ c_phase c = p.

Lemma at_phase_upd {l i f c0 j p} :
  nth_error l i = Some c0 ->
  (at_phase (upd i f l) j p <-> (j = i /\ c_phase (f c0) = p) \/ (j <> i /\ at_phase l j p)).
Proof.
  intro H. rewrite (upd_set_nth H). unfold at_phase. destruct (Nat.eq_dec i j) as [<-|Hne].
  - rewrite nth_error_set_nth_eq, H. cbn. split.
    + intros (c & E & Hp). inversion E; subst. auto.
    + intros [[_ Hp]|[Hne _]]; [eauto|contradiction].
  - rewrite nth_error_set_nth_neq by auto. split; [intro X; right; auto|].
    intros [[-> _]|[_ X]]; [contradiction|exact X].
Qed.

Lemma at_phase_upd_same {l i f c0 j p} :
  nth_error l i = Some c0 -> phase_eqb (c_phase (f c0)) p = phase_eqb (c_phase c0) p ->
  (at_phase (upd i f l) j p <-> at_phase l j p).
Proof.
  intros H E. rewrite (at_phase_upd H), (same_phase E). split.
  - intros [[-> Hp]|[_ X]]; [exists c0; auto|exact X].
  - intros (c & Hc & Hp). destruct (Nat.eq_dec j i) as [->|Hne]; [left|right; split; eauto; exists c; auto].
    split; [reflexivity|congruence].
Qed.

Lemma at_phase_map l f j p :
  (forall c, phase_eqb (c_phase (f c)) p = phase_eqb (c_phase c) p) ->
  (at_phase (map f l) j p <-> at_phase l j p).
Proof.
  intro Hf. unfold at_phase. rewrite nth_error_map. destruct (nth_error l j) as [c1|]; cbn.
  - split; intros (c & E & Hp); inversion E; subst c; eexists; (split; [reflexivity|]); apply (same_phase (Hf c1)), Hp.
  - split; intros (c & E & _); discriminate.
Qed.

(* the accept queue P and the state a of the accept loop index the connection list *)
Record idx_ok (l : list conn) (P : list nat) (a : aphase) : Prop := mkIdx {
  x_pending : forall i, In i P <-> at_phase l i PPending;
  x_nodup : NoDup P;
  x_cur : forall i, a = AAtSpawn i <-> at_phase l i PCur }.
Arguments x_pending {l P a}.
Arguments x_cur {l P a}.

Lemma idx_upd {l P a i f c0} :
  nth_error l i = Some c0 ->
  phase_eqb (c_phase (f c0)) PPending = phase_eqb (c_phase c0) PPending ->
  phase_eqb (c_phase (f c0)) PCur = phase_eqb (c_phase c0) PCur ->
  idx_ok l P a -> idx_ok (upd i f l) P a.
Proof.
  intros H E1 E2 [X1 X2 X3]. constructor; auto; intro j.
  - rewrite (at_phase_upd_same H E1). apply X1.
  - rewrite (at_phase_upd_same H E2). apply X3.
Qed.

Lemma idx_map l P a f : (forall c, c_phase (f c) = c_phase c) -> idx_ok l P a -> idx_ok (map f l) P a.
Proof.
  intros Hf [X1 X2 X3]. constructor; auto; intro j; (rewrite at_phase_map; [auto|]); intro c; now rewrite Hf.
Qed.

Lemma idx_dial {l P a i c0} :
  nth_error l i = Some c0 -> c_phase c0 = PNone ->
  idx_ok l P a -> idx_ok (upd i (set_phase PPending) l) (P ++ [i]) a.
Proof.
  intros H Hp [X1 X2 X3].
  assert (Hi : ~ In i P).
  { intro Hi. apply X1 in Hi. destruct Hi as (c & Hc & Hcp). congruence. }
  constructor.
  - intro j. rewrite (at_phase_upd H), in_app_iff, X1. cbn. split.
    + intros [X|[<-|[]]]; [|auto]. right. split; [|exact X]. intros ->. apply Hi, X1, X.
    + intros [[-> _]|[_ X]]; auto.
  - apply (NoDup_Add (Add_app i P [])). rewrite app_nil_r. auto.
  - intro j. rewrite (at_phase_upd_same H); [apply X3|]. cbn. now rewrite Hp.
Qed.

Lemma idx_accept {l r a i c0} :
  nth_error l i = Some c0 -> (forall j, a <> AAtSpawn j) ->
  idx_ok l (i :: r) a -> idx_ok (upd i (set_phase PCur) l) r (AAtSpawn i).
Proof.
  intros H Ha [X1 X2 X3]. inversion X2 as [|? ? Hi Hr]; subst.
  constructor; auto; intro j; rewrite (at_phase_upd H); cbn.
  - split.
    + intro X. right. split; [intros ->; contradiction|]. apply X1. right. exact X.
    + intros [[_ X]|[Hne X]]; [discriminate|]. apply X1 in X. destruct X as [<-|X]; [contradiction|exact X].
  - split.
    + intro E. inversion E. auto.
    + intros [[-> _]|[_ X]]; [reflexivity|]. apply X3 in X. destruct (Ha j X).
Qed.

Lemma idx_spawn {l P i f c0} :
  nth_error l i = Some c0 -> c_phase c0 = PCur ->
  phase_eqb (c_phase (f c0)) PPending = false -> phase_eqb (c_phase (f c0)) PCur = false ->
  idx_ok l P (AAtSpawn i) -> idx_ok (upd i f l) P AAtChk.
Proof.
  intros H Hp E1 E2 [X1 X2 X3]. constructor; auto; intro j.
  - rewrite (at_phase_upd_same H); [apply X1|]. now rewrite E1, Hp.
  - rewrite (at_phase_upd H). split; [discriminate|].
    intros [[_ X]|[Hne X]].
    + apply phase_eqb_eq in X. congruence.
    + apply X3 in X. inversion X. congruence.
Qed.

Lemma reset_pending_phase c : c_phase (reset_pending c) = match c_phase c with PPending => PReset | p => p end.
Proof. unfold reset_pending. destruct (c_phase c) eqn:E; cbn; rewrite ?E; reflexivity. Qed.

Lemma idx_close {l P a} : idx_ok l P a -> idx_ok (map reset_pending l) [] a.
Proof.
  intros [X1 X2 X3]. constructor; [|constructor|].
  - intro j. split; [intros []|]. intros (c & Hc & Hp). rewrite nth_error_map in Hc.
    destruct (nth_error l j) as [c1|]; cbn in Hc; [|discriminate]. inversion Hc; subst c.
    rewrite reset_pending_phase in Hp. destruct (c_phase c1); discriminate.
  - intro j. rewrite at_phase_map; [apply X3|]. intro c. rewrite reset_pending_phase. destruct (c_phase c); reflexivity.
Qed.

Definition pu_of (s : sstate) : bool := s_passed s && negb (g_unstarted s).

Record Inv (s : sstate) : Prop := mkInv {
  i_wg : s_wg s = cnt (s_conns s);
  i_wait : s_k s = KWaiting -> s_passed s = false -> 0 < s_wg s;
  i_passed : s_passed s = true -> s_k s = KWaiting \/ s_k s = KReturned;
  i_ret : s_k s = KReturned -> s_passed s = true;
  i_lclosed : k_lclosed (s_k s) = true -> s_pending s = [];
  i_idx : idx_ok (s_conns s) (s_pending s) (s_a s);
  i_conns : Forall (fun c => conn_ok (k_snapped (s_k s)) (k_disconnected (s_k s)) (pu_of s) c = true) (s_conns s) }.

Lemma init_inv vers : Inv (init_state vers).
Proof.
  assert (H0 : forall i p, p <> PNone -> ~ at_phase (map conn0 vers) i p).
  { intros i p Hp (c & Hc & E). apply nth_error_In, in_map_iff in Hc. destruct Hc as (v & <- & _). auto. }
  constructor; cbn; try congruence; try discriminate.
  - clear H0. unfold cnt. induction vers as [|v r IH]; [reflexivity|]. cbn [map]. rewrite countZ_cons, <- IH. reflexivity.
  - constructor; [|constructor|]; intro i; (split; [intro H; inversion H|intro H; apply H0 in H; [destruct H|discriminate]]).
  - apply Forall_forall. intros c H. apply in_map_iff in H. destruct H as (v & <- & _). reflexivity.
Qed.

Lemma conn_at s i c0 :
  Inv s -> nth_error (s_conns s) i = Some c0 ->
  conn_ok (k_snapped (s_k s)) (k_disconnected (s_k s)) (pu_of s) c0 = true.
Proof. intros HI H. apply (proj1 (Forall_forall _ _) (i_conns s HI)), (nth_error_In _ _ H). Qed.

Lemma wg_nonneg s : Inv s -> 0 <= s_wg s.
Proof. intro HI. rewrite (i_wg s HI). apply countZ_nonneg. Qed.

Lemma passed_false_before_wait s : Inv s -> s_k s <> KWaiting -> s_k s <> KReturned -> s_passed s = false.
Proof.
  intros HI H1 H2. destruct (s_passed s) eqn:E; auto. destruct (i_passed s HI E); contradiction.
Qed.

Lemma guard_inv i p s k r :
  guard i p s k = r -> r <> Blocked ->
  exists c, nth_error (s_conns s) i = Some c /\ c_phase c = p /\ k c = r.
Proof.
  unfold guard. destruct (nth_error (s_conns s) i) as [c|]; [|congruence].
  destruct (phase_eqb (c_phase c) p) eqn:E; [|congruence].
  apply phase_eqb_eq in E. eauto.
Qed.

Lemma guard_result i p s k s' :
  result (guard i p s k) = Some s' ->
  exists c, nth_error (s_conns s) i = Some c /\ c_phase c = p /\ result (k c) = Some s'.
Proof.
  intro H. destruct (guard_inv i p s k _ eq_refl) as (c & Hn & Hp & Hk).
  - intro E. rewrite E in H. discriminate.
  - exists c. rewrite Hk. auto.
Qed.

Lemma inv_upd s i f c0 :
  Inv s -> nth_error (s_conns s) i = Some c0 ->
  phase_eqb (c_phase (f c0)) PPending = phase_eqb (c_phase c0) PPending ->
  phase_eqb (c_phase (f c0)) PCur = phase_eqb (c_phase c0) PCur ->
  counted (f c0) = counted c0 ->
  conn_ok (k_snapped (s_k s)) (k_disconnected (s_k s)) (pu_of s) (f c0) = true ->
  Inv (with_conns (upd i f (s_conns s)) s).
Proof.
  intros [Hwg Hwait Hpassed Hret Hlc Hidx Hconns] Hn E1 E2 Ec Hok. constructor; cbn; auto.
  - rewrite (cnt_upd Hn), Ec. lia.
  - apply (idx_upd Hn E1 E2 Hidx).
  - apply (Forall_upd Hn Hconns Hok).
Qed.

Lemma inv_with_a s a' :
  Inv s -> (forall i, s_a s <> AAtSpawn i) -> (forall i, a' <> AAtSpawn i) -> Inv (with_a a' s).
Proof.
  intros [Hwg Hwait Hpassed Hret Hlc [X1 X2 X3] Hconns] Ha Ha'. constructor; cbn; auto. constructor; auto.
  intro j. split; intro H; [destruct (Ha' j H)|apply X3 in H; destruct (Ha j H)].
Qed.

Lemma pres_dial s t i s' : Inv s -> result (exec t (Dial i) s) = Some s' -> Inv s'.
Proof.
  intros HI H. cbn in H. apply guard_result in H. destruct H as (c0 & Hn & Hp & H).
  pose proof (conn_at s i c0 HI Hn) as Hok.
  destruct (k_lclosed (s_k s)) eqn:L; inversion H; subst s'; clear H.
  - apply (inv_upd s i _ c0); auto; try (unfold counted; cbn; rewrite Hp; reflexivity).
    apply ok_refused; auto.
  - destruct HI as [Hwg Hwait Hpassed Hret Hlc Hidx Hconns]. constructor; cbn; auto.
    + rewrite (cnt_upd Hn). unfold counted. cbn. rewrite Hp. cbn. lia.
    + intro X. rewrite L in X. discriminate.
    + apply (idx_dial Hn Hp Hidx).
    + apply (Forall_upd Hn Hconns). apply ok_pending; auto.
Qed.

Lemma pres_leave s t i s' : Inv s -> result (exec t (Leave i) s) = Some s' -> Inv s'.
Proof.
  intros HI H. cbn in H. destruct (nth_error (s_conns s) i) as [c0|] eqn:Hn; [|discriminate].
  destruct (phase_eqb (c_phase c0) PNone || c_left c0); inversion H; subst s'.
  apply (inv_upd s i _ c0); auto. apply ok_left, (conn_at s i c0 HI Hn).
Qed.

Lemma pres_send s t i s' : Inv s -> result (exec t (Send i) s) = Some s' -> Inv s'.
Proof.
  intros HI H. cbn in H. destruct (nth_error (s_conns s) i) as [c0|] eqn:Hn; [|discriminate].
  destruct (phase_eqb (c_phase c0) PNone || phase_eqb (c_phase c0) PRefused || c_sent c0 || c_left c0);
    inversion H; subst s'.
  apply (inv_upd s i _ c0); auto. apply ok_sent, (conn_at s i c0 HI Hn).
Qed.

Lemma pres_achk s t s' : Inv s -> result (exec t AChk s) = Some s' -> Inv s'.
Proof.
  intros HI H. cbn in H. destruct (s_a s) eqn:A; try discriminate.
  destruct (k_end (s_k s)); inversion H; subst s'; apply inv_with_a; auto; rewrite ?A; discriminate.
Qed.

Lemma pres_aaccept s t s' : Inv s -> result (exec t AAccept s) = Some s' -> Inv s'.
Proof.
  intros HI H. cbn in H. destruct (s_a s) eqn:A; try discriminate.
  assert (Ha : forall j, s_a s <> AAtSpawn j) by (rewrite A; discriminate).
  destruct (k_lclosed (s_k s)) eqn:L.
  { inversion H; subst s'. apply inv_with_a; auto. discriminate. }
  destruct (s_pending s) as [|i r] eqn:P; inversion H; subst s'; clear H.
  destruct (proj1 (x_pending (i_idx s HI) i)) as (c0 & Hn & Hp); [rewrite P; left; reflexivity|].
  pose proof (conn_at s i c0 HI Hn) as Hok.
  destruct HI as [Hwg Hwait Hpassed Hret Hlc Hidx Hconns]. constructor; cbn; auto.
  - rewrite (cnt_upd Hn). unfold counted. cbn. rewrite Hp. cbn. lia.
  - intro X. rewrite L in X. discriminate.
  - rewrite P in Hidx. apply (idx_accept Hn Ha Hidx).
  - apply (Forall_upd Hn Hconns). apply ok_cur; auto.
Qed.

Lemma pres_aspawn s t s' : Inv s -> result (exec t ASpawn s) = Some s' -> Inv s'.
Proof.
  intros HI H. cbn in H. destruct (s_a s) as [| |i|] eqn:A; try discriminate.
  destruct (proj1 (x_cur (i_idx s HI) i) A) as (c0 & Hn & Hp).
  pose proof (conn_at s i c0 HI Hn) as Hok.
  (* both ways: out of PCur, into a phase that no index refers to and that holds no ClientsWg unit *)
  assert (G : forall f, phase_eqb (c_phase (f c0)) PPending = false -> phase_eqb (c_phase (f c0)) PCur = false ->
                        counted (f c0) = false ->
                        conn_ok (k_snapped (s_k s)) (k_disconnected (s_k s)) (pu_of s) (f c0) = true ->
                        Inv (with_a AAtChk (with_conns (upd i f (s_conns s)) s))).
  { intros f E1 E2 Ec Hf. destruct HI as [Hwg Hwait Hpassed Hret Hlc Hidx Hconns]. constructor; cbn; auto.
    - rewrite (cnt_upd Hn), Ec. unfold counted. rewrite Hp. cbn. lia.
    - rewrite A in Hidx. apply (idx_spawn Hn Hp E1 E2 Hidx).
    - apply (Forall_upd Hn Hconns Hf). }
  destruct (k_end (s_k s)) eqn:E; inversion H; subst s'; clear H; apply G; auto.
  - apply ok_dropped; auto.
  - (* Close has not started, so Wait has not returned *)
    assert (Hpu : pu_of s = false).
    { unfold pu_of. rewrite (passed_false_before_wait s HI); auto; intro X; rewrite X in E; discriminate. }
    rewrite Hpu in *. apply ok_spawned; auto.
Qed.

Lemma pres_hstart s t i s' : Inv s -> result (exec t (HStart i) s) = Some s' -> Inv s'.
Proof.
  intros HI H. cbn in H. apply guard_result in H. destruct H as (c0 & Hn & Hp & H).
  inversion H; subst s'; clear H.
  pose proof (conn_at s i c0 HI Hn) as Hok. pose proof (wg_nonneg s HI) as Hge.
  destruct HI as [Hwg Hwait Hpassed Hret Hlc Hidx Hconns]. constructor; cbn; auto.
  - rewrite (cnt_upd Hn). unfold counted. cbn. rewrite Hp. cbn. lia.
  - intros. lia.
  - apply (idx_upd Hn); auto; cbn; now rewrite Hp.
  - apply (Forall_upd Hn Hconns). apply ok_wait; auto.
Qed.

Lemma conns_weaken {sn dc pu l} :
  Forall (fun c => conn_ok sn dc pu c = true) l -> Forall (fun c => conn_ok sn dc false c = true) l.
Proof. apply Forall_impl. intro c. destruct pu; auto using ok_weaken. Qed.

(* the hypotheses are the fields of [Inv] for [s1] with counter [w]; [now] says that this is the moment Wait returns *)
Lemma inv_pass s1 now w :
  w = cnt (s_conns s1) ->
  (now = true -> w = 0 /\ s_k s1 = KWaiting) ->
  (s_k s1 = KWaiting -> now = false -> s_passed s1 = false -> 0 < w) ->
  (s_passed s1 = true -> s_k s1 = KWaiting \/ s_k s1 = KReturned) ->
  (s_k s1 = KReturned -> s_passed s1 = true) ->
  (k_lclosed (s_k s1) = true -> s_pending s1 = []) ->
  idx_ok (s_conns s1) (s_pending s1) (s_a s1) ->
  Forall (fun c => conn_ok (k_snapped (s_k s1)) (k_disconnected (s_k s1)) false c = true) (s_conns s1) ->
  pu_of s1 = false ->
  Inv (pass_wait now s1 w).
Proof.
  intros Hw Hnow Hwait Hpassed Hret Hlc Hidx Hconns Hpu.
  constructor; unfold pass_wait; cbn; auto.
  - intros Hk Hp. apply orb_false_iff in Hp. destruct Hp. auto.
  - intro Hp. apply orb_prop in Hp. destruct Hp as [Hp|Hp]; auto. left. apply Hnow; auto.
  - intro Hk. rewrite (Hret Hk). reflexivity.
  - unfold pu_of in *. cbn. destruct (s_passed s1), (g_unstarted s1), now; cbn in Hpu |- *; auto; try discriminate.
    destruct (existsb is_spawned (s_conns s1)) eqn:Hs; cbn; auto.
    (* Wait returns with the counter at 0 and no handler spawned: alive = spawned or counted *)
    destruct (Hnow eq_refl) as [H0 _]. rewrite Hw in H0. apply countZ_existsb in H0.
    rewrite Forall_forall in *. intros c Hin. apply ok_strengthen; auto.
    pose proof (existsb_false_In _ _ c Hs Hin) as X. pose proof (existsb_false_In _ _ c H0 Hin) as Y.
    unfold is_spawned in X. unfold live, counted in *. destruct (c_phase c); auto; discriminate.
Qed.

Lemma inv_handler_done s i c0 :
  Inv s -> nth_error (s_conns s) i = Some c0 -> counted c0 = true ->
  conn_ok (k_snapped (s_k s)) (k_disconnected (s_k s)) false (set_closed (set_phase PDone c0)) = true ->
  Inv (wg_done (with_conns (upd i (fun c => set_closed (set_phase PDone c)) (s_conns s)) s)).
Proof.
  intros HI Hn Hc Hok. pose proof (wg_nonneg s HI) as Hge.
  (* a live handler: Wait cannot have returned with every handler accounted for *)
  assert (Hpu : pu_of s = false).
  { destruct (pu_of s) eqn:E; auto. pose proof (conn_at s i c0 HI Hn) as X. rewrite E in X.
    apply ok_pu_live in X. unfold live, counted in *. destruct (c_phase c0); discriminate. }
  destruct HI as [Hwg Hwait Hpassed Hret Hlc Hidx Hconns].
  assert (Hcnt : s_wg s - 1 = cnt (upd i (fun c => set_closed (set_phase PDone c)) (s_conns s))).
  { rewrite (cnt_upd Hn), Hc. cbn. lia. }
  unfold wg_done. apply inv_pass; cbn; auto.
  - intro X. apply andb_prop in X. destruct X as [X1 X2]. split; [lia|]. destruct (s_k s); auto; discriminate.
  - intros Hk Hnow Hp. rewrite Hk, andb_true_r in Hnow.
    pose proof (countZ_nonneg counted (upd i (fun c => set_closed (set_phase PDone c)) (s_conns s))).
    unfold cnt in *. lia.
  - unfold counted in Hc. apply (idx_upd Hn); auto; cbn; destruct (c_phase c0); auto; discriminate.
  - apply (Forall_upd Hn (conns_weaken Hconns) Hok).
Qed.

Lemma pres_hread s t i s' : Inv s -> result (exec t (HRead i) s) = Some s' -> Inv s'.
Proof.
  intros HI H. cbn in H. apply guard_result in H. destruct H as (c0 & Hn & Hp & H).
  pose proof (conn_at s i c0 HI Hn) as Hok.
  destruct (c_sent c0).
  - inversion H; subst s'. apply (inv_upd s i _ c0); auto; try (unfold counted; cbn; rewrite Hp; reflexivity).
    apply ok_added; auto.
  - destruct (c_closed c0 || c_left c0); inversion H; subst s'.
    apply (inv_handler_done s i c0); auto; [unfold counted; now rewrite Hp|].
    eapply ok_read_failed; eauto.
Qed.

Lemma pres_hclientsadd s t i s' : Inv s -> result (exec t (HClientsAdd i) s) = Some s' -> Inv s'.
Proof.
  intros HI H. cbn in H. apply guard_result in H. destruct H as (c0 & Hn & Hp & H).
  inversion H; subst s'. apply (inv_upd s i _ c0); auto; try (unfold counted; cbn; rewrite Hp; reflexivity).
  apply ok_inclients; [exact Hp|apply (conn_at s i c0 HI Hn)].
Qed.

Lemma pres_hconnack s t i s' : Inv s -> result (exec t (HConnack i) s) = Some s' -> Inv s'.
Proof.
  intros HI H. cbn in H. apply guard_result in H. destruct H as (c0 & Hn & Hp & H).
  pose proof (conn_at s i c0 HI Hn) as Hok.
  destruct (k_end (s_k s) || c_closed c0) eqn:B; inversion H; subst s'; clear H.
  - apply (inv_handler_done s i c0); auto; [unfold counted; now rewrite Hp|].
    eapply ok_refuse_done; eauto.
  - apply orb_false_iff in B. destruct B as [B1 B2].
    assert (Hk : s_k s = KIdle) by (destruct (s_k s); auto; discriminate).
    apply (inv_upd s i _ c0); auto; try (unfold counted; cbn; rewrite Hp; reflexivity).
    rewrite Hk in *. apply ok_serving; auto.
Qed.

Lemma pres_hteardown s t i s' : Inv s -> result (exec t (HTeardown i) s) = Some s' -> Inv s'.
Proof.
  intros HI H. cbn in H. apply guard_result in H. destruct H as (c0 & Hn & Hp & H).
  destruct (c_closed c0 || c_left c0) eqn:B; inversion H; subst s'.
  apply (inv_handler_done s i c0); auto; [unfold counted; now rewrite Hp|].
  apply (ok_teardown _ _ (pu_of s)); [exact Hp|exact B|apply (conn_at s i c0 HI Hn)].
Qed.

Lemma inv_closer s k' f P' :
  Inv s -> s_k s <> KWaiting -> s_k s <> KReturned -> k' <> KWaiting -> k' <> KReturned ->
  (k_lclosed k' = true -> P' = []) ->
  (forall c, counted (f c) = counted c) ->
  idx_ok (map f (s_conns s)) P' (s_a s) ->
  (forall c, conn_ok (k_snapped (s_k s)) (k_disconnected (s_k s)) false c = true ->
             conn_ok (k_snapped k') (k_disconnected k') false (f c) = true) ->
  Inv (with_k k' (with_pending P' (with_conns (map f (s_conns s)) s))).
Proof.
  intros HI K1 K2 K1' K2' HP Hc Hidx Hf.
  pose proof (passed_false_before_wait s HI K1 K2) as Hpf.
  destruct HI as [Hwg Hwait Hpassed Hret Hlc _ Hconns].
  constructor; cbn; auto; try congruence.
  - rewrite Hwg. unfold cnt, countZ. rewrite sumZ_map. apply sumZ_ext_in. intros c _. now rewrite Hc.
  - unfold pu_of in *. cbn. rewrite Hpf in *. cbn in *.
    apply Forall_forall. intros c Hin. apply in_map_iff in Hin. destruct Hin as (c1 & <- & Hin).
    apply Hf. apply (proj1 (Forall_forall _ _) Hconns c1 Hin).
Qed.

Lemma pres_ksetend s t s' : Inv s -> result (exec t KSetEnd s) = Some s' -> Inv s'.
Proof.
  intros HI H. cbn in H. destruct (s_k s) eqn:K; inversion H; subst s'.
  destruct HI as [Hwg Hwait Hpassed Hret Hlc Hidx Hconns].
  constructor; cbn; auto; try discriminate.
  - intro Hp. destruct (Hpassed Hp); congruence.
  - rewrite K in Hconns. exact Hconns.
Qed.

Lemma disconnect_phase c : c_phase (disconnect Current c) = c_phase c.
Proof.
  unfold disconnect, disconnect_client. destruct (c_insnap c); auto. destruct (c_closed c); auto.
  destruct (c_wfail c); auto.
Qed.

Lemma pres_ksnapshot s t s' : Inv s -> result (exec t KSnapshot s) = Some s' -> Inv s'.
Proof.
  intros HI H. cbn in H. destruct (s_k s) eqn:K; inversion H; subst s'.
  apply (inv_closer s KSnap take_snapshot (s_pending s)); try congruence; try discriminate; auto.
  - apply idx_map, (i_idx s HI). reflexivity.
  - rewrite K. apply ok_snapshot.
Qed.

Lemma pres_kdisconnect s t s' : Inv s -> result (exec t KDisconnect s) = Some s' -> Inv s'.
Proof.
  intros HI H. cbn in H. destruct (s_k s) eqn:K; inversion H; subst s'.
  apply (inv_closer s KDisc (disconnect Current) (s_pending s)); try congruence; try discriminate.
  - intro c. unfold counted. now rewrite disconnect_phase.
  - apply idx_map, (i_idx s HI). apply disconnect_phase.
  - rewrite K. apply ok_disconnect.
Qed.

Lemma pres_kcloselistener s t s' : Inv s -> result (exec t KCloseListener s) = Some s' -> Inv s'.
Proof.
  intros HI H. cbn in H. destruct (s_k s) eqn:K; inversion H; subst s'.
  apply (inv_closer s KLClosed reset_pending []); try congruence; try discriminate; auto.
  - intro c. unfold counted. rewrite reset_pending_phase. destruct (c_phase c); reflexivity.
  - apply (idx_close (i_idx s HI)).
  - rewrite K. intro c. apply ok_reset.
Qed.

Lemma pres_kenterwait s t s' : Inv s -> result (exec t KEnterWait s) = Some s' -> Inv s'.
Proof.
  intros HI H. cbn in H. destruct (s_k s) eqn:K; inversion H; subst s'.
  assert (Hpf : s_passed s = false) by (apply passed_false_before_wait; auto; congruence).
  pose proof (wg_nonneg s HI) as Hge.
  destruct HI as [Hwg Hwait Hpassed Hret Hlc Hidx Hconns].
  apply inv_pass; cbn; auto; try discriminate; try congruence.
  - intro X. apply Z.eqb_eq in X. auto.
  - intros _ X _. apply Z.eqb_neq in X. lia.
  - intros _. rewrite K in Hlc. auto.
  - rewrite K in Hconns. apply (conns_weaken Hconns).
  - unfold pu_of. cbn. rewrite Hpf. reflexivity.
Qed.

Lemma pres_kreturn s t s' : Inv s -> result (exec t KReturn s) = Some s' -> Inv s'.
Proof.
  intros HI H. cbn in H. destruct (s_k s) eqn:K; try discriminate.
  destruct (s_passed s) eqn:Ps; inversion H; subst s'.
  destruct HI as [Hwg Hwait Hpassed Hret Hlc Hidx Hconns].
  constructor; cbn; auto; try discriminate.
  - intros _. rewrite K in Hlc. auto.
  - rewrite K in Hconns. exact Hconns.
Qed.

Lemma exec_inv t ins s s' : Inv s -> result (exec t ins s) = Some s' -> Inv s'.
Proof.
  intro HI. destruct ins.
  - apply pres_dial, HI.
  - apply pres_send, HI.
  - apply pres_leave, HI.
  - apply pres_achk, HI.
  - apply pres_aaccept, HI.
  - apply pres_aspawn, HI.
  - apply pres_hstart, HI.
  - apply pres_hread, HI.
  - apply pres_hclientsadd, HI.
  - apply pres_hconnack, HI.
  - apply pres_hteardown, HI.
  - apply pres_ksetend, HI.
  - apply pres_ksnapshot, HI.
  - apply pres_kdisconnect, HI.
  - apply pres_kcloselistener, HI.
  - apply pres_kenterwait, HI.
  - apply pres_kreturn, HI.
Qed.

Lemma returned_k s : returned s = true -> s_k s = KReturned.
Proof. unfold returned. destruct (s_k s); auto; discriminate. Qed.

Lemma final_inv vers sched : Inv (final vers sched).
Proof.
  unfold final. apply (run_shared_invariant exec Inv).
  - intros t i s s'. apply exec_inv.
  - apply init_inv.
Qed.

(* Close returns only after every handler has finished — unless, when ClientsWg.Wait returned, a
   handler spawned by the accept loop had not yet run ClientsWg.Add (known finding) *)
Lemma shutdown_waits vers sched :
  KF_C36_unstarted_handler vers sched = false ->
  returned (final vers sched) = true -> no_live_handler (final vers sched) = true.
Proof.
  unfold KF_C36_unstarted_handler. intros Hkf Hret. pose proof (final_inv vers sched) as HI.
  remember (final vers sched) as s eqn:Hs. clear Hs.
  apply returned_k in Hret.
  pose proof (i_ret s HI Hret) as Hp. pose proof (i_conns s HI) as HF.
  unfold pu_of in HF. rewrite Hp, Hkf in HF. cbn in HF.
  unfold no_live_handler. apply forallb_forall. intros c Hin.
  rewrite Forall_forall in HF. rewrite (ok_pu_live _ _ _ (HF c Hin)). reflexivity.
Qed.

(* when nothing in the broker can move any more and Close was called: Close has returned, the
   listener is closed, every connection is closed (MQTT 5 clients that were connected got 0x8B),
   no handler is alive — unless a handler still waits for the CONNECT of a silent client (known
   finding C36-3) or the shutdown DISCONNECT exceeded a client's Maximum Packet Size (C36-4). *)
Lemma shutdown_all_closed vers sched :
  KF_C36_silent_connection vers sched = false ->
  KF_C36_disconnect_too_large vers sched = false ->
  close_called (final vers sched) = true -> quiescent (final vers sched) = true ->
  shutdown_complete (final vers sched) = true.
Proof.
  unfold KF_C36_silent_connection, KF_C36_disconnect_too_large. intros Hsil Htl Hcc Hq.
  pose proof (fun c => existsb_false_In _ _ c Hsil) as Hns. pose proof (fun c => existsb_false_In _ _ c Htl) as Hnt.
  clear Hsil Htl. pose proof (final_inv vers sched) as HI.
  remember (final vers sched) as s eqn:Hs. clear Hs.
  unfold quiescent in Hq. apply andb_prop in Hq. destruct Hq as [Hq Hh]. apply andb_prop in Hq. destruct Hq as [Ha Hk].
  rewrite forallb_forall in Hh.
  pose proof (i_conns s HI) as HF. rewrite Forall_forall in HF.
  assert (Hret : s_k s = KReturned).
  { unfold close_called in Hcc. destruct (s_k s) eqn:K; try discriminate; auto.
    apply negb_true_iff in Hk.
    pose proof (i_wait s HI K Hk) as Hpos. rewrite (i_wg s HI) in Hpos.
    destruct (existsb counted (s_conns s)) eqn:Ex; [|apply countZ_existsb in Ex; unfold cnt in Hpos; lia].
    apply existsb_exists in Ex. destruct Ex as (c & Hin & Hc). exfalso.
    specialize (HF c Hin). cbn in HF. eapply ok_counted_not_quiet; eauto. }
  assert (Hpend : s_pending s = []) by (apply (i_lclosed s HI); rewrite Hret; reflexivity).
  assert (Hall : forall c, In c (s_conns s) -> conn_closed_ok c = true /\ live c = false).
  { intros c Hin. destruct (In_nth_error _ _ Hin) as (j & Hj).
    specialize (HF c Hin). rewrite Hret in HF. cbn in HF.
    eapply ok_quiet_closed; eauto.
    - intro Hp. assert (X : In j (s_pending s)) by (apply (x_pending (i_idx s HI)); exists c; auto).
      rewrite Hpend in X. destruct X.
    - intro Hp. assert (X : s_a s = AAtSpawn j) by (apply (x_cur (i_idx s HI)); exists c; auto).
      rewrite X in Ha. discriminate. }
  unfold shutdown_complete, returned, no_live_handler. rewrite Hret. cbn.
  apply andb_true_intro. split.
  - apply forallb_forall. intros c Hin. apply Hall; auto.
  - apply forallb_forall. intros c Hin. destruct (Hall c Hin) as [_ X]. rewrite X. reflexivity.
Qed.

(* the listener stops accepting: once Close has returned a new connection attempt is refused *)
Lemma shutdown_refuses vers sched t i s' :
  returned (final vers sched) = true ->
  exec t (Dial i) (final vers sched) = Continue s' ->
  at_phase (s_conns s') i PRefused /\ s_pending s' = s_pending (final vers sched).
Proof.
  intros Hret H. remember (final vers sched) as s eqn:Hs. clear Hs.
  apply returned_k in Hret.
  cbn in H. apply guard_inv in H; [|discriminate]. destruct H as (c0 & Hn & Hp & Hr).
  rewrite Hret in Hr. inversion Hr; subst s'. cbn. split; auto.
  apply (at_phase_upd Hn). auto.
Qed.

(* and no connection is handed to a handler once Close has started: the accept loop's spawn step
   closes the connection instead *)
Lemma shutdown_no_spawn vers sched t s' :
  close_called (final vers sched) = true ->
  exec t ASpawn (final vers sched) = Continue s' ->
  forall j c, nth_error (s_conns s') j = Some c -> c_phase c = PSpawned ->
  exists c1, nth_error (s_conns (final vers sched)) j = Some c1 /\ c_phase c1 = PSpawned.
Proof.
  intros Hcc H. remember (final vers sched) as s eqn:Hs. clear Hs.
  cbn in H. destruct (s_a s) as [| |i|]; try discriminate.
  unfold close_called in Hcc. rewrite Hcc in H. inversion H; subst; clear H. cbn.
  intros j c Hj Hc. destruct (nth_error (s_conns s) i) as [c0|] eqn:Hn.
  - assert (X : at_phase (upd i (fun c => set_closed (set_phase PDropped c)) (s_conns s)) j PSpawned) by (exists c; auto).
    apply (at_phase_upd Hn) in X. destruct X as [[_ X]|[_ X]]; [discriminate|exact X].
  - rewrite upd_none in Hj by exact Hn. eauto.
Qed.
