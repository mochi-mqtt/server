(* C32 — proofs about Conc/Locks.v:
   1. under the rank discipline no reachable configuration of the RW-mutex machine is deadlocked,
      and every schedule can be extended to completion;
   2. executions that conform to a lock table whose lock-order graph has a topological numbering
      obey the rank discipline;
   3. the boolean checker [lock_discipline_ok] is sound for the hypotheses of 2;
   4. in the machine a lock held in write mode is held by nobody else (used by C33). *)
From Coq Require Import List NArith ZArith Bool Arith Lia.
From MV Require Base.Sched Base.SchedProofs.
From MV Require Import Base.Val Base.ListMisc Conc.Locks.
Import ListNotations.
Open Scope N_scope.

Lemma mode_eqb_eq : forall a b, mode_eqb a b = true -> a = b.
Proof. intros [] [] H; simpl in H; congruence. Qed.

Lemma mode_eqb_refl : forall a, mode_eqb a a = true.
Proof. intros []; reflexivity. Qed.

Lemma hl_eqb_eq : forall a b, hl_eqb a b = true -> a = b.
Proof.
  intros [l m] [l' m'] H. unfold hl_eqb in H. simpl in H.
  apply andb_prop in H. destruct H as [H1 H2].
  apply N.eqb_eq in H1. apply mode_eqb_eq in H2. subst. reflexivity.
Qed.

Lemma hl_eqb_refl : forall a, hl_eqb a a = true.
Proof. intros [l m]. unfold hl_eqb. simpl. rewrite N.eqb_refl, mode_eqb_refl. reflexivity. Qed.

Lemma memb_In : forall x h, memb x h = true <-> In x h.
Proof.
  intros x h. apply (existsb_eqb_In hl_eqb). intros a b. split; [apply hl_eqb_eq|intros ->; apply hl_eqb_refl].
Qed.

Lemma remove_one_app : forall x L R, In x L -> remove_one x (L ++ R) = remove_one x L ++ R.
Proof.
  intros x L R. induction L as [|y r IH]; intro I; [destruct I|]. cbn. destruct (hl_eqb x y) eqn:E; [reflexivity|].
  destruct I as [->|I]; [rewrite hl_eqb_refl in E; discriminate|]. now rewrite IH.
Qed.

Lemma update_set_nth : forall c i t, update c i t = Sched.set_nth i t c.
Proof. induction c as [|x r IH]; intros [|i] t; cbn; auto. now rewrite IH. Qed.

Lemma In_update : forall c i t x, In x (update c i t) -> x = t \/ In x c.
Proof. intros c i t x. rewrite update_set_nth. apply SchedProofs.In_set_nth. Qed.

Lemma step_Some : forall c i c', step c i = Some c' ->
  exists t, nth_error c i = Some t /\ can_step c t = true /\ c' = update c i (do_step t).
Proof.
  intros c i c' H. unfold step in H. destruct (nth_error c i) as [t|]; [|discriminate].
  destruct (can_step c t) eqn:E; [|discriminate]. injection H as <-. eauto.
Qed.

(* the lock machine has its own [step], which can refuse a decision, and its own [run]: this is not an instance of
   SchedProofs.run_invariant *)
Lemma run_invariant (P : cfg -> Prop) :
  (forall c i c', P c -> step c i = Some c' -> P c') -> forall sched c, P c -> P (run sched c).
Proof.
  intros H sched. induction sched as [|i s IH]; intros c Hc; cbn; [exact Hc|].
  apply IH. destruct (step c i) as [c'|] eqn:Es; [eapply H; eauto | exact Hc].
Qed.

Lemma run_app : forall s1 s2 c, run (s1 ++ s2) c = run s2 (run s1 c).
Proof. induction s1 as [|i s IH]; intros; simpl; [reflexivity | apply IH]. Qed.

Section Machine.
Variable rk : lock -> N.

Lemma do_step_ok : forall t, thread_ok rk t -> thread_ok rk (do_step t).
Proof.
  intros [h a p] H. unfold thread_ok, do_step in *. simpl in *.
  destruct p as [|[l m|l m] p]; simpl in *.
  - exact H.
  - apply andb_prop in H. destruct H as [H1 H2].
    destruct m; simpl.
    + exact H2.
    + destruct a; simpl; [exact H2|]. rewrite H1, H2. reflexivity.
  - apply andb_prop in H. destruct H as [_ H2]. exact H2.
Qed.

Definition all_ok (c : cfg) : Prop := forall t, In t c -> thread_ok rk t.

Lemma step_ok : forall c i c', all_ok c -> step c i = Some c' -> all_ok c'.
Proof.
  intros c i c' Hok Hs. apply step_Some in Hs. destruct Hs as (t & En & _ & ->).
  intros x Hx. apply In_update in Hx. destruct Hx as [->|Hx].
  - apply do_step_ok, Hok, (nth_error_In _ _ En).
  - apply Hok; exact Hx.
Qed.

Lemma run_ok : forall sched c, all_ok c -> all_ok (run sched c).
Proof. apply run_invariant, step_ok. Qed.

Definition wanted_rank (t : thread) : N := match prog t with Acq l _ :: _ => rk l | _ => 0 end.
Definition max_wanted_rank (c : cfg) : N := fold_right N.max 0 (map wanted_rank c).

Lemma wanted_rank_le_max : forall c t, In t c -> wanted_rank t <= max_wanted_rank c.
Proof.
  induction c as [|y r IH]; intros t H; [destruct H|].
  unfold max_wanted_rank. simpl. fold (max_wanted_rank r). destruct H as [->|H].
  - apply N.le_max_l.
  - etransitivity; [apply IH, H | apply N.le_max_r].
Qed.

Lemma holds_w_holds : forall l t, holds_w l t = true -> holds l t = true.
Proof.
  intros l t H. unfold holds_w, holds in *. apply existsb_exists in H.
  destruct H as [x [Hx E]]. apply andb_prop in E. destruct E as [E _].
  apply existsb_exists. exists x. split; assumption.
Qed.

Lemma holder_waits_higher : forall c v l,
  all_ok c -> (forall t, In t c -> can_step c t = false) ->
  In v c -> holds l v = true ->
  exists l' m' p', prog v = Acq l' m' :: p' /\ rk l < rk l'.
Proof.
  intros c v l Hok Hstuck Hv Hh.
  unfold holds in Hh. apply existsb_exists in Hh. destruct Hh as [x [Hx E]].
  apply N.eqb_eq in E.
  pose proof (Hok v Hv) as Hc. unfold thread_ok in Hc.
  pose proof (Hstuck v Hv) as Hs. unfold can_step in Hs.
  destruct (prog v) as [|[l' m'|l' m'] p'] eqn:Ep.
  - simpl in Hc. destruct (held v); [destruct Hx | discriminate].
  - exists l', m', p'. split; [reflexivity|].
    simpl in Hc. apply andb_prop in Hc. destruct Hc as [Hc _].
    rewrite forallb_forall in Hc. specialize (Hc x Hx). cbv beta in Hc. apply N.ltb_lt in Hc.
    rewrite <- E. exact Hc.
  - discriminate.
Qed.

Lemma waiter_has_holder : forall c t l m p,
  (forall t, In t c -> can_step c t = false) -> In t c -> prog t = Acq l m :: p ->
  exists v, In v c /\ holds l v = true.
Proof.
  intros c t l m p Hstuck Ht Ep.
  pose proof (Hstuck t Ht) as Hs. unfold can_step in Hs. rewrite Ep in Hs.
  destruct m.
  - apply andb_false_iff in Hs. destruct Hs as [Hs|Hs]; apply negb_false_iff, existsb_exists in Hs.
    + destruct Hs as [v [Hv Hw]]. exists v. split; [exact Hv | apply holds_w_holds; exact Hw].
    + (* a reader behind an announced writer u: u cannot move either, so somebody holds l *)
      destruct Hs as [u [Hu Hp]]. unfold pending_w in Hp.
      apply andb_prop in Hp. destruct Hp as [Ha Hq].
      destruct (prog u) as [|[l2 [|]|] pu] eqn:Epu; try discriminate.
      apply N.eqb_eq in Hq. subst l2.
      pose proof (Hstuck u Hu) as Hsu. unfold can_step in Hsu. rewrite Epu, Ha in Hsu.
      apply negb_false_iff, existsb_exists in Hsu. destruct Hsu as [v [Hv Hh]]. exists v. split; assumption.
  - destruct (announced t); [|discriminate].
    apply negb_false_iff, existsb_exists in Hs. destruct Hs as [v [Hv Hh]]. exists v. split; assumption.
Qed.

Lemma stuck_all_done : forall c,
  all_ok c -> (forall t, In t c -> can_step c t = false) -> all_done c.
Proof.
  intros c Hok Hstuck.
  (* a waiter's lock has a holder, who waits for a lock of higher rank, and the ranks wanted are bounded *)
  assert (Hno : forall r, forall t l m p, In t c -> prog t = Acq l m :: p -> rk l = r -> False).
  { intros r. induction r as [r IH] using (well_founded_induction (N.gt_wf (max_wanted_rank c))).
    intros t l m p Ht Ep Er.
    destruct (waiter_has_holder c t l m p Hstuck Ht Ep) as [v [Hv Hh]].
    destruct (holder_waits_higher c v l Hok Hstuck Hv Hh) as [l' [m' [p' [Epv Hlt]]]].
    apply (IH (rk l')) with (t := v) (l := l') (m := m') (p := p'); try assumption; try reflexivity.
    split; [rewrite <- Er; exact Hlt|].
    pose proof (wanted_rank_le_max c v Hv) as Hle. unfold wanted_rank in Hle. rewrite Epv in Hle. exact Hle. }
  intros t Ht. destruct (prog t) as [|[l m|l m] p] eqn:Ep; [reflexivity| |].
  - exfalso. eapply Hno; eauto.
  - pose proof (Hstuck t Ht) as Hs. unfold can_step in Hs. rewrite Ep in Hs. discriminate.
Qed.

Lemma progress : forall c, all_ok c -> (exists t, In t c /\ unfinished t) ->
  exists i c', step c i = Some c'.
Proof.
  intros c Hok [t [Ht Hu]].
  destruct (existsb (can_step c) c) eqn:Ex.
  - apply existsb_exists in Ex. destruct Ex as [u [Hin Hc]].
    apply In_nth_error in Hin. destruct Hin as [i Hi].
    exists i, (update c i (do_step u)). unfold step. rewrite Hi, Hc. reflexivity.
  - exfalso. apply Hu. apply (stuck_all_done c Hok); [|exact Ht].
    intros u Hin. exact (existsb_false_In _ c u Ex Hin).
Qed.

Definition init_ok (c : cfg) : Prop :=
  forall t, In t c -> held t = [] /\ chk rk [] (prog t) = true.

Lemma init_all_ok : forall c, init_ok c -> all_ok c.
Proof. intros c H t Ht. destruct (H t Ht) as [Hh Hc]. unfold thread_ok. rewrite Hh. exact Hc. Qed.

Theorem discipline_sound : forall c0, init_ok c0 -> forall sched, ~ deadlocked (run sched c0).
Proof.
  intros c0 H0 sched [Hu Hnone].
  destruct (progress (run sched c0) (run_ok sched c0 (init_all_ok c0 H0)) Hu) as [i [c' Hs]].
  rewrite Hnone in Hs. discriminate.
Qed.

(* Lock() takes two steps, the announcement and the acquisition: an instruction weighs 2, less 1 once announced *)
Definition weight (t : thread) : nat :=
  2 * length (prog t) - (if announced t then 1 else 0).

Lemma do_step_weight : forall t, prog t <> [] -> (weight (do_step t) < weight t)%nat.
Proof.
  intros [h a p] Hp. unfold weight, do_step. simpl in *.
  destruct p as [|[l m|l m] p]; [congruence| |].
  - destruct m; simpl.
    + destruct a; lia.
    + destruct a; simpl; lia.
  - simpl. destruct a; lia.
Qed.

Definition total (c : cfg) : Z := sumZ (fun t => Z.of_nat (weight t)) c.

Lemma step_total : forall c i c', step c i = Some c' -> (total c' < total c)%Z.
Proof.
  intros c i c' H. apply step_Some in H. destruct H as (t & En & Ec & ->).
  unfold total. rewrite update_set_nth, (SchedProofs.sumZ_set_nth _ i (do_step t) t c En).
  assert (prog t <> []) by (unfold can_step in Ec; destruct (prog t); [discriminate|congruence]).
  pose proof (do_step_weight t H). lia.
Qed.

Lemma completes_from : forall n c, (total c < Z.of_nat n)%Z -> all_ok c ->
  exists sched, all_done (run sched c).
Proof.
  induction n as [|n IH]; intros c Hn Hok.
  { pose proof (sumZ_nonneg (fun t => Z.of_nat (weight t)) c (fun t => Nat2Z.is_nonneg _)). unfold total in Hn. lia. }
  destruct (existsb (fun t => match prog t with [] => false | _ => true end) c) eqn:Ex.
  - apply existsb_exists in Ex. destruct Ex as [t [Ht Hp]].
    destruct (progress c Hok) as [i [c' Hs]].
    { exists t. split; [exact Ht|]. unfold unfinished. destruct (prog t); [discriminate|congruence]. }
    destruct (IH c') as [s Hs'].
    + apply step_total in Hs. lia.
    + eapply step_ok; eauto.
    + exists (i :: s). simpl. rewrite Hs. exact Hs'.
  - exists []. simpl. intros t Ht. pose proof (existsb_false_In _ c t Ex Ht) as E. cbv beta in E.
    destruct (prog t); [reflexivity|discriminate].
Qed.

Theorem discipline_completes : forall c0, init_ok c0 ->
  forall sched, exists sched', all_done (run (sched ++ sched') c0).
Proof.
  intros c0 H0 sched.
  destruct (completes_from (S (Z.to_nat (total (run sched c0)))) (run sched c0) ltac:(lia)
              (run_ok sched c0 (init_all_ok c0 H0))) as [s Hs].
  exists s. rewrite run_app. exact Hs.
Qed.

End Machine.

Lemma action_eqb_eq : forall a b, action_eqb a b = true -> a = b.
Proof.
  intros [c m|g] [c' m'|g'] H; simpl in H; try discriminate.
  - apply andb_prop in H. destruct H as [H1 H2].
    apply N.eqb_eq in H1. apply mode_eqb_eq in H2. subst. reflexivity.
  - apply N.eqb_eq in H. subst. reflexivity.
Qed.

Lemma site_ok_site : forall tbl f L a, site_ok tbl f L a = true ->
  exists s, In s tbl /\ s_fn s = f /\ s_act s = a /\ forall x, In x L -> In x (s_held s).
Proof.
  intros tbl f L a H. unfold site_ok in H. apply existsb_exists in H.
  destruct H as [s [Hs E]]. apply andb_prop in E. destruct E as [E E3].
  apply andb_prop in E. destruct E as [E1 E2].
  exists s. split; [exact Hs|]. split; [apply N.eqb_eq; exact E1|].
  split; [apply action_eqb_eq; exact E2|].
  intros x Hx. unfold ch_subset in E3. rewrite forallb_forall in E3.
  (* [ch] and [hl] are both [N * mode] (classes are numbers as locks are), so [ch_mem] is [memb] *)
  apply memb_In. apply E3. exact Hx.
Qed.

Section Table.
Variable cl : lock -> cls.
Variable tbl : lock_table.
Variable unb : list fname.
Variable A : fname -> list cls.
Variable rkc : cls -> N.
Hypothesis Hclosed : closed tbl A.
Hypothesis Hrank : forall a b, In (a, b) (lock_order tbl A) -> rkc a < rkc b.

Definition act_targets (a : action) : list cls := match a with Acquire c _ => [c] | Call g => A g end.

Lemma site_rank : forall f L a c, site_ok tbl f (map (clm cl) L) a = true -> In c (act_targets a) ->
  In c (A f) /\ forall x, In x L -> rkc (cl (fst x)) < rkc c.
Proof.
  intros f L a c Hsite Hc. apply site_ok_site in Hsite. destruct Hsite as [s [Hs [Hf [Ha Hsub]]]].
  pose proof (Hclosed s Hs) as Hcl. rewrite Ha, Hf in Hcl. split.
  - destruct a; [destruct Hc as [<-|[]]; exact Hcl | apply Hcl, Hc].
  - intros x Hx. apply Hrank. unfold lock_order. apply in_flat_map. exists s. split; [exact Hs|].
    apply in_flat_map. exists (clm cl x). split; [apply Hsub, in_map, Hx|].
    apply in_map_iff. exists c. split; [reflexivity|]. unfold targets. rewrite Ha. exact Hc.
Qed.

(* every frame below the top one called the frame above it at a site of the table *)
Fixpoint stack_inv (st : list frame) : Prop :=
  match st with
  | [] => False
  | (g, _) :: below =>
      match below with
      | [] => True
      | (f, L) :: _ => site_ok tbl f (map (clm cl) L) (Call g) = true /\ stack_inv below
      end
  end.

(* by [closed], a class the function on top acquires is one its caller acquires at the call site: so down the stack *)
Lemma stack_rank : forall below f L a c, stack_inv ((f, L) :: below) ->
  site_ok tbl f (map (clm cl) L) a = true -> In c (act_targets a) ->
  forall x, In x (concat (map snd ((f, L) :: below))) -> rkc (cl (fst x)) < rkc c.
Proof.
  induction below as [|[f' L'] rest IH]; intros f L a c Hinv Hsite Hc x Hx;
    destruct (site_rank f L a c Hsite Hc) as [HcA Hlt]; cbn in Hx; apply in_app_or in Hx; destruct Hx as [Hx|Hx]; auto.
  - destruct Hx.
  - destruct Hinv as [Hcall Hinv']. apply (IH f' L' (Call f) c Hinv' Hcall HcA x Hx).
Qed.

Definition rki (l : lock) : N := rkc (cl l).

(* the locks a goroutine holds are those of its activations, the innermost first: a release finds its entry
   in the activation on top *)
Lemma conforms_chk : forall es st,
  stack_inv st -> conforms cl tbl unb st es = true ->
  chk rki (concat (map snd st)) (ops_of es) = true.
Proof.
  induction es as [|e r IH]; intros [|[f L] below] Hinv Hc; try discriminate Hc.
  - cbn in Hc. destruct L; [|discriminate]. destruct below; [reflexivity|discriminate].
  - destruct e as [l m|l m|g|]; cbn in Hc.
    + (* acquire *)
      apply andb_prop in Hc. destruct Hc as [Hsite Hc].
      cbn. apply andb_true_intro. split.
      * apply forallb_forall. intros x Hx. apply N.ltb_lt.
        exact (stack_rank below f L (Acquire (cl l) m) (cl l) Hinv Hsite (or_introl eq_refl) x Hx).
      * exact (IH ((f, (l, m) :: L) :: below) Hinv Hc).
    + (* release *)
      apply andb_prop in Hc. destruct Hc as [Hm Hc]. apply memb_In in Hm.
      cbn [ops_of chk map snd concat].
      rewrite (proj2 (memb_In _ _) (in_or_app _ _ _ (or_introl Hm))), remove_one_app by exact Hm.
      exact (IH ((f, remove_one (l, m) L) :: below) Hinv Hc).
    + (* call *)
      apply andb_prop in Hc. destruct Hc as [Hsite Hc]. apply andb_prop in Hsite. destruct Hsite as [_ Hsite].
      exact (IH ((g, []) :: (f, L) :: below) (conj Hsite Hinv) Hc).
    + (* return *)
      destruct L; [|discriminate]. destruct below as [|[f' L'] below']; [discriminate|].
      exact (IH ((f', L') :: below') (proj2 Hinv) Hc).
Qed.

End Table.

Definition deadlock_free (cl : lock -> cls) (tbl : lock_table) (unb : list fname) : Prop :=
  forall gs : list (fname * list ev),
    (forall f es, In (f, es) gs -> conforms cl tbl unb [(f, [])] es = true) ->
    forall sched,
      ~ deadlocked (run sched (map (fun g => thread_of (snd g)) gs)) /\
      exists sched', all_done (run (sched ++ sched') (map (fun g => thread_of (snd g)) gs)).

(* [no_reentrant] is no hypothesis: it follows from [acyclic] ([acyclic_no_reentrant]) *)
Theorem numbered_table_sound : forall (cl : lock -> cls) tbl unb A,
  closed tbl A -> acyclic (lock_order tbl A) -> deadlock_free cl tbl unb.
Proof.
  intros cl tbl unb A Hcl [rkc Hrk] gs Hgs sched.
  assert (H0 : init_ok (rki cl rkc) (map (fun g => thread_of (snd g)) gs)).
  { intros t Ht. apply in_map_iff in Ht. destruct Ht as [[f es] [<- Hin]]. split; [reflexivity|].
    exact (conforms_chk cl tbl unb A rkc Hcl Hrk es [(f, [])] I (Hgs f es Hin)). }
  split; [apply (discipline_sound _ _ H0)|apply (discipline_completes _ _ H0)].
Qed.

Inductive path (g : list (cls * cls)) : cls -> cls -> Prop :=
| path_one : forall a b, In (a, b) g -> path g a b
| path_cons : forall a b c, In (a, b) g -> path g b c -> path g a c.

Lemma numbering_path : forall g (rk : cls -> N), (forall a b, In (a, b) g -> rk a < rk b) ->
  forall a b, path g a b -> rk a < rk b.
Proof.
  intros g rk H a b P. induction P as [a b Hab | a b c Hab _ IH].
  - apply H; exact Hab.
  - etransitivity; [apply H; exact Hab | exact IH].
Qed.

Theorem numbering_no_cycle : forall g, acyclic g -> forall a, ~ path g a a.
Proof.
  intros g [rk H] a P. pose proof (numbering_path g rk H a a P) as Hlt.
  apply N.lt_irrefl in Hlt. exact Hlt.
Qed.

Theorem acyclic_no_reentrant : forall tbl A, acyclic (lock_order tbl A) -> no_reentrant tbl A.
Proof.
  intros tbl A [rk H] s h Hs Hh Hin.
  assert (E : In (fst h, fst h) (lock_order tbl A)).
  { unfold lock_order. apply in_flat_map. exists s. split; [exact Hs|].
    apply in_flat_map. exists h. split; [exact Hh|].
    apply in_map_iff. exists (fst h). split; [reflexivity | exact Hin]. }
  apply H in E. apply N.lt_irrefl in E. exact E.
Qed.

Lemma cmem_In : forall c l, cmem c l = true <-> In c l.
Proof. intros c l. apply (existsb_eqb_In N.eqb N.eqb_eq). Qed.

Lemma closedb_closed : forall tbl a, closedb tbl a = true -> closed tbl (alookup a).
Proof.
  intros tbl a H s Hs. unfold closedb in H. rewrite forallb_forall in H.
  specialize (H s Hs). unfold csubset in H. rewrite forallb_forall in H.
  unfold targets_m in H. destruct (s_act s) as [c m|g].
  - apply cmem_In. apply H. left. reflexivity.
  - intros c Hc. apply cmem_In. apply H. exact Hc.
Qed.

Lemma rankedb_acyclic : forall es r, rankedb es r = true -> acyclic es.
Proof.
  intros es r H. exists (rlookup r). intros a b Hab.
  unfold rankedb in H. rewrite forallb_forall in H. specialize (H (a, b) Hab).
  simpl in H. apply N.ltb_lt. exact H.
Qed.

Lemma balanced_ok_nil : forall names unb, balanced_ok names unb = true -> unb = [].
Proof.
  intros names [|f r] H; [reflexivity|]. unfold balanced_ok, returns_holding_lock in H. simpl in H. discriminate.
Qed.

(* What the checker needs of its two computed tables is only that they pass the tests: any closed
   over-approximation [a] of the call closure and any numbering [r] of its lock order will do.  No
   function being unbalanced, the restriction of [conforms] to balanced functions excludes nothing:
   every function may be a goroutine's root and may be entered. *)
Theorem certified_table_sound : forall names unb tbl a r,
  balanced_ok names unb = true -> closedb tbl a = true -> rankedb (edges_m tbl a) r = true ->
  (forall g, existsb (N.eqb g) unb = false) /\
  forall cl : lock -> cls, deadlock_free cl tbl unb.
Proof.
  intros names unb tbl a r Hb Hc Hr. split.
  - apply balanced_ok_nil in Hb. subst. reflexivity.
  - intro cl. apply (numbered_table_sound cl tbl unb (alookup a)).
    + apply closedb_closed, Hc.
    + (* [edges_m tbl a] is [lock_order tbl (alookup a)] by conversion *)
      exact (rankedb_acyclic (edges_m tbl a) r Hr).
Qed.

Theorem lock_discipline_ok_sound : forall tbl, lock_discipline_ok tbl = true ->
  exists A, closed tbl A /\ acyclic (lock_order tbl A) /\ no_reentrant tbl A.
Proof.
  intros tbl H. unfold lock_discipline_ok in H.
  apply andb_prop in H. destruct H as [H H3]. apply andb_prop in H. destruct H as [H1 _].
  pose proof (rankedb_acyclic (edges_m tbl (closure_of tbl)) _ H3) as Ha.
  exists (alookup (closure_of tbl)). split; [apply closedb_closed; exact H1|].
  split; [exact Ha|apply acyclic_no_reentrant, Ha].
Qed.

Theorem checked_table_sound_full : forall names unb tbl, lock_discipline_ok_full names unb tbl = true ->
  (forall g, existsb (N.eqb g) unb = false) /\
  forall cl : lock -> cls, deadlock_free cl tbl unb.
Proof.
  intros names unb tbl H. unfold lock_discipline_ok_full, lock_discipline_ok in H.
  apply andb_prop in H. destruct H as [Hb H]. apply andb_prop in H. destruct H as [H Hr].
  apply andb_prop in H. destruct H as [Hc _].
  exact (certified_table_sound names unb tbl (closure_of tbl) (ranking_of tbl) Hb Hc Hr).
Qed.

Lemma deadlockedb_sound : forall c, deadlockedb c = true -> deadlocked c.
Proof.
  intros c H. unfold deadlockedb in H. apply andb_prop in H. destruct H as [H1 H2]. split.
  - apply existsb_exists in H1. destruct H1 as [t [Ht Hp]]. exists t. split; [exact Ht|].
    unfold unfinished. destruct (prog t); [discriminate | congruence].
  - intros i. unfold step. destruct (nth_error c i) as [t|] eqn:En; [|reflexivity].
    rewrite forallb_forall in H2. specialize (H2 t (nth_error_In c i En)).
    apply negb_true_iff in H2. rewrite H2. reflexivity.
Qed.

(* Mutual exclusion, what "synchronised by a common lock" means in C33, holds for arbitrary programs:
   the discipline is not needed. *)

Definition cnt (l : lock) (h : list hl) : nat := length (filter (fun x => N.eqb (fst x) l) h).

(* [cnt l h] is [countZ (on l) h] ([countZ_filter]) *)
Definition on (l : lock) (x : hl) : bool := N.eqb (fst x) l.
Definition onw (l : lock) (x : hl) : bool := N.eqb (fst x) l && mode_eqb (snd x) W.

(* how many of the entries held in c satisfy p *)
Definition toth (p : hl -> bool) (c : cfg) : Z := sumZ (fun t => countZ p (held t)) c.

Lemma count_onw_le : forall l h, (countZ (onw l) h <= countZ (on l) h)%Z.
Proof.
  intros l h. apply sumZ_le. intros x _. unfold on, onw. destruct (fst x =? l), (mode_eqb (snd x) W); cbn; lia.
Qed.

Lemma onw_le_on : forall l c, (toth (onw l) c <= toth (on l) c)%Z.
Proof. intros l c. apply sumZ_le. intros t _. apply count_onw_le. Qed.

(* [holds l t] and [holds_w l t] are [existsb (on l) (held t)] and [existsb (onw l) (held t)] *)
Lemma toth_nobody : forall p c, existsb (fun t => existsb p (held t)) c = false -> toth p c = 0%Z.
Proof.
  intros p c H. apply sumZ_zero; [intro; apply countZ_nonneg|]. intros t I.
  apply countZ_existsb, (existsb_false_In _ c t H I).
Qed.

Lemma countZ_remove_one : forall p x h,
  countZ p (remove_one x h) = (countZ p h - (if memb x h then b2z (p x) else 0))%Z.
Proof.
  intros p x h. induction h as [|y r IH]; cbn; [reflexivity|]. fold (memb x r). destruct (hl_eqb x y) eqn:E; cbn.
  - apply hl_eqb_eq in E. subst y. lia.
  - fold (countZ p (remove_one x r)) (countZ p r). lia.
Qed.

Definition excl_inv (c : cfg) : Prop := forall l, toth (onw l) c = 0%Z \/ toth (on l) c = 1%Z.

Lemma step_excl : forall c i c', excl_inv c -> step c i = Some c' -> excl_inv c'.
Proof.
  intros c i c' Inv Hs. apply step_Some in Hs. destruct Hs as (t & En & Ec & ->).
  intros l. specialize (Inv l). pose proof (onw_le_on l (update c i (do_step t))) as LE.
  pose proof (sumZ_nonneg (fun t => countZ (onw l) (held t)) (update c i (do_step t)) (fun t => countZ_nonneg _ _)) as NN.
  revert LE NN. unfold toth in *. rewrite update_set_nth, !(SchedProofs.sumZ_set_nth _ i (do_step t) t c En).
  unfold can_step in Ec. unfold do_step.
  assert (B1 : forall l0 m, b2z (on l (l0, m)) = b2z (l0 =? l)) by reflexivity.
  assert (B2 : forall l0 m, b2z (onw l (l0, m)) = b2z ((l0 =? l) && mode_eqb m W)) by reflexivity.
  destruct (prog t) as [|[l0 [|]|l0 m] p] eqn:Ep; [discriminate| |destruct (announced t)|]; cbn [held];
    rewrite ?countZ_cons, ?countZ_remove_one, ?B1, ?B2.
  - (* read lock granted: nobody holds l0 in write mode *)
    apply andb_true_iff in Ec. destruct Ec as [Ec _]. apply negb_true_iff, (toth_nobody (onw l0)) in Ec.
    unfold toth in Ec. destruct (N.eqb_spec l0 l) as [->|_]; cbn [andb b2z mode_eqb]; lia.
  - (* write lock granted: nobody holds l0 at all *)
    apply negb_true_iff, (toth_nobody (on l0)) in Ec.
    unfold toth in Ec. destruct (N.eqb_spec l0 l) as [->|_]; cbn [andb b2z mode_eqb]; lia.
  - (* announcement *) lia.
  - (* release: one entry less, or none; the writers stay among the holders *)
    destruct (memb (l0, m) (held t)); [|lia]. destruct (l0 =? l), (mode_eqb m W); cbn [andb b2z]; lia.
Qed.

Lemma init_excl : forall c, (forall t, In t c -> held t = []) -> excl_inv c.
Proof.
  intros c H l. left. apply sumZ_zero; [intro; apply countZ_nonneg|]. intros t I. rewrite (H t I). reflexivity.
Qed.

Theorem mutual_exclusion : forall c0, (forall t, In t c0 -> held t = []) ->
  forall sched i j t u l,
    nth_error (run sched c0) i = Some t -> nth_error (run sched c0) j = Some u -> i <> j ->
    holds_w l t = true -> holds l u = false /\ cnt l (held t) = 1%nat.
Proof.
  intros c0 H0 sched i j t u l Hi Hj Hne Hw.
  pose proof (run_invariant excl_inv step_excl sched c0 (init_excl c0 H0) l) as Inv.
  pose proof (onw_le_on l (run sched c0)) as LE. unfold toth in *.
  pose proof (sumZ_nth_le _ (fun t => countZ_nonneg (onw l) (held t)) _ i t Hi) as G1.
  pose proof (sumZ_two_le _ (fun t => countZ_nonneg (on l) (held t)) _ i j t u Hi Hj Hne) as G2.
  cbv beta in G1, G2. pose proof (count_onw_le l (held t)). pose proof (countZ_nonneg (on l) (held u)).
  pose proof (countZ_nonneg (onw l) (held t)).
  (* t holds l in write mode: it is counted *)
  assert (W1 : countZ (onw l) (held t) <> 0%Z).
  { intro E. apply countZ_existsb in E. change (existsb (onw l) (held t) = true) in Hw. congruence. }
  split.
  - apply (countZ_existsb (on l)). lia.
  - unfold cnt. apply Nat2Z.inj. rewrite (countZ_filter (on l)). lia.
Qed.
