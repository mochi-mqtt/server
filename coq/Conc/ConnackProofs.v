(* C13 / C14 (schedules) — proofs over all schedules of the CONNACK window model by exhaustive
   exploration of its finite configuration space (Conc/Reach.v): the configurations reachable from
   the initial one are enumerated, the list is checked to be closed under every schedule entry, and
   the properties are checked on every member, all by vm_compute inside the kernel. *)
From MV Require Import Base.Val Base.Sched Conc.Reach Conc.Connack.
Open Scope nat_scope.

Definition beq_wpkt (a b : wpkt) : bool :=
  match a, b with WConnack, WConnack | WPublish, WPublish => true | _, _ => false end.
Definition beq_instr (a b : instr) : bool :=
  match a, b with
  | Inherit, Inherit | ClientsAdd, ClientsAdd | SendConnack, SendConnack | Resend, Resend | Publish, Publish | Write, Write => true
  | _, _ => false
  end.

Lemma beq_wpkt_ok a b : beq_wpkt a b = true -> a = b.
Proof. destruct a, b; cbn; congruence. Qed.
Lemma beq_instr_ok a b : beq_instr a b = true -> a = b.
Proof. destruct a, b; cbn; congruence. Qed.

Definition beq_cstate (a b : cstate) : bool :=
  Bool.eqb (registered_new a) (registered_new b) && Bool.eqb (inherited a) (inherited b) &&
  Bool.eqb (connack_sent a) (connack_sent b) && Nat.eqb (old_infl a) (old_infl b) && Nat.eqb (new_infl a) (new_infl b) &&
  beq_list beq_wpkt (queue a) (queue b) && beq_list beq_wpkt (wire a) (wire b) &&
  Bool.eqb (early_write a) (early_write b) && Bool.eqb (window_publish a) (window_publish b).

Lemma beq_cstate_ok a b : beq_cstate a b = true -> a = b.
Proof.
  destruct a, b. unfold beq_cstate. cbn. rewrite !andb_true_iff, !Bool.eqb_true_iff, !Nat.eqb_eq.
  intros [[[[[[[[-> ->] ->] ->] ->] Q] W] ->] ->].
  apply (beq_list_ok _ beq_wpkt_ok) in Q, W. subst. reflexivity.
Qed.

Definition beq_cfg := beq_cfg beq_instr beq_cstate.
Definition beq_cfg_ok := beq_cfg_ok beq_instr beq_cstate beq_instr_ok beq_cstate_ok.

(* every configuration reachable from the initial one (6 instructions in total: 7 rounds suffice) *)
Definition reachable : list (cfg cstate instr) := explore exec beq_cfg 3 7 [connack_threads] [connack_threads].

Definition window_props (c : cfg cstate instr) : bool :=
  (early_write (shared c) || connack_first c) &&
  (window_publish (shared c) || message_kept c) &&
  Nat.leb (count_connack (wire (shared c))) 1 &&
  (negb (finished c) || Nat.eqb (count_connack (wire (shared c))) 1).

Lemma window_props_always sched :
  let c := run_connack sched in
  early_write (shared c) || connack_first c = true /\
  window_publish (shared c) || message_kept c = true /\
  count_connack (wire (shared c)) <= 1 /\
  (finished c = true -> count_connack (wire (shared c)) = 1).
Proof.
  assert (A : window_props (run_connack sched) = true).
  { apply (checked_sound exec beq_cfg beq_cfg_ok 3 window_props connack_threads reachable).
    vm_compute. reflexivity. }
  unfold window_props in A. rewrite !andb_true_iff, Nat.leb_le in A. destruct A as [[[A1 A2] A3] A4].
  repeat split; try assumption.
  intro F. rewrite F in A4. apply Nat.eqb_eq, A4.
Qed.

(* C13-1: the CONNACK is not always first *)
Theorem connack_first_refuted : exists sched, connack_first (run_connack sched) = false.
Proof. exists [0; 0; 1; 2; 0; 0]. vm_compute. reflexivity. Qed.

Theorem connack_first_modulo : forall sched,
  KF_C13_publish_before_connack sched = false -> connack_first (run_connack sched) = true.
Proof.
  intros sched K. destruct (window_props_always sched) as (A & _).
  unfold KF_C13_publish_before_connack in K. rewrite K in A. exact A.
Qed.

(* at most one CONNACK; exactly one once all three threads are through, which the write loop never is
   when the message went to the old object and nothing was queued for it *)
Theorem connack_once : forall sched,
  count_connack (wire (shared (run_connack sched))) <= 1 /\
  (finished (run_connack sched) = true -> count_connack (wire (shared (run_connack sched))) = 1).
Proof. intro sched. apply (window_props_always sched). Qed.

(* C14-2: a message published in the window between inheritClientSession and Clients.Add is lost *)
Theorem message_kept_refuted : exists sched, message_kept (run_connack sched) = false.
Proof. exists [0; 1; 0; 0; 0]. vm_compute. reflexivity. Qed.

Theorem message_kept_modulo : forall sched,
  KF_C14_publish_in_inherit_window sched = false -> message_kept (run_connack sched) = true.
Proof.
  intros sched K. destruct (window_props_always sched) as (_ & A & _).
  unfold KF_C14_publish_in_inherit_window in K. rewrite K in A. exact A.
Qed.

(* non-vacuity: the sequential order (attach, then publish, then the write loop) meets both *)
Example connack_sequential :
  wire (shared (run_connack [0; 0; 0; 0; 1; 2])) = [WConnack; WPublish] /\
  KF_C13_publish_before_connack [0; 0; 0; 0; 1; 2] = false /\ KF_C14_publish_in_inherit_window [0; 0; 0; 0; 1; 2] = false.
Proof. vm_compute. repeat split. Qed.
