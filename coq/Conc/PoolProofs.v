(* Proofs about the buffer pool model (C41): an invariant of every reachable state, for every
   schedule (list of actions of any threads, any sync.Pool oracle). *)
From MV Require Import Base.Val Base.ListMisc Conc.Pool.
Open Scope N_scope.

Lemma lookup_upd h b v b' : lookup (upd h b v) b' = if b =? b' then Some v else lookup h b'.
Proof.
  induction h as [|[x w] r IH]; cbn [upd lookup].
  - reflexivity.
  - destruct (x =? b) eqn:E; cbn [lookup].
    + apply N.eqb_eq in E. subst x. destruct (b =? b'); reflexivity.
    + rewrite IH. destruct (b =? b') eqn:E2; [|reflexivity].
      apply N.eqb_eq in E2. subst b'. rewrite E. reflexivity.
Qed.

Lemma lookup_upd_same h b v : lookup (upd h b v) b = Some v.
Proof. rewrite lookup_upd, N.eqb_refl. reflexivity. Qed.

Lemma lookup_upd_other h b v b' : b <> b' -> lookup (upd h b v) b' = lookup h b'.
Proof. intro H. rewrite lookup_upd. apply N.eqb_neq in H. rewrite H. reflexivity. Qed.

Lemma remove_nth_In {A} (i : nat) (l : list A) x : In x (remove_nth i l) -> In x l.
Proof.
  revert i. induction l as [|y r IH]; intros i H; [destruct i; exact H|].
  destruct i as [|j]; cbn [remove_nth] in H.
  - right. exact H.
  - destruct H as [H | H]; [left; exact H | right; exact (IH j H)].
Qed.

Lemma remove_nth_NoDup {A} (i : nat) (l : list A) : NoDup l -> NoDup (remove_nth i l).
Proof.
  revert i. induction l as [|y r IH]; intros i H; [destruct i; exact H|].
  inversion H as [|? ? Hn Hr]; subst. destruct i as [|j]; cbn [remove_nth]; [exact Hr|].
  constructor; [|exact (IH j Hr)]. intro Hin. apply Hn. exact (remove_nth_In j r y Hin).
Qed.

Lemma remove_nth_not_In {A} (i : nat) (l : list A) b :
  NoDup l -> nth_error l i = Some b -> ~ In b (remove_nth i l).
Proof.
  revert i. induction l as [|y r IH]; intros i H E; [destruct i; discriminate|].
  inversion H as [|? ? Hn Hr]; subst. destruct i as [|j]; cbn [remove_nth nth_error] in *.
  - inversion E; subst. exact Hn.
  - intros [Hy | Hin].
    + subst y. apply Hn. exact (nth_error_In r j E).
    + exact (IH j Hr E Hin).
Qed.

Lemma holds_In {t b p l} : holds t b p l = true ->
  exists h, In h l /\ h_tid h = t /\ h_bid h = b /\ h_phase h = p.
Proof.
  unfold holds. intro H. apply existsb_exists in H. destruct H as (h & Hin & Hh).
  apply andb_prop in Hh. destruct Hh as [Hh Hp]. apply andb_prop in Hh. destruct Hh as [Ht Hb].
  exists h. split; [exact Hin|]. split; [apply N.eqb_eq; exact Ht|]. split; [apply N.eqb_eq; exact Hb|].
  destruct (h_phase h), p; try discriminate; reflexivity.
Qed.

Lemma drop_hold_In b l h : In h (drop_hold b l) -> In h l /\ h_bid h <> b.
Proof.
  unfold drop_hold. intro H. apply filter_In in H. destruct H as [H1 H2]. split; [exact H1|].
  intro E. rewrite E, N.eqb_refl in H2. discriminate.
Qed.

Lemma drop_hold_ids_In b l x : In x (map h_bid (drop_hold b l)) -> In x (map h_bid l) /\ x <> b.
Proof.
  intro H. apply in_map_iff in H. destruct H as (h & <- & H). apply drop_hold_In in H. split; [apply in_map|]; apply H.
Qed.

Lemma drop_hold_NoDup b l : NoDup (map h_bid l) -> NoDup (map h_bid (drop_hold b l)).
Proof. apply NoDup_map_filter. Qed.

Lemma set_phase_ids b p l : map h_bid (set_phase b p l) = map h_bid l.
Proof.
  induction l as [|h r IH]; [reflexivity|]. cbn [set_phase map]. fold (set_phase b p r). rewrite IH.
  destruct (h_bid h =? b); reflexivity.
Qed.

Lemma set_phase_In {b p l h'} : In h' (set_phase b p l) ->
  exists h, In h l /\ h_bid h' = h_bid h /\ ((h_bid h <> b /\ h' = h) \/ (h_bid h = b /\ h_phase h' = p)).
Proof.
  unfold set_phase. intro H. apply in_map_iff in H. destruct H as (h & E & Hin). exists h.
  split; [exact Hin|]. destruct (h_bid h =? b) eqn:Eb.
  - apply N.eqb_eq in Eb. subst h'. cbn. split; [reflexivity|]. right. split; [exact Eb|reflexivity].
  - apply N.eqb_neq in Eb. subst h'. split; [reflexivity|]. left. split; [exact Eb|reflexivity].
Qed.

Definition clean (max : N) (h : heap_t) (b : N) : Prop :=
  exists v, lookup h b = Some v /\ blen v = 0 /\ cap_ok max v = true.

Record inv (max : N) (s : state) : Prop := mkInv {
  inv_pool_nodup : NoDup (pool s);
  inv_held_nodup : NoDup (held_ids s);
  inv_disjoint : forall b, In b (pool s) -> ~ In b (held_ids s);
  inv_alloc : forall b, In b (held_ids s) -> exists v, lookup (heap s) b = Some v;
  inv_pool_clean : forall b, In b (pool s) -> clean max (heap s) b;
  inv_in_put_clean : forall h, In h (held s) -> h_phase h = InPut -> clean max (heap s) (h_bid h)
}.

Lemma inv_init max : inv max init.
Proof.
  constructor; cbn; try constructor; intros; contradiction.
Qed.

Lemma clean_upd_other max h b v x : b <> x -> clean max h x -> clean max (upd h b v) x.
Proof.
  intros Hne (w & L & C). exists w. rewrite lookup_upd_other by exact Hne. split; [exact L|exact C].
Qed.

Lemma held_id_In (s : state) h : In h (held s) -> In (h_bid h) (held_ids s).
Proof. intro H. unfold held_ids. apply in_map. exact H. Qed.

Section Pieces.
  Variable max : N.
  Implicit Types (h : heap_t) (p : list N) (l : list hold).

  Lemma inv_forget h p l i : inv max (mkState h p l) -> inv max (mkState h (remove_nth i p) l).
  Proof.
    intros [Ipn Ihn Idj Ial Ipc Iic]. constructor; cbn [pool held heap held_ids] in *; auto.
    - apply remove_nth_NoDup. exact Ipn.
    - intros x Hx. exact (Idj x (remove_nth_In _ _ _ Hx)).
    - intros x Hx. exact (Ipc x (remove_nth_In _ _ _ Hx)).
  Qed.

  Lemma inv_take h p l t b :
    inv max (mkState h p l) -> ~ In b p -> ~ In b (map h_bid l) -> (exists v, lookup h b = Some v) ->
    inv max (mkState h p (mkHold t b Using :: l)).
  Proof.
    intros [Ipn Ihn Idj Ial Ipc Iic] Hp Hh Hv. constructor; cbn [pool held heap held_ids map h_bid] in *; auto.
    - constructor; assumption.
    - intros x Hx [<- | Hxh]; [exact (Hp Hx) | exact (Idj x Hx Hxh)].
    - intros x [<- | Hx]; [exact Hv | exact (Ial x Hx)].
    - intros hd [<- | Hhd] Hph; [discriminate | exact (Iic hd Hhd Hph)].
  Qed.

  Lemma inv_store h p l b v :
    inv max (mkState h p l) -> ~ In b p -> (forall hd, In hd l -> h_bid hd = b -> h_phase hd = Using) ->
    inv max (mkState (upd h b v) p l).
  Proof.
    intros [Ipn Ihn Idj Ial Ipc Iic] Hp Hu. constructor; cbn [pool held heap held_ids] in *; auto.
    - intros x Hx. rewrite lookup_upd. destruct (b =? x); [eexists; reflexivity | exact (Ial x Hx)].
    - intros x Hx. apply clean_upd_other; [|exact (Ipc x Hx)]. intros ->. exact (Hp Hx).
    - intros hd Hhd Hph. apply clean_upd_other; [|exact (Iic hd Hhd Hph)].
      intro E. rewrite (Hu hd Hhd (eq_sym E)) in Hph. discriminate.
  Qed.

  Lemma inv_release h p l b : inv max (mkState h p l) -> inv max (mkState h p (drop_hold b l)).
  Proof.
    intros [Ipn Ihn Idj Ial Ipc Iic]. constructor; cbn [pool held heap held_ids] in *; auto.
    - apply drop_hold_NoDup. exact Ihn.
    - intros x Hx Hxh. exact (Idj x Hx (proj1 (drop_hold_ids_In _ _ _ Hxh))).
    - intros x Hx. exact (Ial x (proj1 (drop_hold_ids_In _ _ _ Hx))).
    - intros hd Hhd Hph. exact (Iic hd (proj1 (drop_hold_In _ _ _ Hhd)) Hph).
  Qed.

  Lemma inv_enter_put h p l b : inv max (mkState h p l) -> clean max h b -> inv max (mkState h p (set_phase b InPut l)).
  Proof.
    intros [Ipn Ihn Idj Ial Ipc Iic] Hc.
    constructor; unfold held_ids in *; cbn [pool held heap] in *; rewrite ?set_phase_ids; auto.
    intros hd' Hhd' Hp'. destruct (set_phase_In Hhd') as (hd & Hhd & Eid & [[Hne ->] | [Heq _]]).
    - exact (Iic hd Hhd Hp').
    - rewrite Eid, Heq. exact Hc.
  Qed.

  Lemma inv_pooled h p l b :
    inv max (mkState h p l) -> ~ In b p -> ~ In b (map h_bid l) -> clean max h b -> inv max (mkState h (b :: p) l).
  Proof.
    intros [Ipn Ihn Idj Ial Ipc Iic] Hp Hh Hc. constructor; cbn [pool held heap held_ids] in *; auto.
    - constructor; assumption.
    - intros x [<- | Hx]; [exact Hh | exact (Idj x Hx)].
    - intros x [<- | Hx]; [exact Hc | exact (Ipc x Hx)].
  Qed.
End Pieces.

Lemma holder_using max s t b :
  inv max s -> holds t b Using (held s) = true ->
  ~ In b (pool s) /\ forall h0, In h0 (held s) -> h_bid h0 = b -> h_phase h0 = Using.
Proof.
  intros I Eh. destruct (holds_In Eh) as (h1 & Hin1 & _ & Hb1 & Hp1). split.
  { intro Hx. apply (inv_disjoint max s I b Hx). rewrite <- Hb1. exact (held_id_In s h1 Hin1). }
  intros h0 Hh0 E. rewrite (NoDup_map_inj h_bid (held s) h0 h1 (inv_held_nodup max s I) Hh0 Hin1); [exact Hp1 | congruence].
Qed.

Lemma step_inv max s a s' o : inv max s -> step max s a = Some (s', o) -> inv max s'.
Proof.
  intros I H. destruct a as [t [i | b] | t b n newcap | t b | t b | i]; cbn [step] in H.
  - (* Get from the pool: the item leaves the pool and is taken *)
    destruct (nth_error (pool s) i) as [b|] eqn:En; [|discriminate].
    destruct (lookup (heap s) b) as [v|] eqn:El; [|discriminate].
    inversion H; subst s' o; clear H. pose proof (nth_error_In _ _ En) as Hbp. destruct s as [h p l].
    apply inv_take; [apply inv_forget, I | | | exists v; exact El].
    + exact (remove_nth_not_In i p b (inv_pool_nodup max _ I) En).
    + exact (inv_disjoint max _ I b Hbp).
  - (* Get, New: a fresh buffer is allocated and taken *)
    destruct (lookup (heap s) b) as [v|] eqn:El; [discriminate|].
    inversion H; subst s' o; clear H.
    assert (Hnp : ~ In b (pool s)).
    { intro Hin. destruct (inv_pool_clean max s I b Hin) as (v & L & _). congruence. }
    assert (Hnh : ~ In b (held_ids s)).
    { intro Hin. destruct (inv_alloc max s I b Hin) as (v & L). congruence. }
    destruct s as [h p l]. apply inv_take; [|exact Hnp|exact Hnh|eexists; apply lookup_upd_same].
    apply inv_store; [exact I|exact Hnp|]. intros h0 Hh0 <-. destruct (Hnh (held_id_In _ h0 Hh0)).
  - (* Write *)
    destruct (holds t b Using (held s)) eqn:Eh; [|discriminate].
    destruct (holder_using max s t b I Eh) as (Hnp & Hu).
    destruct (lookup (heap s) b) as [v|]; [|discriminate]. destruct s as [h p l].
    destruct (blen v + n <=? bcap v); [inversion H; subst s' o; apply inv_store; assumption|].
    destruct (blen v + n <=? newcap); [inversion H; subst s' o; apply inv_store; assumption|discriminate].
  - (* Put, first half *)
    destruct (holds t b Using (held s)) eqn:Eh; [|discriminate].
    destruct (holder_using max s t b I Eh) as (Hnp & Hu).
    destruct (lookup (heap s) b) as [v|]; [|discriminate]. destruct s as [h p l].
    destruct ((0 <? max) && (max <? bcap v)) eqn:Ec; inversion H; subst s' o; clear H.
    + (* too large: dropped *)
      apply inv_release, I.
    + (* reset, within the capacity limit *)
      apply inv_enter_put; [apply inv_store; assumption|].
      exists (mkBuf (bcap v) 0). split; [apply lookup_upd_same|]. split; [reflexivity|].
      unfold cap_ok, capped. cbn [bcap]. destruct (0 <? max); [|reflexivity]. apply N.leb_le, N.ltb_ge, Ec.
  - (* Put, second half: the buffer, clean since the first half, goes back *)
    destruct (holds t b InPut (held s)) eqn:Eh; [|discriminate].
    destruct (holds_In Eh) as (h0 & Hin0 & _ & Hb0 & Hp0).
    inversion H; subst s' o; clear H.
    assert (Hbh : In b (held_ids s)) by (rewrite <- Hb0; exact (held_id_In s h0 Hin0)).
    pose proof (inv_in_put_clean max s I h0 Hin0 Hp0) as Hc. rewrite Hb0 in Hc.
    assert (Hnp : ~ In b (pool s)) by (intro Hx; exact (inv_disjoint max s I b Hx Hbh)).
    destruct s as [h p l]. apply inv_pooled; [apply inv_release, I|exact Hnp| |exact Hc].
    intro Hx. exact (proj2 (drop_hold_ids_In _ _ _ Hx) eq_refl).
  - (* sync.Pool forgets an item *)
    destruct (nth_error (pool s) i) as [b|]; [|discriminate].
    inversion H; subst s' o. destruct s as [h p l]. apply inv_forget, I.
Qed.

Lemma run_inv max acts : forall s s', inv max s -> run max s acts = Some s' -> inv max s'.
Proof.
  induction acts as [|a r IH]; intros s s' I H; cbn [run] in H.
  - inversion H; subst. exact I.
  - destruct (step max s a) as [[s1 o]|] eqn:E; [|discriminate].
    exact (IH s1 s' (step_inv max s a s1 o I E) H).
Qed.

Lemma sched_inv max acts s : run max init acts = Some s -> inv max s.
Proof. apply run_inv, inv_init. Qed.

Lemma get_facts max s t c s' b v : inv max s ->
  step max s (AGet t c) = Some (s', OGot b v) ->
  blen v = 0 /\ cap_ok max v = true /\ ~ In b (held_ids s).
Proof.
  intros [Ipn Ihn Idj Ial Ipc Iic] H.
  destruct c as [i | nb]; cbn [step] in H.
  - destruct (nth_error (pool s) i) as [b0|] eqn:En; [|discriminate].
    destruct (lookup (heap s) b0) as [v0|] eqn:El; [|discriminate].
    inversion H; subst s' b0 v0; clear H. pose proof (nth_error_In _ _ En) as Hbp.
    destruct (Ipc b Hbp) as (w & L & Z & C). rewrite El in L. inversion L; subst w.
    split; [exact Z|]. split; [exact C|exact (Idj b Hbp)].
  - destruct (lookup (heap s) nb) as [v0|] eqn:El; [discriminate|].
    inversion H; subst s' nb v; clear H.
    split; [reflexivity|]. split; [unfold cap_ok; cbn [bcap]; rewrite (proj2 (N.leb_le _ _) (N.le_0_l max)); apply orb_true_r|].
    intro Hin. destruct (Ial b Hin) as (w & L). congruence.
Qed.

(* sync.Pool.Get on a pooled index is always enabled: the model never gets stuck on an
   impossible branch *)
Lemma get_enabled max acts s t i b : run max init acts = Some s -> nth_error (pool s) i = Some b ->
  exists s' v, step max s (AGet t (CPool i)) = Some (s', OGot b v).
Proof.
  intros R En. destruct (inv_pool_clean max s (sched_inv max acts s R) b (nth_error_In _ _ En)) as (v & L & _).
  cbn [step]. rewrite En, L. eexists. exists v. reflexivity.
Qed.

Lemma oversized_dropped max s t b v s' o : 0 < max ->
  lookup (heap s) b = Some v -> max < bcap v ->
  step max s (APutReset t b) = Some (s', o) ->
  o = ODropped b /\ pool s' = pool s /\ ~ In b (held_ids s').
Proof.
  intros Hm L Hc H. cbn [step] in H. destruct (holds t b Using (held s)); [|discriminate].
  rewrite L in H. rewrite (proj2 (N.ltb_lt _ _) Hm), (proj2 (N.ltb_lt _ _) Hc) in H. cbn [andb] in H.
  inversion H; subst s' o. split; [reflexivity|]. split; [reflexivity|].
  cbn [held_ids held]. intro Hin. exact (proj2 (drop_hold_ids_In _ _ _ Hin) eq_refl).
Qed.

Lemma sched_empty_on_get max acts s t c s' b v :
  run max init acts = Some s -> step max s (AGet t c) = Some (s', OGot b v) -> blen v = 0.
Proof. intros R H. exact (proj1 (get_facts max s t c s' b v (sched_inv max acts s R) H)). Qed.

Lemma sched_exclusive max acts s :
  run max init acts = Some s ->
  NoDup (held_ids s) /\
  (forall b, In b (held_ids s) -> ~ In b (pool s)) /\
  (forall h1 h2, In h1 (held s) -> In h2 (held s) -> h_bid h1 = h_bid h2 -> h1 = h2) /\
  (forall t c s' b v, step max s (AGet t c) = Some (s', OGot b v) -> ~ In b (held_ids s)).
Proof.
  intro R. pose proof (sched_inv max acts s R) as I.
  split; [exact (inv_held_nodup max s I)|]. split; [|split].
  - intros b Hh Hp. exact (inv_disjoint max s I b Hp Hh).
  - intros h1 h2 H1 H2 E. exact (NoDup_map_inj h_bid (held s) h1 h2 (inv_held_nodup max s I) H1 H2 E).
  - intros t c s' b v H. apply (get_facts max s t c s' b v I H).
Qed.

Lemma cap_ok_le max v : 0 < max -> cap_ok max v = true -> bcap v <= max.
Proof. unfold cap_ok, capped. intro Hm. rewrite (proj2 (N.ltb_lt _ _) Hm). apply N.leb_le. Qed.

Lemma sched_cap max acts s : 0 < max ->
  run max init acts = Some s ->
  (forall b, In b (pool s) -> exists v, lookup (heap s) b = Some v /\ bcap v <= max) /\
  (forall t c s' b v, step max s (AGet t c) = Some (s', OGot b v) -> bcap v <= max) /\
  (forall t b v s' o, lookup (heap s) b = Some v -> max < bcap v ->
     step max s (APutReset t b) = Some (s', o) -> pool s' = pool s /\ ~ In b (held_ids s')).
Proof.
  intros Hm R. pose proof (sched_inv max acts s R) as I. split; [|split].
  - intros b Hb. destruct (inv_pool_clean max s I b Hb) as (v & L & _ & C).
    exists v. split; [exact L|exact (cap_ok_le max v Hm C)].
  - intros t c s' b v H. destruct (get_facts max s t c s' b v I H) as (_ & C & _).
    exact (cap_ok_le max v Hm C).
  - intros t b v s' o L Hc H. exact (proj2 (oversized_dropped max s t b v s' o Hm L Hc H)).
Qed.

(* a concrete schedule used for non-vacuity: thread 1 gets a new buffer 7, writes 100 bytes (cap
   128), thread 2 gets a new buffer 8, thread 1 puts 7 back in two steps, thread 2 obtains 7 *)
Definition demo_sched : list action :=
  [AGet 1 (CNew 7); AWrite 1 7 100 128; AGet 2 (CNew 8); APutReset 1 7; AWrite 2 8 5 64;
   APutPool 1 7; AGet 2 (CPool 0)].

Lemma after_reset_shape l : after_reset l = true ->
  exists mid, l = mid ++ [2] /\ only [1; 3] mid = true.
Proof.
  induction l as [|x r IH]; intro H; [discriminate|]. cbn [after_reset] in H.
  destruct (x =? 2) eqn:E2.
  - apply N.eqb_eq in E2. subst x. destruct r; [|discriminate]. exists []. split; reflexivity.
  - destruct ((x =? 1) || (x =? 3)) eqn:E13; [|discriminate].
    destruct (IH H) as (mid & -> & Hm). exists (x :: mid). split; [reflexivity|].
    cbn [only existsb]. rewrite Hm, andb_true_r.
    apply orb_prop in E13. destruct E13 as [E | E]; rewrite E; cbn; [reflexivity|apply orb_true_r].
Qed.

(* an accepted body is: the owner's own business, a Reset, nothing but Resets / capacity guards,
   the release, and then nothing — the order the model's APutReset ; APutPool stands for *)
Lemma put_shape_ok_sound l : put_shape_ok l = true ->
  exists pre mid, l = pre ++ 1 :: mid ++ [2] /\ only [1; 3; 5] pre = true /\ only [1; 3] mid = true.
Proof.
  induction l as [|x r IH]; intro H; [discriminate|]. cbn [put_shape_ok] in H.
  destruct (x =? 1) eqn:E1.
  - apply N.eqb_eq in E1. subst x. apply orb_prop in H. destruct H as [H | H].
    + destruct (after_reset_shape r H) as (mid & -> & Hm). exists [], mid. repeat split; assumption.
    + destruct (IH H) as (pre & mid & -> & Hp & Hm). exists (1 :: pre), mid.
      split; [reflexivity|]. split; [cbn [only existsb]; rewrite Hp; reflexivity|exact Hm].
  - destruct ((x =? 3) || (x =? 5)) eqn:E35; [|discriminate].
    destruct (IH H) as (pre & mid & -> & Hp & Hm). exists (x :: pre), mid.
    split; [reflexivity|]. split; [|exact Hm]. cbn [only existsb]. rewrite Hp, andb_true_r.
    apply orb_prop in E35. destruct E35 as [E | E]; rewrite E; cbn; rewrite ?orb_true_r; reflexivity.
Qed.

(* release before reset: a concrete schedule on which Get hands out a buffer with 5 bytes in it,
   two threads own buffer 7 at once, and the second owner's 3 bytes are wiped by the first
   owner's late Reset *)
Lemma swapped_order_refuted :
  exists s4 s5 sf,
    run2 0 init (firstn 4 swapped_sched) = Some (s4, [OGot 7 (mkBuf 0 0); ONone; ONone; OGot 7 (mkBuf 64 5)]) /\
    map h_tid (held s4) = [2; 1] /\ held_ids s4 = [7; 7] /\
    run2 0 init (firstn 5 swapped_sched) = Some (s5, [OGot 7 (mkBuf 0 0); ONone; ONone; OGot 7 (mkBuf 64 5); ONone]) /\
    lookup (heap s5) 7 = Some (mkBuf 64 8) /\
    option_map fst (run2 0 init swapped_sched) = Some sf /\
    lookup (heap sf) 7 = Some (mkBuf 64 0) /\ holds 2 7 Using (held sf) = true.
Proof. do 3 eexists. repeat (split; [vm_compute; reflexivity|]). vm_compute. reflexivity. Qed.

(* the engine's classification on ten bodies: each is accepted or reported, none both *)
Lemma shape_ok_examples :
  put_shape_ok [1; 2] = true /\ put_shape_ok [2; 1] = false /\ touches_after_release [2; 1] = true /\
  put_shape_ok [2] = false /\ release_without_reset [2] = true /\
  put_shape_ok [5; 1; 3; 2] = true /\ put_shape_ok [1; 5; 2] = false /\ put_shape_ok [1; 2; 5] = false /\
  capped_put_shape_ok [3; 4] = true /\ capped_put_shape_ok [4] = false.
Proof. vm_compute. repeat split. Qed.
