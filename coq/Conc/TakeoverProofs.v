(* C14 / C16 (schedules) — proofs over all schedules and all parameter combinations of the takeover
   model by exhaustive exploration of its finite configuration space (Conc/Reach.v). *)
From MV Require Import Base.Val Base.Sched Conc.Reach Conc.Takeover.
Open Scope nat_scope.

Definition beq_instr (a b : instr) : bool :=
  match a, b with
  | ASendLWT, ASendLWT | AStop, AStop | ACheck, ACheck | AClear, AClear | ADelete, ADelete | BGet, BGet
  | BDisconnectOld, BDisconnectOld | BStoreTko, BStoreTko | BClientsAdd, BClientsAdd | BConnack, BConnack
  | BWillCancel, BWillCancel => true
  | _, _ => false
  end.
Lemma beq_instr_ok a b : beq_instr a b = true -> a = b.
Proof. destruct a, b; cbn; congruence. Qed.

Definition beq_params (a b : params) : bool :=
  Bool.eqb (p_expire a) (p_expire b) && Bool.eqb (p_will a) (p_will b) && Bool.eqb (p_delay a) (p_delay b) &&
  Bool.eqb (p_clean a) (p_clean b) && Bool.eqb (p_selfended a) (p_selfended b).
Lemma beq_params_ok a b : beq_params a b = true -> a = b.
Proof.
  destruct a, b. unfold beq_params. cbn. rewrite !andb_true_iff, !Bool.eqb_true_iff.
  intros [[[[-> ->] ->] ->] ->]. reflexivity.
Qed.

(* the parameters last: they are the same throughout one exploration *)
Definition beq_tstate (a b : tstate) : bool :=
  Bool.eqb (a_readret a) (a_readret b) && Bool.eqb (a_tko a) (a_tko b) &&
  N.eqb (reg a) (reg b) && Bool.eqb (found a) (found b) && Bool.eqb (b_added a) (b_added b) &&
  Bool.eqb (cancel_done a) (cancel_done b) && Bool.eqb (will_pending a) (will_pending b) &&
  Nat.eqb (will_published a) (will_published b) && Bool.eqb (deleted_new a) (deleted_new b) &&
  Bool.eqb (late_add a) (late_add b) && beq_params (prm a) (prm b).
Lemma beq_tstate_ok a b : beq_tstate a b = true -> a = b.
Proof.
  destruct a, b. unfold beq_tstate. cbn. rewrite !andb_true_iff, !Bool.eqb_true_iff, Nat.eqb_eq, N.eqb_eq.
  intros [[[[[[[[[[-> ->] ->] ->] ->] ->] ->] ->] ->] ->] P]. apply beq_params_ok in P. subst. reflexivity.
Qed.

Definition beq_cfg := beq_cfg beq_instr beq_tstate.
Definition beq_cfg_ok := beq_cfg_ok beq_instr beq_tstate beq_instr_ok beq_tstate_ok.

(* the configurations reachable for one parameter combination (11 instructions in total: 12 rounds suffice) *)
Definition reach_p (p : params) : list (cfg tstate instr) :=
  explore exec beq_cfg 2 12 [takeover_threads p] [takeover_threads p].

Definition window_props (c : cfg tstate instr) : bool :=
  (deleted_new (shared c) || new_registered c) && (late_add (shared c) || will_cancelled c) && will_once c.

Lemma window_props_always p sched :
  let c := run_takeover p sched in
  deleted_new (shared c) || new_registered c = true /\
  late_add (shared c) || will_cancelled c = true /\
  will_once c = true.
Proof.
  assert (A : window_props (run_takeover p sched) = true).
  { apply (checked_sound exec beq_cfg beq_cfg_ok 2 window_props (takeover_threads p) (reach_p p)).
    destruct p as [[] [] [] [] []]; vm_compute; reflexivity. }
  unfold window_props in A. rewrite !andb_true_iff in A. destruct A as [[A1 A2] A3]. repeat split; assumption.
Qed.

Definition pA (ex w d cl se : bool) : params :=
  {| p_expire := ex; p_will := w; p_delay := d; p_clean := cl; p_selfended := se |}.

(* C14-1: A passes the !IsTakenOver() test, B stores the flag and registers, A deletes B's registration *)
Theorem new_registered_refuted : exists p sched, new_registered (run_takeover p sched) = false.
Proof. exists (pA true false false false false), [1; 1; 0; 0; 0; 1; 1; 0; 0]. vm_compute. reflexivity. Qed.

Theorem new_registered_modulo : forall p sched,
  KF_C14_stale_takenover_check p sched = false -> new_registered (run_takeover p sched) = true.
Proof.
  intros p sched K. destruct (window_props_always p sched) as (A & _).
  unfold KF_C14_stale_takenover_check in K. rewrite K in A. exact A.
Qed.

(* C16-1: A's delayed will is registered after B's cancellation and stays pending *)
Theorem will_cancelled_refuted : exists p sched, will_cancelled (run_takeover p sched) = false.
Proof. exists (pA false true true false false), [1; 1; 1; 1; 1; 1; 0; 0; 0]. vm_compute. reflexivity. Qed.

Theorem will_cancelled_modulo : forall p sched,
  KF_C16_late_will_registration p sched = false -> will_cancelled (run_takeover p sched) = true.
Proof.
  intros p sched K. destruct (window_props_always p sched) as (_ & A & _).
  unfold KF_C16_late_will_registration in K. rewrite K in A. exact A.
Qed.

Theorem will_once_all : forall p sched, will_once (run_takeover p sched) = true.
Proof. intros p sched. apply (window_props_always p sched). Qed.

(* non-vacuity: the order "A's teardown completely before B" meets everything *)
Example takeover_sequential :
  let c := run_takeover (pA true true true false true) [0; 0; 0; 0; 0; 1; 1; 1; 1; 1; 1] in
  new_registered c = true /\ will_cancelled c = true /\ all_done c = true /\ reg (shared c) = 2%N.
Proof. vm_compute. repeat split. Qed.
