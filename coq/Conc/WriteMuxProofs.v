(* Proofs about the write-multiplexing model: for every schedule the wire carries whole packets
   only, and no packet is lost or duplicated. *)
From MV Require Import Base.Val Base.ListMisc Conc.WriteMux.
From Coq Require Import Permutation.

(* between the flush's write and outbuf = nil the buffered packets are on the wire already: not counted twice *)
Definition counted_buf (c : option (tid * pc)) (qs : list bytes) : list bytes :=
  match c with Some (_, PFlushC) => [] | _ => qs end.

Definition pend (c : option (tid * pc)) : list bytes :=
  match c with
  | Some (_, PWrite p) | Some (_, PAppend p) | Some (_, PAppendFlush p) => [p]
  | _ => []
  end.

Definition Inv (progs : list (list (kind * bytes))) (s : st) : Prop :=
  exists ps qs, conn s = concat ps /\ buf s = concat qs /\
    Permutation (ps ++ counted_buf (cur s) qs ++ pend (cur s) ++ all_packets (todo s)) (all_packets progs).

Lemma all_packets_take t : forall todo k p rest,
  nth_error todo t = Some ((k, p) :: rest) ->
  Permutation (p :: all_packets (set_nth t rest todo)) (all_packets todo).
Proof.
  unfold all_packets.
  induction t as [|t IH]; intros [|l todo] k p rest H; try discriminate.
  - cbn in H. injection H as ->. cbn. reflexivity.
  - cbn in H. cbn [set_nth map concat].
    rewrite Permutation_middle. apply Permutation_app_head. apply (IH _ k). exact H.
Qed.

Lemma inv_init progs : Inv progs (init progs).
Proof. exists [], []. cbn. repeat split; reflexivity. Qed.

Lemma concat_snoc (ps : list bytes) (p : bytes) : concat (ps ++ [p]) = concat ps ++ p.
Proof. rewrite concat_app. cbn. rewrite app_nil_r. reflexivity. Qed.

Lemma inv_step progs s t : Inv progs s -> Inv progs (step s t).
Proof.
  intros (ps & qs & Hc & Hb & Hp). unfold step.
  destruct (cur s) as [[h c]|] eqn:C.
  - destruct (Nat.eqb h t); cbn [negb]; [|exists ps, qs; rewrite C; auto].
    destruct c; cbn [counted_buf pend app] in Hp.
    2, 3: (* PAppend, PAppendFlush *) exists ps, (qs ++ [p]); cbn; rewrite Hb, concat_snoc; repeat split; [exact Hc|];
      rewrite <- Hp; apply Permutation_app_head; rewrite <- app_assoc; reflexivity.
    + (* PWrite *) exists (ps ++ [p]), qs. cbn. rewrite Hc, concat_snoc. repeat split; [exact Hb|].
      rewrite <- Hp. rewrite <- !app_assoc. apply Permutation_app_head. cbn.
      rewrite (Permutation_app_comm qs (p :: _)). cbn. apply perm_skip. apply Permutation_app_comm.
    + (* PFlushW *) exists (ps ++ qs), qs. cbn. rewrite Hc, Hb, concat_app. repeat split.
      rewrite <- Hp. rewrite <- app_assoc. reflexivity.
    + (* PFlushC *) exists ps, []. cbn. repeat split; [exact Hc|]. exact Hp.
    + (* PDone *) exists ps, qs. cbn. repeat split; assumption.
  - destruct (nth_error (todo s) t) as [[|[k p] rest]|] eqn:N;
      try (exists ps, qs; rewrite C; auto).
    exists ps, qs. cbn [conn buf cur todo]. repeat split; [exact Hc|exact Hb|].
    cbn [counted_buf pend] in Hp. rewrite <- Hp.
    apply Permutation_app_head.
    pose proof (all_packets_take t _ k _ _ N) as T.
    destruct k; cbn [enter counted_buf pend app];
      apply Permutation_app_head; exact T.
Qed.

Theorem inv_run progs sched : Inv progs (run sched (init progs)).
Proof.
  unfold run. apply fold_left_invariant; [intros s t; apply inv_step|apply inv_init].
Qed.

Lemma all_packets_done todo : Forall (fun l : list (kind * bytes) => l = []) todo -> all_packets todo = [].
Proof.
  unfold all_packets. induction 1 as [|l r Hl _ IH]; [reflexivity|]. subst l. cbn. exact IH.
Qed.

Theorem no_interleaving progs sched :
  let s := run sched (init progs) in
  exists ps qs, conn s = concat ps /\ buf s = concat qs /\
    (forall p, In p ps -> In p (all_packets progs)) /\
    (finished s -> Permutation (ps ++ qs) (all_packets progs)).
Proof.
  cbn zeta. destruct (inv_run progs sched) as (ps & qs & Hc & Hb & Hp).
  exists ps, qs. repeat split; try assumption.
  - intros p Hin. eapply Permutation_in; [exact Hp|]. apply in_or_app. left. exact Hin.
  - intros [Hcur Htodo]. rewrite Hcur in Hp. cbn [counted_buf pend app] in Hp.
    rewrite (all_packets_done _ Htodo), app_nil_r in Hp. exact Hp.
Qed.
