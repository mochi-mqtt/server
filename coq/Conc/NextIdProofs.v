(* C10: with the allocation atomic, every schedule of n allocators hands out pairwise distinct identifiers, provided
   the identifiers in use are at most the counter and there is room for n more below the maximum (no wrap-around). *)
From MV Require Import Base.Val Base.SchedProofs Conc.NextId.
From Coq Require Import Lia Permutation.
Open Scope N_scope.

Lemma usedb_false i u : (forall x, In x u -> x <> i) -> usedb i u = false.
Proof.
  intros H. unfold usedb. destruct (existsb (N.eqb i) u) eqn:E; [|reflexivity].
  apply existsb_exists in E. destruct E as (x & I & Ex). apply N.eqb_eq in Ex. destruct (H x I (eq_sym Ex)).
Qed.

Lemma scan_next maxpid u t : t < maxpid -> (forall x, In x u -> x <= t) -> scan maxpid u t = Some (t + 1).
Proof.
  intros Lt H. unfold scan.
  assert (F : exists f, N.to_nat (2 * maxpid + 4) = S f) by (exists (pred (N.to_nat (2 * maxpid + 4))); lia).
  destruct F as [f ->]. cbn [scan_loop andb].
  rewrite (proj2 (N.leb_gt maxpid t) Lt).
  rewrite usedb_false; [reflexivity|]. intros x I. specialize (H x I). lia.
Qed.

(* [NextId.set_nth] has the body of [Sched.set_nth]: the lemmas of SchedProofs apply to it by conversion *)
Lemma nth_set_nth_same {A} (l : list A) j x y : nth_error l j = Some y -> nth_error (set_nth j x l) j = Some x.
Proof. intro H. pose proof (nth_error_set_nth_eq j x l) as E. rewrite H in E. exact E. Qed.

Lemma ids_set_nth_got ths j p i :
  nth_error ths j = Some p -> id_of p = [] -> Permutation (ids (set_nth j (Got i) ths)) (i :: ids ths).
Proof.
  revert j. induction ths as [|a ths IH]; intros [|j] H E; cbn in H; try discriminate.
  - inversion H; subst a. unfold ids. cbn [set_nth flat_map id_of]. rewrite E. reflexivity.
  - unfold ids in *. cbn [set_nth flat_map]. rewrite (IH j H E). symmetry. apply Permutation_middle.
Qed.

Lemma ids_set_nth_done ths j i : nth_error ths j = Some (Got i) -> ids (set_nth j (Done i) ths) = ids ths.
Proof.
  revert j. induction ths as [|a ths IH]; intros [|j] H; cbn in H; try discriminate.
  - inversion H; subst a. reflexivity.
  - unfold ids in *. cbn [set_nth flat_map]. rewrite (IH j H). reflexivity.
Qed.

Lemma in_ids_nth ths j i : nth_error ths j = Some (Got i) -> In i (ids ths).
Proof.
  revert j. induction ths as [|a ths IH]; intros [|j] H; cbn in H; try discriminate.
  - inversion H; subst a. left. reflexivity.
  - unfold ids. cbn [flat_map]. apply in_or_app. right. apply (IH j H).
Qed.

Lemma ids_length_le ths : (length (ids ths) <= length ths)%nat.
Proof. unfold ids. induction ths as [|a r IH]; cbn; [lia|]. rewrite app_length. destruct a; cbn; lia. Qed.

Lemma ids_length_lt ths j p : nth_error ths j = Some p -> id_of p = [] -> (length (ids ths) < length ths)%nat.
Proof.
  revert j. induction ths as [|a ths IH]; intros [|j] H E; cbn in H; try discriminate; unfold ids in *; cbn; rewrite app_length.
  - inversion H; subst a. rewrite E. pose proof (ids_length_le ths). unfold ids in *. cbn. lia.
  - specialize (IH j H E). destruct a; cbn; lia.
Qed.

(* nothing in use is above the counter, so every allocation returns counter + 1 ([scan_next]) and the counter counts
   the allocations *)
Record inv (c0 : N) (sh : shared) (ths : list pc) : Prop := {
  i_cnt : sh_counter sh = c0 + N.of_nat (length (ids ths));
  i_used : forall x, In x (sh_used sh) -> x <= sh_counter sh;
  i_ids : forall x, In x (ids ths) -> c0 < x <= sh_counter sh;
  i_nodup : NoDup (ids ths) }.

Lemma step_atomic_inv maxpid c0 sh ths j :
  c0 + N.of_nat (length ths) <= maxpid ->
  inv c0 sh ths -> inv c0 (fst (step_atomic maxpid sh ths j)) (snd (step_atomic maxpid sh ths j)).
Proof.
  intros Room [Ic Iu Ii In]. unfold step_atomic.
  destruct (nth_error ths j) as [p|] eqn:E; [|constructor; assumption].
  destruct p; try (constructor; assumption).
  - (* allocation *)
    pose proof (ids_length_lt ths j Start E eq_refl) as Lt.
    rewrite (scan_next maxpid (sh_used sh) (sh_counter sh)); [|lia|exact Iu]. cbn [fst snd].
    pose proof (ids_set_nth_got ths j Start (sh_counter sh + 1) E eq_refl) as P.
    constructor; cbn [sh_counter sh_used].
    + rewrite (Permutation_length P). cbn [length]. lia.
    + intros x I. specialize (Iu x I). lia.
    + intros x I. apply (Permutation_in _ P) in I. destruct I as [<-|I]; [lia|]. specialize (Ii x I). lia.
    + apply (Permutation_NoDup (Permutation_sym P)). constructor; [|exact In].
      intros X. specialize (Ii _ X). lia.
  - (* Set *)
    cbn [fst snd]. constructor; cbn [sh_counter sh_used]; rewrite ?(ids_set_nth_done ths j i E); auto.
    intros x [<-|I]; [|apply Iu; exact I]. apply (Ii i). apply (in_ids_nth ths j i E).
Qed.

Lemma length_step_atomic maxpid sh ths j : length (snd (step_atomic maxpid sh ths j)) = length ths.
Proof.
  unfold step_atomic. destruct (nth_error ths j) as [p|]; [|reflexivity].
  destruct p; try reflexivity; [destruct (scan maxpid (sh_used sh) (sh_counter sh))|]; cbn [snd];
    try reflexivity; apply set_nth_length.
Qed.

(* nothing in use above c0: a connection's identifiers are handed out upwards and only acknowledgements free them *)
Theorem atomic_ids_distinct maxpid c0 u0 n sched :
  (forall x, In x u0 -> x <= c0) -> c0 + N.of_nat n <= maxpid ->
  let '(sh, ths) := run_sched (step_atomic maxpid) {| sh_counter := c0; sh_used := u0 |} (repeat Start n) sched in
  NoDup (ids ths) /\ forall x, In x (ids ths) -> c0 < x <= c0 + N.of_nat n /\ ~ In x u0.
Proof.
  intros U Room.
  assert (Gen : forall sched sh ths, length ths = n -> inv c0 sh ths ->
            let '(sh', ths') := run_sched (step_atomic maxpid) sh ths sched in length ths' = n /\ inv c0 sh' ths').
  { clear sched. induction sched as [|j sched IH]; intros sh ths L I; [cbn; tauto|].
    cbn [run_sched]. pose proof (step_atomic_inv maxpid c0 sh ths j ltac:(lia) I) as I'.
    pose proof (length_step_atomic maxpid sh ths j) as L'.
    destruct (step_atomic maxpid sh ths j) as [sh1 ths1]. cbn [fst snd] in *. apply IH; [lia|exact I']. }
  assert (I0 : inv c0 {| sh_counter := c0; sh_used := u0 |} (repeat Start n)).
  { assert (D0 : ids (repeat Start n) = []) by (clear; induction n; cbn; auto).
    constructor; cbn [sh_counter sh_used]; rewrite ?D0; cbn; try lia; try exact U; try (intros x []). constructor. }
  specialize (Gen sched _ _ (repeat_length Start n) I0).
  destruct (run_sched (step_atomic maxpid) {| sh_counter := c0; sh_used := u0 |} (repeat Start n) sched) as [sh ths].
  destruct Gen as [L [Ic Iu Ii In]]. split; [exact In|].
  intros x I. specialize (Ii x I). pose proof (ids_length_le ths).
  split; [lia|]. intros X. specialize (U x X). lia.
Qed.
