(* C11: for every schedule of concurrent deliveries, queue-full drops and acknowledgements, with the unit returned by
   an atomic increment the messages in transit never outnumber the receive maximum. *)
From MV Require Import Base.Val Base.ListMisc Base.Sched Base.SchedProofs Conc.Quota.
From Coq Require Import Lia.
Open Scope Z_scope.

(* the units a delivery holds: one while it is between taking the unit and committing, one while in transit *)
Definition units (p : qpc) : Z := b2z (is_taken p) + b2z (is_sent p).

Lemma units_nonneg p : 0 <= units p.
Proof. destruct p; cbn; lia. Qed.

Definition qinv (rm q : Z) (ths : list qpc) : Prop := 0 <= q /\ q + sumZ units ths = rm.

Lemma qinv_set_nth rm q q' ths j p x :
  nth_error ths j = Some p -> qinv rm q ths -> 0 <= q' -> q' + units x = q + units p -> qinv rm q' (qset_nth j x ths).
Proof.
  intros E [_ I] Q' U. split; [exact Q'|].
  (* [qset_nth] has the body of [Sched.set_nth] *)
  change (qset_nth j x ths) with (set_nth j x ths).
  rewrite (sumZ_set_nth units j x p ths E). lia.
Qed.

Lemma qstep_inv rm full q ths j :
  qinv rm q ths -> qinv rm (fst (qstep false rm full q ths j)) (snd (qstep false rm full q ths j)).
Proof.
  intros I. pose proof I as [Q0 I']. unfold qstep.
  destruct (nth_error ths j) as [p|] eqn:E; [|exact I].
  (* the unit this delivery holds is counted, which keeps the quota below the maximum *)
  pose proof (sumZ_nth_le units units_nonneg ths j p E) as PU.
  destruct p; cbn [fst snd]; try exact I; cbn in PU.
  - apply (qinv_set_nth rm q q ths j QStart); auto.
  - destruct (0 <? q) eqn:P; cbn [fst snd]; apply (qinv_set_nth rm q _ ths j (QSnap s)); auto; cbn; lia.
  - destruct (full j); cbn [fst snd]; apply (qinv_set_nth rm q _ ths j (QTaken s)); auto; cbn; try lia;
      destruct (q <? rm) eqn:L; lia.
  - apply (qinv_set_nth rm q _ ths j QSent); auto; cbn; destruct (q <? rm) eqn:L; lia.
Qed.

(* at the end of the schedule, hence at every moment: every prefix of a schedule is a schedule *)
Theorem quota_all_schedules rm n full sched :
  0 <= rm ->
  let '(q, ths) := qrun false rm full rm (repeat QStart n) sched in
  in_transit ths <= rm /\ 0 <= q <= rm.
Proof.
  intros R.
  assert (Gen : forall sched q ths, qinv rm q ths -> let '(q', ths') := qrun false rm full q ths sched in qinv rm q' ths').
  { clear sched. induction sched as [|j sched IH]; intros q ths I; [exact I|].
    cbn [qrun]. pose proof (qstep_inv rm full q ths j I) as I'. destruct (qstep false rm full q ths j) as [q1 ths1].
    apply IH. exact I'. }
  assert (I0 : qinv rm rm (repeat QStart n)).
  { split; [exact R|]. rewrite (proj2 (sumZ_zero units units_nonneg _)); [lia|].
    intros x I. apply repeat_spec in I. subst. reflexivity. }
  specialize (Gen sched rm _ I0). destruct (qrun false rm full rm (repeat QStart n) sched) as [q ths].
  destruct Gen as [Q0 I]. pose proof (sumZ_nonneg units ths units_nonneg).
  (* a message in transit holds a unit *)
  assert (in_transit ths <= sumZ units ths); [|lia].
  unfold in_transit, count_pc. rewrite countZ_filter. apply sumZ_le. intros p _. unfold units. pose proof (b2z_nonneg (is_taken p)). lia.
Qed.
