(* C33 — proofs about Conc/Discipline.v: the per-site check implies the pairwise statement
   (every two conflicting accesses to overlapping memory that may run concurrently are
   synchronised by the protection declared for a unit both touch). *)
From Coq Require Import String Arith Lia.
From MV Require Import Base.Val Base.ListMisc Conc.Discipline.
Import ListNotations.
Open Scope string_scope.
Open Scope nat_scope.

Lemma prefix_app : forall a b, prefix a b = true <-> exists c, b = (a ++ c)%list.
Proof.
  induction a as [|x a IH]; intros b; simpl.
  - split; [intros _; exists b; reflexivity | reflexivity].
  - destruct b as [|y b].
    + split; [discriminate | intros [c H]; discriminate].
    + rewrite andb_true_iff, String.eqb_eq, IH. split.
      * intros [-> [c ->]]. exists c. reflexivity.
      * intros [c H]. injection H as -> ->. split; [reflexivity | exists c; reflexivity].
Qed.

Lemma prefix_refl : forall a, prefix a a = true.
Proof. intros a. apply prefix_app. exists []. symmetry. apply app_nil_r. Qed.

Lemma prefix_trans : forall a b c, prefix a b = true -> prefix b c = true -> prefix a c = true.
Proof.
  intros a b c H1 H2. apply prefix_app in H1. apply prefix_app in H2.
  destruct H1 as [x ->]. destruct H2 as [y ->]. apply prefix_app. exists (x ++ y)%list.
  symmetry. apply app_assoc.
Qed.

Lemma prefix_length : forall a b, prefix a b = true -> length a <= length b.
Proof. intros a b H. apply prefix_app in H. destruct H as [c ->]. rewrite app_length. lia. Qed.

Lemma prefix_comparable : forall a b c, prefix a c = true -> prefix b c = true ->
  length a <= length b -> prefix a b = true.
Proof.
  induction a as [|x a IH]; intros b c Ha Hb Hl; [reflexivity|].
  destruct b as [|y b]; [simpl in Hl; lia|].
  destruct c as [|z c]; [simpl in Ha; discriminate|].
  simpl in *. apply andb_true_iff in Ha. apply andb_true_iff in Hb.
  destruct Ha as [Ha1 Ha2]. destruct Hb as [Hb1 Hb2].
  apply String.eqb_eq in Ha1. apply String.eqb_eq in Hb1. subst.
  rewrite String.eqb_refl. simpl. apply (IH b c Ha2 Hb2). lia.
Qed.

Lemma prefix_same_length : forall a b, prefix a b = true -> length a = length b -> a = b.
Proof.
  intros a b H Hl. apply prefix_app in H. destruct H as [c ->].
  rewrite app_length in Hl. destruct c; [symmetry; apply app_nil_r | simpl in Hl; lia].
Qed.

Definition longest (p : path) (seen : list unit_decl) (u : unit_decl) : Prop :=
  In u seen /\ prefix (u_path u) p = true /\
  forall v, In v seen -> prefix (u_path v) p = true -> length (u_path v) <= length (u_path u).

(* started from a candidate that is a prefix of p, or from none: the longest prefix of p among the candidate and d *)
Lemma inside_unit_longest : forall p d best u,
  (forall b, best = Some b -> prefix (u_path b) p = true) -> inside_unit d p best = Some u ->
  longest p (match best with Some b => b :: d | None => d end) u.
Proof.
  intros p d. induction d as [|x r IH]; intros best u Hb H; cbn [inside_unit] in H.
  - subst best. split; [left; reflexivity|]. split; [apply Hb; reflexivity|]. intros v [<-|[]] _. apply le_n.
  - destruct (prefix (u_path x) p) eqn:Ex.
    + assert (Hx : forall b, Some x = Some b -> prefix (u_path b) p = true) by (intros ? [= <-]; exact Ex).
      destruct best as [b|]; [destruct (Nat.ltb _ _) eqn:El|].
      * apply Nat.ltb_lt in El. destruct (IH (Some x) u Hx H) as (I & P & M).
        pose proof (M x (or_introl eq_refl) Ex) as Lx.
        split; [right; exact I|]. split; [exact P|]. intros v [<-|Hv] Pv; [lia|auto].
      * apply Nat.ltb_ge in El. destruct (IH (Some b) u Hb H) as (I & P & M).
        pose proof (M b (or_introl eq_refl) (Hb b eq_refl)) as Lb.
        split; [destruct I; [left|right; right]; assumption|]. split; [exact P|].
        intros v [<-|[<-|Hv]] Pv; [exact Lb|lia|apply M; [right; exact Hv|exact Pv]].
      * exact (IH (Some x) u Hx H).
    + destruct (IH best u Hb H) as (I & P & M). destruct best as [b|].
      * split; [destruct I; [left|right; right]; assumption|]. split; [exact P|].
        intros v [<-|[<-|Hv]] Pv; [apply M; [left; reflexivity|exact Pv]|congruence|apply M; [right; exact Hv|exact Pv]].
      * split; [right; exact I|]. split; [exact P|]. intros v [<-|Hv] Pv; [congruence|auto].
Qed.

Lemma inside_unit_none : forall p u d, inside_unit d p None = Some u -> longest p d u.
Proof. intros p u d. apply (inside_unit_longest p d None u). discriminate. Qed.

Definition decl_wf (d : declaration) : Prop :=
  forall u v, In u d -> In v d -> u_path u = u_path v -> u = v.

Fixpoint path_eqb (a b : path) : bool :=
  match a, b with
  | [], [] => true
  | x :: a', y :: b' => String.eqb x y && path_eqb a' b'
  | _, _ => false
  end.

Lemma path_eqb_eq : forall a b, path_eqb a b = true <-> a = b.
Proof.
  induction a as [|x a IH]; destruct b as [|y b]; simpl; split; try discriminate; try reflexivity.
  - rewrite andb_true_iff, String.eqb_eq, IH. intros [-> ->]. reflexivity.
  - intros H. injection H as -> ->. rewrite String.eqb_refl. simpl. apply IH. reflexivity.
Qed.

Fixpoint decl_wfb (d : declaration) : bool :=
  match d with
  | [] => true
  | u :: r => negb (existsb (fun v => path_eqb (u_path u) (u_path v)) r) && decl_wfb r
  end.

Lemma decl_wfb_sound : forall d, decl_wfb d = true -> decl_wf d.
Proof.
  induction d as [|x d IH]; intros H u v Hu Hv E; [destruct Hu|].
  simpl in H. apply andb_true_iff in H. destruct H as [H1 H2].
  apply negb_true_iff in H1.
  assert (Hno : forall w, In w d -> u_path x <> u_path w).
  { intros w Hw Ew. apply path_eqb_eq in Ew. pose proof (existsb_false_In _ d w H1 Hw) as F. cbv beta in F. congruence. }
  destruct Hu as [<-|Hu]; destruct Hv as [<-|Hv].
  - reflexivity.
  - exfalso. apply (Hno v Hv E).
  - exfalso. apply (Hno u Hu). symmetry. exact E.
  - apply (IH H2 u v Hu Hv E).
Qed.

Lemma overlap_common_unit_aux : forall d s1 s2, decl_wf d ->
  covered d s1 = true -> covered d s2 = true ->
  prefix (a_path s1) (a_path s2) = true ->
  exists u, In u (units_of d s1) /\ In u (units_of d s2).
Proof.
  intros d s1 s2 Hwf H1 H2 Hp. unfold covered in *. unfold units_of.
  destruct (inside_unit d (a_path s1) None) as [u1|] eqn:E1; [|discriminate].
  destruct (inside_unit d (a_path s2) None) as [u2|] eqn:E2; [|discriminate].
  apply inside_unit_none in E1. destruct E1 as [I1 [P1 M1]].
  apply inside_unit_none in E2. destruct E2 as [I2 [P2 M2]].
  destruct (le_lt_dec (length (u_path u2)) (length (a_path s1))) as [Hle|Hlt].
  - (* the unit of s2 also contains the location of s1: both have the same unit *)
    assert (Q : prefix (u_path u2) (a_path s1) = true) by (apply (prefix_comparable _ _ (a_path s2)); assumption).
    assert (L1 : length (u_path u2) <= length (u_path u1)) by (apply M1; assumption).
    assert (Q' : prefix (u_path u1) (a_path s2) = true) by (eapply prefix_trans; eassumption).
    assert (L2 : length (u_path u1) <= length (u_path u2)) by (apply M2; assumption).
    assert (Hsame : u_path u1 = u_path u2).
    { apply prefix_same_length; [|lia]. apply (prefix_comparable _ _ (a_path s2)); [assumption|assumption|lia]. }
    assert (u1 = u2) by (apply Hwf; assumption). subst u2.
    exists u1. split; left; reflexivity.
  - (* the unit of s2 lies strictly below the location of s1: s1 covers it *)
    exists u2. split; [|left; reflexivity]. right. unfold covered_units. apply filter_In.
    split; [exact I2|]. apply andb_true_iff. split.
    + apply (prefix_comparable _ _ (a_path s2)); [assumption|assumption|lia].
    + apply Nat.ltb_lt. exact Hlt.
Qed.

Lemma overlap_common_unit : forall d s1 s2, decl_wf d ->
  covered d s1 = true -> covered d s2 = true -> overlap s1 s2 = true ->
  exists u, In u (units_of d s1) /\ In u (units_of d s2).
Proof.
  intros d s1 s2 Hwf H1 H2 Ho. unfold overlap in Ho. apply orb_true_iff in Ho. destruct Ho as [Ho|Ho].
  - apply overlap_common_unit_aux; assumption.
  - destruct (overlap_common_unit_aux d s2 s1 Hwf H2 H1 Ho) as [u [A B]]. exists u. split; assumption.
Qed.

Lemma root_eqb_eq : forall a b, root_eqb a b = true -> a = b.
Proof. intros [] [] H; simpl in H; congruence. Qed.

Lemma keeps_sync : forall u s1 s2,
  keeps u s1 = true -> keeps u s2 = true -> conflicting s1 s2 = true ->
  exempt u s1 = true \/ exempt u s2 = true \/ synchronised u s1 s2.
Proof.
  intros u s1 s2 K1 K2 C. unfold keeps in *.
  destruct (exempt u s1); [left; reflexivity|]. destruct (exempt u s2); [right; left; reflexivity|].
  right. right. simpl in K1, K2.
  unfold synchronised. destruct (u_prot u) as [c own|c1 o1 c2 o2| | |rs|rs].
  - split; assumption.
  - unfold conflicting in C.
    destruct (a_write s1) eqn:W1; destruct (a_write s2) eqn:W2; simpl in C; try discriminate.
    + apply andb_true_iff in K1. apply andb_true_iff in K2. left. split; tauto.
    + apply andb_true_iff in K1. apply orb_true_iff in K2.
      destruct K2 as [K2|K2]; [left | right]; split; tauto.
    + apply andb_true_iff in K2. apply orb_true_iff in K1.
      destruct K1 as [K1|K1]; [left | right]; split; tauto.
  - split; assumption.
  - unfold conflicting in C. apply negb_true_iff in K1. apply negb_true_iff in K2.
    rewrite K1, K2 in C. discriminate.
  - assert (G : forall s, forallb (fun r => existsb (root_eqb r) rs || root_eqb r RI) (a_roots s) = true ->
                          forall r, In r (a_roots s) -> In r (RI :: rs)).
    { intros s H r Hr. rewrite forallb_forall in H. specialize (H r Hr).
      apply orb_true_iff in H. destruct H as [H|H].
      - apply existsb_exists in H. destruct H as [x [Hx E]]. apply root_eqb_eq in E. subst. right. exact Hx.
      - apply root_eqb_eq in H. subst. left. reflexivity. }
    split; [apply (G s1 K1) | apply (G s2 K2)].
  - assert (G : forall s, confined_to rs s || (a_after_stop s && negb (a_write s)) = true ->
                          confined_to rs s = true \/ (a_after_stop s = true /\ a_write s = false)).
    { intros s H. apply orb_true_iff in H. destruct H as [H|H]; [left; exact H|].
      apply andb_true_iff in H. destruct H as [H1 H2]. apply negb_true_iff in H2. right. split; assumption. }
    split; [apply (G s1 K1) | apply (G s2 K2)].
Qed.

Lemma units_of_In : forall d s u, In u (units_of d s) -> In u d.
Proof.
  intros d s u H. unfold units_of in H.
  assert (C : In u (covered_units d (a_path s)) -> In u d) by (unfold covered_units; intro X; apply filter_In in X; tauto).
  destruct (inside_unit d (a_path s) None) as [w|] eqn:E; [|auto].
  destruct H as [<-|H]; [exact (proj1 (inside_unit_none _ _ _ E))|auto].
Qed.

Lemma pairwise : forall (ok : unit_decl -> asite -> bool) d t, decl_wf d ->
  forallb (fun s => covered d s && forallb (fun u => ok u s) (units_of d s)) t = true ->
  forall s1 s2, In s1 t -> In s2 t -> overlap s1 s2 = true ->
    exists u, In u d /\ In u (units_of d s1) /\ In u (units_of d s2) /\ ok u s1 = true /\ ok u s2 = true.
Proof.
  intros ok d t Hwf H s1 s2 I1 I2 Ho. rewrite forallb_forall in H.
  pose proof (H s1 I1) as R1. pose proof (H s2 I2) as R2.
  apply andb_true_iff in R1. apply andb_true_iff in R2.
  destruct R1 as [C1 K1]. destruct R2 as [C2 K2]. rewrite forallb_forall in K1, K2.
  destruct (overlap_common_unit d s1 s2 Hwf C1 C2 Ho) as [u [U1 U2]].
  exists u. split; [exact (units_of_In d s1 u U1)|]. auto.
Qed.

(* The two theorems do not use that the two sites may be concurrent: they hold of every two
   conflicting accesses to overlapping memory. *)
Theorem discipline_sound_any : forall d t, decl_wf d -> sites_respect d t = true ->
  forall s1 s2, In s1 t -> In s2 t -> overlap s1 s2 = true -> conflicting s1 s2 = true ->
    exists u, In u d /\ In u (units_of d s1) /\ In u (units_of d s2) /\
              (exempt u s1 = true \/ exempt u s2 = true \/ synchronised u s1 s2).
Proof.
  intros d t Hwf H s1 s2 I1 I2 Ho Hc.
  destruct (pairwise keeps d t Hwf H s1 s2 I1 I2 Ho) as (u & Hu & U1 & U2 & K1 & K2).
  exists u. repeat (split; [assumption|]). apply keeps_sync; assumption.
Qed.

Theorem discipline_sound_modulo_any : forall d t, decl_wf d -> sites_respect_modulo d t = true ->
  forall s1 s2, In s1 t -> In s2 t -> overlap s1 s2 = true -> conflicting s1 s2 = true ->
    exists u, In u d /\ In u (units_of d s1) /\ In u (units_of d s2) /\
              (u_kf u <> None \/ exempt u s1 = true \/ exempt u s2 = true \/ synchronised u s1 s2).
Proof.
  intros d t Hwf H s1 s2 I1 I2 Ho Hc.
  destruct (pairwise (fun u s => keeps u s || has_kf u) d t Hwf H s1 s2 I1 I2 Ho) as (u & Hu & U1 & U2 & K1 & K2).
  exists u. repeat (split; [assumption|]).
  unfold has_kf in *. destruct (u_kf u) eqn:Ek; [left; discriminate|].
  rewrite orb_false_r in K1, K2. right. apply keeps_sync; assumption.
Qed.

Theorem discipline_sound_modulo : forall d t, decl_wf d -> sites_respect_modulo d t = true ->
  forall s1 s2, In s1 t -> In s2 t ->
    overlap s1 s2 = true -> conflicting s1 s2 = true -> may_be_concurrent s1 s2 = true ->
    exists u, In u d /\ In u (units_of d s1) /\ In u (units_of d s2) /\
              (u_kf u <> None \/ exempt u s1 = true \/ exempt u s2 = true \/ synchronised u s1 s2).
Proof. intros d t Hwf H s1 s2 I1 I2 Ho Hc _. apply (discipline_sound_modulo_any d t Hwf H); assumption. Qed.
