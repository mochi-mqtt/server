(* C35 — proofs about Conc/Limit.v: for every schedule of any number of concurrent attach attempts
   the counter equals the number of handlers between reservation and release, never exceeds the
   maximum, and so the number of simultaneously established connections never exceeds it;
   a refusal happens only at the limit and carries the version's reason code. *)
From Coq Require Import Lia.
From MV Require Import Base.Val Base.ListMisc Base.Sched Base.SchedProofs Conc.Limit.
Open Scope Z_scope.

(* a handler between its reservation and its release is counted in Info.ClientsConnected *)
Definition weight (s : status) : Z := match s with Established | Kicked => 1 | _ => 0 end.
Fixpoint wsum (l : list status) : Z := match l with [] => 0 | x :: r => weight x + wsum r end.

Lemma wsum_set_nth {t a} b {l} :
  nth_error l t = Some a -> wsum (set_nth t b l) = wsum l - weight a + weight b.
Proof. apply (sumZ_set_nth weight). Qed.

Lemma wsum_nonneg l : 0 <= wsum l.
Proof. apply (sumZ_nonneg weight). intros []; cbn; lia. Qed.

Lemma count_est_le_wsum l : count_est l <= wsum l.
Proof. unfold count_est. rewrite countZ_filter. apply (sumZ_le _ weight). intros [] _; cbn; lia. Qed.

Lemma step_instr_cases t (c : cfg lstate instr) :
  let s := shared c in
  step exec t c = c \/
  exists i rest sp, nth_error (threads c) t = Some (i :: rest) /\ nth_error (l_specs s) t = Some sp /\
    let go s' := step exec t c = mkCfg s' (set_nth t rest (threads c)) in
    let refused := step exec t c = mkCfg (refuse t sp s) (set_nth t [] (threads c)) in
    match i with
    | Check => if at_limit s then refused else go s
    | Incr => go (establish t sp s)
    | Reserve => if at_limit s then refused else go (establish t sp s)
    | Decr => go (leave t s)
    end.
Proof.
  cbn zeta. unfold step, step_thread, exec.
  destruct (nth_error (threads c) t) as [[|i rest]|]; auto.
  destruct (nth_error (l_specs (shared c)) t) as [sp|]; auto.
  right. exists i, rest, sp. split; [reflexivity|]. split; [reflexivity|].
  destruct i; try destruct (at_limit (shared c)); reflexivity.
Qed.

Lemma step_stats t (c : cfg lstate instr) :
  let s := shared c in
  l_stats (shared (step exec t c)) = l_stats s \/
  exists sp, nth_error (l_specs s) t = Some sp /\
    ((at_limit s = true /\ l_stats (shared (step exec t c)) = set_nth t (Refused (refusal_code (ts_ver sp))) (l_stats s)) \/
     l_stats (shared (step exec t c)) = set_nth t Established (kick (ts_id sp) (l_specs s) (l_stats s)) \/
     l_stats (shared (step exec t c)) = set_nth t Gone (l_stats s)).
Proof.
  cbn zeta. destruct (step_instr_cases t c) as [->|(i & rest & sp & _ & Hsp & Hs)]; auto.
  destruct i; try destruct (at_limit (shared c)) eqn:L; cbn in Hs; rewrite Hs; cbn; eauto 7.
Qed.

Lemma wsum_kick id specs stats : wsum (kick id specs stats) = wsum stats.
Proof.
  revert specs; induction stats as [|st r IH]; intros [|sp specs]; cbn; auto.
  rewrite IH. destruct ((ts_id sp =? id)%N && is_est st) eqn:E; auto.
  apply andb_prop in E. destruct E as [_ E]. destruct st; cbn in *; try discriminate; lia.
Qed.

Lemma kick_nth_keep id specs {stats t st} :
  nth_error stats t = Some st -> is_est st = false -> nth_error (kick id specs stats) t = Some st.
Proof.
  revert specs t; induction stats as [|x r IH]; intros [|sp specs] [|t] H E; cbn in *; auto; try discriminate.
  - inversion H; subst. rewrite E, andb_false_r. reflexivity.
Qed.

Lemma kick_nth_inv id specs stats t st :
  nth_error (kick id specs stats) t = Some st -> st <> Kicked -> nth_error stats t = Some st.
Proof.
  revert specs t; induction stats as [|x r IH]; intros [|sp specs] [|t] H E; cbn in *; auto; try discriminate.
  - destruct ((ts_id sp =? id)%N && is_est x); auto. inversion H; subst. congruence.
  - eauto.
Qed.

Lemma refusal_step {c : cfg lstate instr} {t' t k} :
  stat t (step exec t' c) = Some (Refused k) ->
  stat t c = Some (Refused k) \/
  t' = t /\ l_max (shared c) <= l_counter (shared c) /\
  exists sp, nth_error (l_specs (shared c)) t = Some sp /\ k = refusal_code (ts_ver sp).
Proof.
  unfold stat. intro H1.
  destruct (step_stats t' c) as [Hs|(sp & Hsp & [[L Hs]|[Hs|Hs]])]; rewrite Hs in H1; clear Hs; auto;
    (destruct (Nat.eq_dec t' t) as [->|Hne]; [|rewrite nth_error_set_nth_neq in H1 by auto]).
  - right. rewrite nth_error_set_nth_eq in H1. destruct (nth_error (l_stats (shared c)) t); inversion H1.
    unfold at_limit in L. split; auto. split; [lia|eauto].
  - auto.
  - rewrite nth_error_set_nth_eq in H1. destruct (nth_error (kick _ _ _) t); discriminate.
  - left. apply kick_nth_inv in H1; [exact H1|discriminate].
  - rewrite nth_error_set_nth_eq in H1. destruct (nth_error (l_stats (shared c)) t); discriminate.
  - auto.
Qed.

Definition ok_thread (p : list instr) (st : status) : Prop :=
  match st with
  | Idle => p = prog_fixed \/ p = [Reserve; Decr]
  | Established | Kicked => p = [Decr]
  | Gone | Refused _ => p = []
  end.

Record Inv (max : Z) (specs : list tspec) (c : cfg lstate instr) : Prop := mkInv {
  inv_max : l_max (shared c) = max;
  inv_specs : l_specs (shared c) = specs;
  inv_ok : Forall2 ok_thread (threads c) (l_stats (shared c));
  inv_cnt : l_counter (shared c) = wsum (l_stats (shared c));
  inv_le : 0 <= max -> l_counter (shared c) <= max }.

Definition coded (specs : list tspec) (c : cfg lstate instr) : Prop :=
  forall t k, stat t c = Some (Refused k) -> exists sp, nth_error specs t = Some sp /\ k = refusal_code (ts_ver sp).

Lemma step_coded specs t' c : l_specs (shared c) = specs -> coded specs c -> coded specs (step exec t' c).
Proof.
  intros S IH t k H. destruct (refusal_step H) as [H0|(_ & _ & sp & Hsp & ->)]; [auto|]. rewrite S in Hsp. eauto.
Qed.

Lemma kick_ok id specs thr stats :
  Forall2 ok_thread thr stats -> Forall2 ok_thread thr (kick id specs stats).
Proof.
  intros H; revert specs; induction H as [|p st thr stats Hp H IH]; intros [|sp specs]; cbn;
    try constructor; auto.
  destruct ((ts_id sp =? id)%N && is_est st) eqn:E; auto.
  apply andb_prop in E. destruct E as [_ E]. destruct st; cbn in E; try discriminate. exact Hp.
Qed.

Lemma init_inv max specs : Inv max specs (limit_threads max specs).
Proof.
  constructor; cbn; auto.
  - induction (length specs); cbn; constructor; cbn; auto.
  - induction (length specs); cbn; auto.
Qed.

Lemma step_inv max specs t c : Inv max specs c -> Inv max specs (step exec t c).
Proof.
  intros [Hmax Hspecs Hok Hcnt Hle].
  destruct (step_instr_cases t c) as [->|(i & rest & sp & Hn & Hsp & Hs)]; [constructor; auto|].
  destruct (Forall2_nth_error Hok Hn) as (y & Hy & Hoky).
  assert (Hrefused : y = Idle -> Inv max specs (mkCfg (refuse t sp (shared c)) (set_nth t [] (threads c)))).
  { intros ->. constructor; cbn; auto.
    - apply Forall2_set_nth; auto. reflexivity.
    - rewrite (wsum_set_nth _ Hy). cbn. lia. }
  (* the status of the thread tells which instruction it is at *)
  destruct y; cbn in Hoky; try discriminate.
  (* an established or kicked connection is at its release *)
  2, 3: inversion Hoky; subst i rest; cbn in Hs; rewrite Hs; constructor; cbn; auto;
    [apply Forall2_set_nth; auto; reflexivity | rewrite (wsum_set_nth _ Hy); cbn; lia | lia].
  destruct Hoky as [E|E]; inversion E; subst i rest; cbn in Hs; unfold at_limit in Hs;
    destruct (l_max (shared c) <=? l_counter (shared c)) eqn:L; rewrite Hs; auto; constructor; cbn; auto.
  - (* the early check passes *)
    eapply Forall2_set_nth_l; eauto. right. reflexivity.
  - (* reservation *)
    apply Forall2_set_nth; auto using kick_ok. reflexivity.
  - rewrite (wsum_set_nth (a := Idle) _) by (apply kick_nth_keep; auto). rewrite wsum_kick. cbn. lia.
  - lia.
Qed.

Lemma run_inv max specs sched :
  let c := run exec sched (limit_threads max specs) in Inv max specs c /\ coded specs c.
Proof.
  apply (run_invariant exec (fun c => Inv max specs c /\ coded specs c)).
  - intros t c [I C]. split; [apply step_inv, I|apply step_coded; [apply I|exact C]].
  - split; [apply init_inv|]. unfold stat. cbn. intros t k H. apply nth_error_In, repeat_spec in H. discriminate.
Qed.

Lemma limit_counter max specs sched :
  0 <= max ->
  let c := run exec sched (limit_threads max specs) in
  l_counter (shared c) = wsum (l_stats (shared c)) /\ 0 <= l_counter (shared c) <= max.
Proof.
  intro H. destruct (run_inv max specs sched) as [[_ _ _ Hcnt Hle] _]. cbn zeta.
  split; [exact Hcnt|]. split; [rewrite Hcnt; apply wsum_nonneg|exact (Hle H)].
Qed.

Lemma limit_bound max specs sched :
  0 <= max -> connected (run exec sched (limit_threads max specs)) <= max.
Proof.
  intro H. destruct (limit_counter max specs sched H) as [Hcnt Hle]. unfold connected.
  pose proof (count_est_le_wsum (l_stats (shared (run exec sched (limit_threads max specs))))). lia.
Qed.

Theorem refused_code max specs sched t k :
  stat t (run exec sched (limit_threads max specs)) = Some (Refused k) ->
  exists sp, nth_error specs t = Some sp /\ k = refusal_code (ts_ver sp).
Proof. apply (run_inv max specs sched). Qed.

Lemma limit_refusal max specs sched t' t k :
  let c := run exec sched (limit_threads max specs) in
  stat t (step exec t' c) = Some (Refused k) -> stat t c <> Some (Refused k) ->
  t' = t /\ max <= l_counter (shared c) /\
  exists sp, nth_error specs t = Some sp /\ k = refusal_code (ts_ver sp).
Proof.
  cbn zeta. intros H1 H0. destruct (refusal_step H1) as [H|H]; [contradiction|].
  destruct (run_inv max specs sched) as [[M S _ _ _] _]. rewrite M, S in H. exact H.
Qed.

(* below the limit an attempt is admitted: the model does not refuse everybody *)
Lemma limit_admits max specs sched t :
  0 <= max ->
  let c := run exec sched (limit_threads max specs) in
  l_counter (shared c) < max ->
  nth_error (threads c) t = Some [Reserve; Decr] -> (t < length specs)%nat ->
  stat t (step exec t c) = Some Established.
Proof.
  intros Hmax. cbn zeta. intros Hlt Hn Ht.
  destruct (run_inv max specs sched) as [[M S Hok _ _] _].
  remember (run exec sched (limit_threads max specs)) as c eqn:Hc. clear Hc.
  destruct (Forall2_nth_error Hok Hn) as (y & Hy & Hoky).
  unfold stat, step, step_thread. rewrite Hn. unfold exec. rewrite S.
  destruct (nth_error specs t) as [sp|] eqn:E; [|apply nth_error_None in E; lia].
  unfold at_limit. rewrite M. destruct (max <=? l_counter (shared c)) eqn:L; [lia|]. cbn.
  destruct y; cbn in Hoky; try discriminate.
  rewrite nth_error_set_nth_eq, (kick_nth_keep _ _ Hy); reflexivity.
Qed.
