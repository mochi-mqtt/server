(* For every schedule of the write loop, the handlers and the publishers: when nothing is left to
   do, the write buffer is empty — every packet handed to WritePacket is on the wire.  The stale
   variant (queue sampled before the lock) is refuted by a concrete schedule. *)
From MV Require Import Base.Val Base.ListMisc Conc.WriteQueue.

Definition will_flush (s : st) : Prop :=
  match cur s with
  | Some (t, c) =>
      match c with
      | CFlushW | CFlushC => True
      | CDecide _ _ => t = O               (* the write loop's decision flushes, or finds the queue non-empty *)
      | CDone => False
      end
  | None => False
  end.

(* a non-empty buffer is owed a flush: by the lock holder, or by the write loop, which still has a packet to write *)
Definition Inv (s : st) : Prop :=
  buf s <> [] -> queue s <> [] \/ wl s <> None \/ will_flush s.

Lemma inv_init q hs : Inv (init q hs).
Proof. intro H. cbn in H. contradiction. Qed.

Lemma inv_keep s s' :
  Inv s -> buf s' = buf s -> queue s' = queue s -> wl s' = wl s -> (will_flush s -> will_flush s') -> Inv s'.
Proof. unfold Inv. intros I -> -> -> F Hb. destruct (I Hb) as [H|[H|H]]; auto. Qed.

Lemma inv_step s a : Inv s -> Inv (step false s a).
Proof.
  intro I. destruct a as [t big | p]; [|intros _; left; cbn; destruct (queue s); discriminate].
  assert (NF : cur s = None \/ (exists h, cur s = Some (h, CDone)) -> will_flush s -> False).
  { unfold will_flush. intros [->|[h ->]] []. }
  unfold step. destruct (cur s) as [[h c]|] eqn:C.
  - destruct (Nat.eqb h t) eqn:E.
    + destruct c as [p sampled| | |]; cbn [exec].
      * (* the decision: the queue is read inside the lock *)
        destruct (is_nil (queue s)) eqn:Q; [destruct (is_nil (buf s)) eqn:B|destruct (is_nil (buf s) && big)];
          intro Hb; cbn in *.
        -- destruct (buf s); [contradiction|discriminate].
        -- right. right. exact Logic.I.
        -- left. destruct (queue s); discriminate.
        -- left. destruct (queue s); discriminate.
      * intros _. right. right. exact Logic.I.
      * intro Hb. contradiction.
      * apply (inv_keep s); eauto. intro F. destruct (NF (or_intror (ex_intro _ h eq_refl)) F).
    + (* the write loop may dequeue while somebody else holds the lock *)
      destruct t as [|i]; [|exact I].
      destruct (wl s) eqn:W; [exact I|]. destruct (queue s) as [|p q] eqn:Q; [exact I|].
      intros _. right. left. discriminate.
  - destruct t as [|i].
    + destruct (wl s) as [p|] eqn:W; [intros _; right; right; reflexivity|].
      destruct (queue s) as [|p q] eqn:Q; [exact I|]. intros _. right. left. discriminate.
    + (* a handler takes the lock (the sampled decision is ignored when stale = false) *)
      destruct (nth_error (pre s) i) as [[[p sample]|]|];
        [|destruct (nth_error (todo s) i) as [[|p rest]|]; try exact I..];
        apply (inv_keep s); auto; intro F; destruct (NF (or_introl eq_refl) F).
Qed.

Theorem inv_run q hs sched : Inv (run false sched (init q hs)).
Proof. unfold run. apply fold_left_invariant; [intros s a; apply inv_step|apply inv_init]. Qed.

Theorem flushed_when_finished q hs sched :
  let s := run false sched (init q hs) in finished s -> buf s = [].
Proof.
  cbn zeta. intros (Hc & Hw & Hq & _).
  pose proof (inv_run q hs sched) as I. unfold Inv in I.
  destruct (buf (run false sched (init q hs))) eqn:B; [reflexivity|].
  exfalso. destruct I as [H|[H|H]]; [discriminate|contradiction|contradiction|].
  unfold will_flush in H. rewrite Hc in H. exact H.
Qed.

(* With the queue sampled before the lock is taken the statement is false: one queued publish, one
   response; the handler samples "queue not empty", the write loop drains and writes, then the
   handler buffers its response for a flush that never comes. *)
Example stale_strands :
  let s := run true [AStep 1 false;                                               (* handler samples: queue not empty *)
                     AStep 0 false; AStep 0 false; AStep 0 false; AStep 0 false;  (* write loop drains and writes *)
                     AStep 1 false; AStep 1 false; AStep 1 false]                 (* handler buffers, nobody flushes *)
               (init [[7]] [[[8]]]) in
  finished s /\ buf s = [8] /\ conn s = [7].
Proof. vm_compute. repeat split; repeat constructor. Qed.

(* with the queue read inside the lock a response buffered behind a queued publish is flushed by
   the write loop when it writes that publish *)
Example fresh_flushes :
  let s := run false [AStep 1 false; AStep 1 false; AStep 1 false;
                      AStep 0 false; AStep 0 false; AStep 0 false; AStep 0 false; AStep 0 false; AStep 0 false]
               (init [[7]] [[[8]]]) in
  finished s /\ buf s = [] /\ conn s = [8; 7].
Proof. vm_compute. repeat split; repeat constructor. Qed.
