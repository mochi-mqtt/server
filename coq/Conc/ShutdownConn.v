(* C36 — proofs about Conc/Shutdown.v (the current code, [exec = exec_gen Current]), part 1: the
   invariant of a single connection and what every instruction does to it. *)
From MV Require Import Base.Val Base.Sched Conc.Shutdown.
Open Scope Z_scope.

(* The invariant of one connection is boolean, so that its preservation can be checked by enumeration. *)

Definition imp (a b : bool) : bool := negb a || b.

Definition closed_phase (p : phase) : bool :=
  match p with PDone | PRefused | PReset | PDropped => true | _ => false end.

(* sn = the closer has taken its snapshot, dc = it has disconnected the snapshot,
   pu = Wait has returned and no spawned handler was unstarted at that moment *)
(* part 1 — closing: depends on the phase, [c_closed], [c_insnap] only *)
Definition conn_ok1 (sn dc pu : bool) (c : conn) : bool :=
  imp (closed_phase (c_phase c)) (c_closed c) &&
  imp (sn && phase_eqb (c_phase c) PServing) (c_insnap c) &&
  imp (dc && c_insnap c) (c_closed c) &&
  imp pu (negb (live c)).

(* part 2 — what the client was sent: depends on the phase, [c_closed], [c_left], [c_connack],
   [c_disc], [c_wfail] only.  A connected client that the broker closed was sent the DISCONNECT
   unless the write failed. *)
Definition conn_ok2 (c : conn) : bool :=
  imp (phase_eqb (c_phase c) PServing && c_closed c) (c_disc c || c_wfail c) &&
  imp (phase_eqb (c_phase c) PDone && c_connack c && negb (c_left c)) (c_disc c || c_wfail c) &&
  imp (c_connack c) (phase_eqb (c_phase c) PServing || phase_eqb (c_phase c) PDone).

Definition conn_ok (sn dc pu : bool) (c : conn) : bool := conn_ok1 sn dc pu c && conn_ok2 c.

(* Enumeration.  A connection is a protocol version, one of twelve phases and eight flags.  The invariant looks
   neither at the version nor at [c_sent] and [c_wexc], so a boolean fact about one connection is
   decided by evaluating it on the 12 * 2^6 records with arbitrary version [v], [c_sent] = s and
   [c_wexc] = w (on 2^6 when the phase is given); the few facts that do look at s and w split them. *)
Definition all_bool (P : bool -> bool) : bool := P true && P false.

Definition all_flags (v : N) (p : phase) (s w : bool) (P : conn -> bool) : bool :=
  all_bool (fun a => all_bool (fun b => all_bool (fun c => all_bool (fun d => all_bool (fun e =>
  all_bool (fun g => P (mkConn v p a b c d e s g w))))))).

Definition all_conns (v : N) (s w : bool) (P : conn -> bool) : bool :=
  forallb (fun p => all_flags v p s w P)
    [PNone; PPending; PRefused; PReset; PCur; PDropped; PSpawned; PWait; PAdded; PInClients; PServing; PDone].

Lemma all_bool_spec P b : all_bool P = true -> P b = true.
Proof. unfold all_bool. intro H. apply andb_prop in H. destruct b; tauto. Qed.

Lemma all_flags_spec (P : conn -> bool) p :
  (forall v s w, all_flags v p s w P = true) -> forall c, c_phase c = p -> P c = true.
Proof.
  intros H [v p' a b c d e s g w] E. cbn in E. subst p'. specialize (H v s w). unfold all_flags in H.
  apply (all_bool_spec _ a), (all_bool_spec _ b), (all_bool_spec _ c), (all_bool_spec _ d),
        (all_bool_spec _ e), (all_bool_spec _ g) in H. exact H.
Qed.

Lemma all_conns_spec (P : conn -> bool) : (forall v s w, all_conns v s w P = true) -> forall c, P c = true.
Proof.
  intros H c. apply (all_flags_spec P (c_phase c)); [|reflexivity].
  intros v s w. specialize (H v s w). unfold all_conns in H. rewrite forallb_forall in H. apply H.
  destruct (c_phase c); cbn; tauto.
Qed.

Lemma imp_true a b : imp a b = true -> a = true -> b = true.
Proof. intros H ->. exact H. Qed.

Lemma imp_false a b : imp (negb a) b = true -> a = false -> b = true.
Proof. intros H ->. exact H. Qed.

(* The goal is [H1 -> .. -> Hn -> g = true] about one connection [c], each [Hi] of the form [a = true] or
   [a = false], except possibly [c_phase c = p]: fold the hypotheses into the goal, split the closer's
   flags, and evaluate on every record (of phase [p]). *)
Ltac conn_cases :=
  intros;
  repeat match goal with H : _ = _ |- _ = true => revert H; first [apply imp_true | apply imp_false] end;
  repeat match goal with b : bool |- _ => destruct b end;
  lazymatch goal with
  | P : c_phase ?c = _ |- _ => revert c P; apply all_flags_spec
  | c : conn |- _ => revert c; apply all_conns_spec
  end;
  intros v s w; vm_compute; first [reflexivity | destruct s, w; reflexivity].

(* [pu] only occurs in the last clause of [conn_ok1] *)
Lemma conn_ok_pu sn dc pu c : conn_ok sn dc pu c = conn_ok sn dc false c && imp pu (negb (live c)).
Proof.
  unfold conn_ok, conn_ok1. cbn [imp negb orb]. rewrite andb_true_r, <- !andb_assoc.
  do 3 f_equal. apply andb_comm.
Qed.

Lemma ok_weaken sn dc c : conn_ok sn dc true c = true -> conn_ok sn dc false c = true.
Proof. rewrite (conn_ok_pu sn dc true). intro H. apply andb_prop in H. apply H. Qed.

Lemma ok_strengthen sn dc c : conn_ok sn dc false c = true -> live c = false -> conn_ok sn dc true c = true.
Proof. intros H L. rewrite conn_ok_pu, H, L. reflexivity. Qed.

Lemma ok_pu_live sn dc c : conn_ok sn dc true c = true -> live c = false.
Proof. rewrite conn_ok_pu. intro H. apply andb_prop in H. apply negb_true_iff, H. Qed.

Lemma ok_snapshot pu c : conn_ok false false pu c = true -> conn_ok true false pu (take_snapshot c) = true.
Proof. conn_cases. Qed.

Lemma ok_disconnect pu c : conn_ok true false pu c = true -> conn_ok true true pu (disconnect Current c) = true.
Proof. conn_cases. Qed.

Lemma ok_reset sn dc pu c : conn_ok sn dc pu c = true -> conn_ok sn dc pu (reset_pending c) = true.
Proof.
  unfold reset_pending. destruct (c_phase c) eqn:E; auto. revert E. conn_cases.
Qed.

Lemma ok_refused sn dc pu c :
  c_phase c = PNone -> conn_ok sn dc pu c = true -> conn_ok sn dc pu (set_closed (set_phase PRefused c)) = true.
Proof. conn_cases. Qed.

Lemma ok_pending sn dc pu c :
  c_phase c = PNone -> conn_ok sn dc pu c = true -> conn_ok sn dc pu (set_phase PPending c) = true.
Proof. conn_cases. Qed.

(* [c_left] only occurs, negated, in a premise of [conn_ok2] *)
Lemma ok_left sn dc pu c : conn_ok sn dc pu c = true -> conn_ok sn dc pu (set_left c) = true.
Proof.
  unfold conn_ok. change (conn_ok1 sn dc pu (set_left c)) with (conn_ok1 sn dc pu c).
  intro H. apply andb_prop in H. destruct H as [-> H]. revert H. unfold conn_ok2.
  cbn [set_left c_phase c_closed c_left c_connack c_disc c_wfail negb andb]. rewrite andb_false_r.
  destruct (imp (phase_eqb (c_phase c) PServing && c_closed c) (c_disc c || c_wfail c)); [|discriminate].
  cbn. intro H. apply andb_prop in H. apply H.
Qed.

Lemma ok_cur sn dc pu c :
  c_phase c = PPending -> conn_ok sn dc pu c = true -> conn_ok sn dc pu (set_phase PCur c) = true.
Proof. conn_cases. Qed.

Lemma ok_dropped sn dc pu c :
  c_phase c = PCur -> conn_ok sn dc pu c = true -> conn_ok sn dc pu (set_closed (set_phase PDropped c)) = true.
Proof. conn_cases. Qed.

Lemma ok_spawned sn dc c :
  c_phase c = PCur -> conn_ok sn dc false c = true -> conn_ok sn dc false (set_phase PSpawned c) = true.
Proof. conn_cases. Qed.

Lemma ok_wait sn dc pu c :
  c_phase c = PSpawned -> conn_ok sn dc pu c = true -> conn_ok sn dc pu (set_phase PWait c) = true.
Proof. conn_cases. Qed.

Lemma ok_added sn dc pu c :
  c_phase c = PWait -> conn_ok sn dc pu c = true -> conn_ok sn dc pu (set_phase PAdded c) = true.
Proof. conn_cases. Qed.

(* the invariant does not look at [c_sent] *)
Lemma ok_sent sn dc pu c : conn_ok sn dc pu c = true -> conn_ok sn dc pu (set_sent c) = true.
Proof. exact (fun H => H). Qed.

Lemma ok_read_failed sn dc pu c :
  c_phase c = PWait -> conn_ok sn dc pu c = true -> conn_ok sn dc false (set_closed (set_phase PDone c)) = true.
Proof. conn_cases. Qed.

Lemma ok_inclients sn dc pu c :
  c_phase c = PAdded -> conn_ok sn dc pu c = true -> conn_ok sn dc pu (set_phase PInClients c) = true.
Proof. conn_cases. Qed.

Lemma ok_refuse_done sn dc pu c :
  c_phase c = PInClients -> conn_ok sn dc pu c = true -> conn_ok sn dc false (set_closed (set_phase PDone c)) = true.
Proof. conn_cases. Qed.

(* sn = dc = false: the handler sends the CONNACK only after its [done] check following Clients.Add found that Close
   has not started (HConnack); a connection that became PServing later could miss the closer's snapshot *)
Lemma ok_serving pu c :
  c_phase c = PInClients -> c_closed c = false ->
  conn_ok false false pu c = true -> conn_ok false false pu (set_connack (set_phase PServing c)) = true.
Proof. conn_cases. Qed.

Lemma ok_teardown sn dc pu c :
  c_phase c = PServing -> c_closed c || c_left c = true ->
  conn_ok sn dc pu c = true -> conn_ok sn dc false (set_closed (set_phase PDone c)) = true.
Proof. conn_cases. Qed.

Lemma ok_counted_not_quiet pu c :
  conn_ok true true pu c = true -> counted c = true -> handler_quiet c = true -> silent c = false -> False.
Proof. intros. apply diff_false_true. conn_cases. Qed.

Lemma ok_quiet_closed pu c :
  conn_ok true true pu c = true -> handler_quiet c = true -> silent c = false -> undelivered c = false ->
  c_phase c <> PPending -> c_phase c <> PCur ->
  conn_closed_ok c = true /\ live c = false.
Proof.
  intros OK Q S U NP NC. rewrite <- negb_true_iff, <- andb_true_iff.
  assert (NP' : phase_eqb (c_phase c) PPending = false) by (destruct (c_phase c) eqn:E; cbn; congruence).
  assert (NC' : phase_eqb (c_phase c) PCur = false) by (destruct (c_phase c) eqn:E; cbn; congruence).
  clear NP NC. unfold conn_closed_ok, undelivered, owed_disconnect in *.
  (* the version matters only through this test *)
  destruct (c_ver c =? 5)%N; conn_cases.
Qed.
