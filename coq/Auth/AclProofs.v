(* Proofs for C17 over the routing model of Auth/Acl.v: an invariant of [astep] for ALL permission
   relations, matching relations, filter-validity / shared-filter predicates, share-group oracles and
   histories (incl. takeover, expiry, topic aliases, QoS 2, shared subscriptions, No-Local); plus the
   lemmas for the server-level clause of C30 (invalid filter: 0x8F / 0x80, nothing created, nothing
   delivered). *)
From MV Require Import Base.Val Base.BytesEq Topics.Levels Topics.Match Hooks.Chain Auth.Acl.
From Coq Require Import Lia Permutation.
Open Scope N_scope.

Lemma beq_bytes_true (a b : bytes) : beq_bytes a b = true -> a = b.
Proof. apply beq_bytes_eq. Qed.

Lemma Forall_remove_key {A} (P : bytes * A -> Prop) (k : bytes) (l : list (bytes * A)) :
  Forall P l -> Forall P (remove_key k l).
Proof.
  induction 1 as [|[k' v] l Hx Hl IH]; cbn; [constructor|].
  destruct (beq_bytes k k'); [exact IH | constructor; assumption].
Qed.

Lemma assoc_In {A} (k : bytes) (l : list (bytes * A)) (v : A) : assoc k l = Some v -> In (k, v) l.
Proof.
  induction l as [|[k' v'] l IH]; cbn; [discriminate|].
  destruct (beq_bytes k k') eqn:E.
  - intro H. injection H as ->. apply beq_bytes_eq in E. subst k'. left; reflexivity.
  - intro H. right. apply IH, H.
Qed.

Lemma Forall_filter {A} (P : A -> Prop) (f : A -> bool) (l : list A) : Forall P l -> Forall P (filter f l).
Proof. induction 1; cbn; [constructor|]. destruct (f x); [constructor|]; assumption. Qed.

Lemma alias_get_In (a : N) (l : list (N * bytes)) (t : bytes) : alias_get a l = Some t -> In (a, t) l.
Proof.
  induction l as [|[k t'] l IH]; cbn; [discriminate|].
  destruct (a =? k) eqn:E; [intro H; injection H as ->; apply N.eqb_eq in E; subst k; left; reflexivity|].
  intro H. right. apply IH, H.
Qed.

Lemma insert_all_perm {A} (x : A) (l y : list A) : In y (insert_all x l) -> Permutation (x :: l) y.
Proof.
  revert y; induction l as [|z r IH]; intros y Hin; cbn in Hin.
  - destruct Hin as [<-|[]]. apply Permutation_refl.
  - destruct Hin as [<-|Hin]; [apply Permutation_refl|].
    apply in_map_iff in Hin. destruct Hin as (y' & <- & Hy).
    eapply Permutation_trans; [apply perm_swap|]. apply perm_skip, IH, Hy.
Qed.

(* every order the engine tries for the delayed-will table is a permutation of it *)
Lemma perms_perm {A} (l p : list A) : In p (perms l) -> Permutation l p.
Proof.
  revert p; induction l as [|x r IH]; intros p Hin; cbn in Hin.
  - destruct Hin as [<-|[]]. constructor.
  - apply in_flat_map in Hin. destruct Hin as (q & Hq & Hp).
    eapply Permutation_trans; [apply perm_skip, IH, Hq | apply insert_all_perm, Hp].
Qed.

Definition quiet (evs : list (client * aev)) : bool :=
  forallb (fun e => match snd e with ADeliver _ => false | _ => true end) evs.

Section Proofs.
Variable perm : client -> bytes -> bool -> bool.
Variable matches : bytes -> bytes -> bool.
Variable valid_filter : bytes -> bool.
Variable is_shared : bytes -> bool.
Variable eff : bytes -> bytes.

Local Notation msg_ok := (msg_ok perm).
Local Notation eff_of := (eff_of is_shared eff).
Local Notation justified := (justified perm matches valid_filter is_shared eff).
Local Notation deliveries_ok := (deliveries_ok perm matches valid_filter is_shared eff).
Local Notation matching := (matching matches is_shared eff).
Local Notation fanout := (fanout perm matches is_shared eff).
Local Notation route := (route perm matches is_shared eff).
Local Notation publish_will := (publish_will perm matches is_shared eff).
Local Notation send_will := (send_will perm matches is_shared eff).
Local Notation close_with_will := (close_with_will perm matches is_shared eff).
Local Notation sub_codes := (sub_codes perm valid_filter is_shared).
Local Notation replay_one := (replay_one perm matches is_shared).
Local Notation replay_granted := (replay_granted perm matches is_shared).
Local Notation fire := (fire perm matches is_shared eff).
Local Notation astep := (astep perm matches valid_filter is_shared eff).
Local Notation arun := (arun perm matches valid_filter is_shared eff).

Definition oracle := bytes -> client -> bool.

Definition sub_ok (e : subent) : Prop :=
  valid_filter (se_filter e) = true /\ perm (fst e) (se_filter e) false = true.
Definition queued_ok (c : client) (m : msg) : Prop :=
  perm c (m_topic m) false = true /\ msg_ok m /\ justified c m.
Definition will_ok (w : option will) : Prop :=
  match w with Some w' => valid_pub_topic (w_topic w') = true | None => True end.
(* every inbound alias of a connection is bound to a topic its client may publish to *)
Definition alias_ok (c : client) (e : N * bytes) : Prop :=
  perm c (snd e) true = true /\ valid_pub_topic (snd e) = true.
Definition sess_ok (e : client * sess) : Prop :=
  Forall (queued_ok (fst e)) (c_queue (snd e)) /\ will_ok (c_will (snd e)) /\
  Forall (alias_ok (fst e)) (c_alias (snd e)).
Definition ret_ok (e : bytes * msg) : Prop := fst e = m_topic (snd e) /\ msg_ok (snd e).
Definition del_ok (e : client * msg) : Prop := msg_ok (snd e).

Definition inv (st : ast) : Prop :=
  Forall sub_ok (a_subs st) /\ Forall ret_ok (a_ret st) /\ Forall sess_ok (a_cl st) /\ Forall del_ok (a_delayed st).

Lemma inv_init : inv a_init.
Proof. repeat split; constructor. Qed.

(* the order of the delayed-will table (a Go map) is immaterial to the invariant *)
Lemma inv_delayed_perm (st : ast) (d : list (client * msg)) :
  Permutation (a_delayed st) d -> inv st -> inv (mkAst (a_cl st) (a_subs st) (a_ret st) d).
Proof.
  intros Hp (Hs & Hr & Hc & Hd). repeat split; cbn; try assumption.
  exact (Permutation_Forall Hp Hd).
Qed.

Lemma quiet_ok (evs : list (client * aev)) : quiet evs = true -> deliveries_ok evs.
Proof.
  intros Q c m Hin. unfold quiet in Q. rewrite forallb_forall in Q. specialize (Q _ Hin). discriminate Q.
Qed.

Lemma deliveries_ok_nil : deliveries_ok [].
Proof. exact (quiet_ok [] eq_refl). Qed.

Lemma deliveries_ok_app (a b : list (client * aev)) : deliveries_ok a -> deliveries_ok b -> deliveries_ok (a ++ b).
Proof. intros Ha Hb c m Hin. apply in_app_or in Hin. destruct Hin; [apply Ha | apply Hb]; assumption. Qed.

Lemma deliveries_ok_cons_other (x : client * aev) (l : list (client * aev)) :
  (forall m, snd x <> ADeliver m) -> deliveries_ok l -> deliveries_ok (x :: l).
Proof.
  intros Hx. apply (deliveries_ok_app [x]). apply quiet_ok. destruct x as [c []]; try reflexivity. destruct (Hx _ eq_refl).
Qed.

Lemma deliveries_ok_acks (cl : client) (l : list N) (f : N -> aev) :
  (forall p m, f p <> ADeliver m) -> deliveries_ok (map (fun p => (cl, f p)) l).
Proof.
  intros Hf c m Hin. apply in_map_iff in Hin. destruct Hin as (p & E & _). injection E as _ E.
  exfalso. apply (Hf p m E).
Qed.

(* a step that leaves the state alone and delivers nothing *)
Lemma unchanged (st : ast) (evs : list (client * aev)) : inv st -> quiet evs = true -> inv st /\ deliveries_ok evs.
Proof. intros Hi Q. split; [exact Hi | exact (quiet_ok evs Q)]. Qed.

(* quiet events in front of a result *)
Lemma after_quiet (pre : list (client * aev)) (r : ast * list (client * aev)) : quiet pre = true ->
  inv (fst r) /\ deliveries_ok (snd r) -> inv (fst r) /\ deliveries_ok (pre ++ snd r).
Proof. intros Q [H1 H2]. split; [exact H1 | exact (deliveries_ok_app _ _ (quiet_ok pre Q) H2)]. Qed.

Lemma inv_sess (st : ast) (c : client) (s : sess) : inv st -> In (c, s) (a_cl st) -> sess_ok (c, s).
Proof. intros (_ & _ & Hc & _) Hin. rewrite Forall_forall in Hc. exact (Hc _ Hin). Qed.

Lemma inv_of cls subs ret d :
  Forall sub_ok subs -> Forall ret_ok ret -> Forall sess_ok cls -> Forall del_ok d -> inv (mkAst cls subs ret d).
Proof. intros. repeat split; assumption. Qed.

Lemma matching_justifies (sel : oracle) (subs : list subent) (c : client) (t : bytes) e es :
  Forall sub_ok subs -> matching sel subs c t = e :: es ->
  exists f, valid_filter f = true /\ perm c f false = true /\ matches (eff_of f) t = true.
Proof.
  intros Hs Hm.
  assert (Hin : In e (matching sel subs c t)) by (rewrite Hm; left; reflexivity).
  unfold Acl.matching in Hin. apply filter_In in Hin. destruct Hin as [Hin Hc].
  apply andb_prop in Hc. destruct Hc as [Hc1 Hc2]. apply beq_bytes_eq in Hc1.
  rewrite Forall_forall in Hs. destruct (Hs e Hin) as [Hv Hp].
  exists (se_filter e). rewrite <- Hc1. split; [exact Hv|]. split; [exact Hp|].
  unfold sub_hits in Hc2. unfold Acl.eff_of. destruct (is_shared (se_filter e)); [|exact Hc2].
  apply andb_prop in Hc2. tauto.
Qed.

Lemma fanout_ok (sel : oracle) (subs : list subent) (m : msg) (cls : list (client * sess)) :
  Forall sub_ok subs -> msg_ok m -> Forall sess_ok cls ->
  Forall sess_ok (fst (fanout sel subs m cls)) /\ deliveries_ok (snd (fanout sel subs m cls)).
Proof.
  intros Hs Hm. induction 1 as [|[c s] r Hx Hr IH]; cbn [Acl.fanout].
  - split; [constructor | apply quiet_ok; reflexivity].
  - destruct (fanout sel subs m r) as [r' evs]. cbn [fst snd] in IH. destruct IH as [IH1 IH2].
    assert (Same : Forall sess_ok ((c, s) :: r') /\ deliveries_ok evs) by (split; [constructor|]; assumption).
    destruct (matching sel subs c (m_topic m)) as [|e es] eqn:Em; [exact Same|].
    destruct (existsb se_nl (e :: es) && origin_is c m); [exact Same|].
    destruct (perm c (m_topic m) false) eqn:Hp; cbn [negb]; [|exact Same].
    assert (Hq : queued_ok c m).
    { split; [exact Hp|]. split; [exact Hm | exact (matching_justifies sel subs c (m_topic m) e es Hs Em)]. }
    destruct (c_online s).
    + cbn [fst snd]. split; [exact (proj1 Same)|].
      intros c' m' [E|Hin]; [injection E as <- <-; exact Hq | exact (IH2 c' m' Hin)].
    + destruct (0 <? N.min (m_qos m) (maxq (e :: es))); [|exact Same].
      cbn [fst snd]. split; [|exact IH2]. constructor; [|exact IH1].
      destruct Hx as (Hqs & Hw & Ha). split; [|split; [exact Hw | exact Ha]]. cbn [fst snd enqueue c_queue] in *.
      apply Forall_app. split; [exact Hqs | constructor; [exact Hq | constructor]].
Qed.

Lemma retain_ok (ret : list (bytes * msg)) (m : msg) : Forall ret_ok ret -> msg_ok m -> Forall ret_ok (retain ret m).
Proof.
  intros Hr Hm. unfold retain. destruct (nilb (m_payload m)).
  - apply Forall_remove_key, Hr.
  - constructor; [split; [reflexivity | exact Hm] | apply Forall_remove_key, Hr].
Qed.

Lemma route_ok (sel : oracle) (st : ast) (m : msg) :
  inv st -> msg_ok m -> inv (fst (route sel st m)) /\ deliveries_ok (snd (route sel st m)).
Proof.
  intros Hi Hm. pose proof Hi as (Hs & Hr & Hc & _). unfold Acl.route.
  destruct (fanout_ok sel (a_subs st) m (a_cl st) Hs Hm Hc) as [Hf1 Hf2].
  destruct (fanout sel (a_subs st) m (a_cl st)) as [cls' evs]. cbn [fst snd] in *.
  split; [|exact Hf2]. apply inv_of; try assumption; [|exact (proj2 (proj2 (proj2 Hi)))].
  destruct (m_retain m); [apply retain_ok; assumption | exact Hr].
Qed.

Lemma end_session_ok (st : ast) (cl : client) : inv st -> inv (end_session st cl).
Proof.
  intros Hi. pose proof Hi as (Hs & Hr & Hc & Hd). unfold end_session.
  destruct (assoc cl (a_cl st)) as [s|] eqn:Ea; [|exact Hi].
  destruct (c_persist s).
  - apply inv_of; try assumption. constructor; [|apply Forall_remove_key, Hc].
    destruct (inv_sess st cl s Hi (assoc_In _ _ _ Ea)) as (Hq & _).
    split; [exact Hq | split; [exact I | constructor]].
  - apply inv_of; try assumption; apply Forall_remove_key; assumption.
Qed.

Lemma publish_will_ok (sel : oracle) (st : ast) (cl : client) (w : option will) :
  inv st -> inv (fst (publish_will sel st cl w)) /\ deliveries_ok (snd (publish_will sel st cl w)).
Proof.
  intro Hi. unfold Acl.publish_will.
  destruct w as [w|]; [|exact (unchanged st [] Hi eq_refl)].
  destruct (valid_pub_topic (w_topic w) && perm cl (w_topic w) true) eqn:Ec; [|exact (unchanged st [] Hi eq_refl)].
  apply andb_prop in Ec. destruct Ec as [Ev Ep].
  assert (Hm : msg_ok (mkM (Some cl) (w_topic w) (w_payload w) (w_qos w) (w_retain w))) by (cbn; split; assumption).
  destruct (w_delay w); [|apply route_ok; assumption].
  destruct Hi as (Hs & Hr & Hc & Hd). refine (unchanged _ [] _ eq_refl). apply inv_of; try assumption.
  constructor; [exact Hm | apply Forall_remove_key, Hd].
Qed.

Lemma send_will_ok (sel : oracle) (st : ast) (cl : client) :
  inv st -> inv (fst (send_will sel st cl)) /\ deliveries_ok (snd (send_will sel st cl)).
Proof.
  intro Hi. unfold Acl.send_will.
  destruct (assoc cl (a_cl st)) as [s|]; [apply publish_will_ok, Hi | exact (unchanged st [] Hi eq_refl)].
Qed.

Lemma close_with_will_ok (sel : oracle) (st : ast) (cl : client) :
  inv st -> inv (fst (close_with_will sel st cl)) /\ deliveries_ok (snd (close_with_will sel st cl)).
Proof.
  intro Hi. unfold Acl.close_with_will. destruct (send_will_ok sel st cl Hi) as [H1 H2].
  destruct (send_will sel st cl) as [st1 evs]. cbn [fst snd] in *.
  exact (after_quiet [(cl, AClosed)] (end_session st1 cl, evs) eq_refl (conj (end_session_ok st1 cl H1) H2)).
Qed.

(* the reason codes of a SUBSCRIBE, filter by filter *)
Definition code_of (ver : N) (ob : bool) (cl : client) (f : bytes) (q : N) (nl : bool) : N :=
  if negb (valid_filter f) then v3map ver 143
  else if nl && is_shared f then v3map ver 130
  else if negb (perm cl f false) then v3map ver (if ob then 128 else 135) else v3map ver q.

(* a SUBSCRIBE is answered filter by filter, and grants the valid, permitted filters *)
Definition grantable (cl : client) (e : bytes * (N * bool)) : bool :=
  valid_filter (fst e) && negb (snd (snd e) && is_shared (fst e)) && perm cl (fst e) false.

Lemma sub_codes_eq (ver : N) (ob : bool) (cl : client) (fs : list (bytes * (N * bool))) :
  sub_codes ver ob cl fs =
  (map (fun e => code_of ver ob cl (fst e) (fst (snd e)) (snd (snd e))) fs, filter (grantable cl) fs).
Proof.
  induction fs as [|[f [q nl]] r IH]; cbn [Acl.sub_codes map filter fst snd]; [reflexivity|].
  rewrite IH. unfold code_of, grantable. cbn [fst snd].
  destruct (valid_filter f); cbn [negb andb]; [|reflexivity].
  destruct (nl && is_shared f); cbn [negb andb]; [reflexivity|]. destruct (perm cl f false); reflexivity.
Qed.

Lemma sub_codes_granted (ver : N) (ob : bool) (cl : client) (fs : list (bytes * (N * bool))) :
  forall f o, In (f, o) (snd (sub_codes ver ob cl fs)) -> valid_filter f = true /\ perm cl f false = true.
Proof.
  intros f o H. rewrite sub_codes_eq in H. apply filter_In in H. destruct H as [_ H].
  unfold grantable in H. cbn [fst] in H. apply andb_prop in H. destruct H as [H Hp]. apply andb_prop in H.
  split; [exact (proj1 H)|exact Hp].
Qed.

Lemma add_sub_ok (cl : client) (gr : list (bytes * (N * bool))) (subs : list subent) :
  Forall sub_ok subs -> (forall f o, In (f, o) gr -> valid_filter f = true /\ perm cl f false = true) ->
  Forall sub_ok (add_sub cl gr subs).
Proof.
  revert subs. induction gr as [|[f o] r IH]; intros subs Hs Hg; cbn [add_sub]; [exact Hs|].
  apply IH.
  - constructor; [apply (Hg f o); left; reflexivity | apply Forall_filter, Hs].
  - intros f' o' Hin. apply (Hg f' o'). right; exact Hin.
Qed.

Lemma replay_one_ok (cl : client) (f : bytes) (nl : bool) (ret : list (bytes * msg)) :
  valid_filter f = true -> perm cl f false = true -> Forall ret_ok ret -> deliveries_ok (replay_one cl f nl ret).
Proof.
  intros Hv Hp Hr c m Hin. unfold Acl.replay_one in Hin.
  destruct (is_shared f) eqn:Esh; [destruct Hin|].
  apply in_map_iff in Hin.
  destruct Hin as (e & E & Hin). injection E as <- <-. apply filter_In in Hin. destruct Hin as [Hin Hc].
  apply andb_prop in Hc. destruct Hc as [Hc Hrd]. apply andb_prop in Hc. destruct Hc as [Hm _].
  rewrite Forall_forall in Hr. destruct (Hr e Hin) as [Hk Hok]. rewrite Hk in Hm, Hrd.
  split; [exact Hrd|]. split; [exact Hok|]. exists f. unfold Acl.eff_of. rewrite Esh. auto.
Qed.

Lemma replay_granted_ok (cl : client) (gr : list (bytes * (N * bool))) (ret : list (bytes * msg)) :
  (forall f o, In (f, o) gr -> valid_filter f = true /\ perm cl f false = true) -> Forall ret_ok ret ->
  deliveries_ok (replay_granted cl gr ret).
Proof.
  intros Hg Hr. induction gr as [|[f o] r IH]; cbn; [apply quiet_ok; reflexivity|].
  apply deliveries_ok_app.
  - destruct (Hg f o (or_introl eq_refl)) as [Hv Hp]. apply replay_one_ok; assumption.
  - apply IH. intros f' o' Hin. apply (Hg f' o'). right; exact Hin.
Qed.

Lemma clear_will_ok (cls : list (client * sess)) (c : client) : Forall sess_ok cls -> Forall sess_ok (clear_will cls c).
Proof.
  induction 1 as [|[k s] l Hx Hl IH]; cbn; [constructor|]. constructor; [|exact IH].
  destruct (beq_bytes k c); [|exact Hx].
  destruct Hx as (Hq & _ & Ha). split; [exact Hq | split; [exact I | exact Ha]].
Qed.

Lemma fire_ok (sel : oracle) (ds : list (client * msg)) : forall st, inv st -> Forall del_ok ds ->
  inv (fst (fire sel st ds)) /\ deliveries_ok (snd (fire sel st ds)).
Proof.
  induction ds as [|[c m] r IH]; intros st Hi Hd; cbn [Acl.fire]; [exact (unchanged st [] Hi eq_refl)|].
  inversion Hd as [|x l Hm Hr]; subst. cbn in Hm. pose proof Hi as (Hs & Hrt & Hc & Hdl).
  destruct (fanout_ok sel (a_subs st) m (a_cl st) Hs Hm Hc) as [Hf1 Hf2].
  destruct (fanout sel (a_subs st) m (a_cl st)) as [cls' evs]. cbn [fst snd] in Hf1, Hf2.
  set (ret' := match assoc c (a_cl st) with
               | Some _ => if m_retain m then retain (a_ret st) m else a_ret st
               | None => a_ret st end).
  assert (Hret : Forall ret_ok ret').
  { unfold ret'. destruct (assoc c (a_cl st)); [|exact Hrt].
    destruct (m_retain m); [apply retain_ok; assumption | exact Hrt]. }
  assert (H1 : inv (mkAst (clear_will cls' c) (a_subs st) ret' (a_delayed st))).
  { apply inv_of; try assumption. apply clear_will_ok, Hf1. }
  specialize (IH _ H1 Hr).
  destruct (fire sel (mkAst (clear_will cls' c) (a_subs st) ret' (a_delayed st)) r) as [st' evs'].
  cbn [fst snd] in *. destruct IH as [IH1 IH2].
  split; [exact IH1 | apply deliveries_ok_app; assumption].
Qed.

Lemma online_In (st : ast) (cl : client) (s : sess) : online st cl = Some s -> In (cl, s) (a_cl st).
Proof.
  unfold online. destruct (assoc cl (a_cl st)) as [s'|] eqn:E; [|discriminate].
  destruct (c_online s'); [|discriminate]. intro H. injection H as <-. apply assoc_In, E.
Qed.

Lemma set_sess_ok (st : ast) (cl : client) (s : sess) : inv st -> sess_ok (cl, s) -> inv (set_sess st cl s).
Proof.
  intros (Hs & Hr & Hc & Hd) Hx. apply inv_of; try assumption.
  constructor; [exact Hx | apply Forall_remove_key, Hc].
Qed.

Theorem astep_ok (ob : bool) (sel : oracle) (st : ast) (o : aop) :
  inv st -> inv (fst (astep ob sel st o)) /\ deliveries_ok (snd (astep ob sel st o)).
Proof.
  intro Hi. pose proof Hi as (Hs & Hr & Hc & Hd).
  destruct o as [cl ver clean w|cl|cl|cl|cl topic payload qos rt pid alias|cl pid|cl pid fs|topic payload rt| |];
    cbn [Acl.astep].
  - (* connect, also over a live connection *)
    destruct (match w with Some w' => negb (valid_pub_topic (w_topic w')) | None => false end) eqn:Ew;
      [apply (unchanged st _ Hi); reflexivity|].
    set (sp := match assoc cl (a_cl st) with
               | Some s => negb clean && negb (negb (c_persist s) && (c_ver s <? 5)) | None => false end).
    set (queue := match assoc cl (a_cl st) with Some s => if sp then c_queue s else [] | None => [] end).
    set (inq2 := match assoc cl (a_cl st) with Some s => if sp then c_inq2 s else [] | None => [] end).
    set (st1 := mkAst ((cl, mkC ver true (negb clean) w [] [] inq2) :: remove_key cl (a_cl st))
                      (if sp then a_subs st else remove_key cl (a_subs st)) (a_ret st) (remove_key cl (a_delayed st))).
    set (evs1 := (cl, AConnack true sp) :: map (fun m => (cl, ADeliver m)) queue
                 ++ map (fun pid => (cl, AAck T_PUBREC pid 0)) inq2).
    assert (H1 : inv st1).
    { repeat split; cbn [st1 a_subs a_ret a_cl a_delayed].
      - destruct sp; [exact Hs | apply Forall_remove_key, Hs].
      - exact Hr.
      - constructor; [|apply Forall_remove_key, Hc]. split; cbn; [constructor|]. split; [|constructor].
        destruct w as [w'|]; cbn; [|exact I]. cbn in Ew. destruct (valid_pub_topic (w_topic w')); [reflexivity | discriminate].
      - apply Forall_remove_key, Hd. }
    assert (H2 : deliveries_ok evs1).
    { (* the messages kept for the session while it was offline were checked when they were queued *)
      apply (deliveries_ok_app [_]); [apply quiet_ok; reflexivity|]. apply deliveries_ok_app.
      - unfold queue. destruct (assoc cl (a_cl st)) as [s|] eqn:Ea; [|apply quiet_ok; reflexivity].
        destruct sp; [|apply quiet_ok; reflexivity].
        destruct (inv_sess st cl s Hi (assoc_In _ _ _ Ea)) as [Hq _]. cbn in Hq. rewrite Forall_forall in Hq.
        intros c m Hin. apply in_map_iff in Hin. destruct Hin as (m' & E & Hin). injection E as <- <-. exact (Hq _ Hin).
      - apply deliveries_ok_acks. intros; discriminate. }
    destruct (assoc cl (a_cl st)) as [s|] eqn:Ea; [|split; assumption].
    destruct (c_online s); [|split; assumption].
    destruct (publish_will_ok sel st1 cl (c_will s) H1) as [H3 H4].
    destruct (publish_will sel st1 cl (c_will s)) as [st2 evs2]. cbn [fst snd] in *.
    split; [exact H3|]. apply deliveries_ok_app; [exact H2|].
    apply (deliveries_ok_app [_]); [apply quiet_ok; reflexivity | exact H4].
  - (* DISCONNECT *)
    destruct (online st cl); [|exact (unchanged st [] Hi eq_refl)].
    apply unchanged; [|reflexivity]. destruct (end_session_ok st cl Hi) as (Hs' & Hr' & Hc' & Hd').
    apply inv_of; try assumption. apply Forall_remove_key, Hd'.
  - (* DISCONNECT with will *)
    destruct (online st cl); [apply close_with_will_ok, Hi | exact (unchanged st [] Hi eq_refl)].
  - (* network close *)
    destruct (online st cl); [apply close_with_will_ok, Hi | exact (unchanged st [] Hi eq_refl)].
  - (* publish, possibly through a topic alias *)
    destruct (online st cl) as [s|] eqn:Eo; [|exact (unchanged st [] Hi eq_refl)].
    destruct (has_wild topic || (nilb topic && (alias =? 0))); [apply close_with_will_ok, Hi|].
    destruct (valid_pub_topic topic) eqn:Ev; cbn [negb];
      [|destruct (qos =? 0); apply (unchanged st _ Hi); reflexivity].
    destruct (perm cl topic true) eqn:Ep; cbn [negb].
    2:{ destruct (qos =? 0); [exact (unchanged st [] Hi eq_refl)|].
        destruct (negb (c_ver s =? 5)); [apply close_with_will_ok, Hi | apply (unchanged st _ Hi); reflexivity]. }
    destruct ((0 <? qos) && memN pid (c_inq2 s)); [apply (unchanged st _ Hi); reflexivity|].
    destruct (inv_sess st cl s Hi (online_In st cl s Eo)) as (Hq & Hw & Ha). cbn [fst snd] in Hq, Hw, Ha.
    (* the resolved topic is one the client may publish to: the one in the packet was just checked, the
       one behind an alias was checked when the alias was bound *)
    set (resolved := if alias =? 0 then Some topic else if nilb topic then alias_get alias (c_alias s) else Some topic).
    assert (Hres : forall t, resolved = Some t -> perm cl t true = true /\ valid_pub_topic t = true).
    { unfold resolved. intros t. destruct (alias =? 0); [intro E; injection E as <-; split; assumption|].
      destruct (nilb topic); [|intro E; injection E as <-; split; assumption].
      intro E. apply alias_get_In in E. rewrite Forall_forall in Ha. apply (Ha _ E). }
    destruct resolved as [t|]; [|apply close_with_will_ok, Hi].
    destruct (Hres t eq_refl) as [Hpt Hvt].
    set (al' := if (0 <? alias) && negb (nilb topic) then alias_set alias topic (c_alias s) else c_alias s).
    set (q2' := if qos =? 2 then pid :: c_inq2 s else c_inq2 s).
    assert (Hal : Forall (alias_ok cl) al').
    { unfold al'. destruct ((0 <? alias) && negb (nilb topic)); [|exact Ha].
      unfold alias_set. constructor; [split; cbn; assumption | apply Forall_filter, Ha]. }
    assert (H0 : inv (set_sess st cl (mkC (c_ver s) true (c_persist s) (c_will s) (c_queue s) al' q2'))).
    { apply set_sess_ok; [exact Hi|]. split; cbn; [exact Hq | split; assumption]. }
    assert (Hm : msg_ok (mkM (Some cl) t payload qos rt)) by (cbn; split; assumption).
    pose proof (route_ok sel _ _ H0 Hm) as H.
    destruct (route sel (set_sess st cl (mkC (c_ver s) true (c_persist s) (c_will s) (c_queue s) al' q2'))
                    (mkM (Some cl) t payload qos rt)) as [st' evs].
    destruct (qos =? 0); [exact H | apply (after_quiet [_] (st', evs)); [reflexivity | exact H]].
  - (* PUBREL *)
    destruct (online st cl) as [s|] eqn:Eo; [|exact (unchanged st [] Hi eq_refl)].
    destruct (memN pid (c_inq2 s)); [|apply (unchanged st _ Hi); reflexivity].
    apply unchanged; [|reflexivity]. apply set_sess_ok; [exact Hi|].
    destruct (inv_sess st cl s Hi (online_In st cl s Eo)) as (Hq & Hw & Ha). split; cbn; [exact Hq | split; assumption].
  - (* subscribe *)
    destruct (online st cl) as [s|]; [|exact (unchanged st [] Hi eq_refl)].
    pose proof (sub_codes_granted (c_ver s) ob cl fs) as Hg.
    destruct (sub_codes (c_ver s) ob cl fs) as [codes gr]. cbn [fst snd] in *. split.
    + apply inv_of; try assumption. apply add_sub_ok; assumption.
    + apply (deliveries_ok_app [_]); [apply quiet_ok; reflexivity | apply replay_granted_ok; assumption].
  - (* inline publish *)
    apply route_ok; [exact Hi | exact I].
  - (* will tick *)
    destruct (fire_ok sel (a_delayed st) st Hi Hd) as [H1 H2].
    destruct (fire sel st (a_delayed st)) as [st' evs]. cbn [fst snd] in *.
    split; [|exact H2]. destruct H1 as (Hs' & Hr' & Hc' & _). apply inv_of; try assumption. constructor.
  - (* session expiry *)
    refine (unchanged _ [] _ eq_refl). apply inv_of; try assumption; apply Forall_filter; assumption.
Qed.

Theorem arun_ok (ob : bool) (ops : list (oracle * aop)) : forall st, inv st ->
  inv (fst (arun ob st ops)) /\ Forall deliveries_ok (snd (arun ob st ops)).
Proof.
  induction ops as [|[sel o] r IH]; intros st Hi; cbn [Acl.arun].
  - split; [exact Hi | constructor].
  - pose proof (astep_ok ob sel st o Hi) as H. destruct (astep ob sel st o) as [st1 evs]. cbn [fst snd] in H.
    destruct H as [H1 H2]. specialize (IH st1 H1). destruct (arun ob st1 r) as [st2 rest]. cbn [fst snd] in *.
    destruct IH as [IH1 IH2]. split; [exact IH1 | constructor; assumption].
Qed.

Definition reachable (ob : bool) (st : ast) : Prop := exists ops, fst (arun ob a_init ops) = st.
Definition emitted (ob : bool) (evs : list (client * aev)) : Prop := exists ops, In evs (snd (arun ob a_init ops)).

Lemma reachable_inv (ob : bool) (st : ast) : reachable ob st -> inv st.
Proof. intros [ops <-]. apply arun_ok, inv_init. Qed.

Lemma emitted_ok (ob : bool) (evs : list (client * aev)) : emitted ob evs -> deliveries_ok evs.
Proof.
  intros [ops Hin]. pose proof (arun_ok ob ops a_init inv_init) as [_ H].
  rewrite Forall_forall in H. apply H, Hin.
Qed.

(* read: nobody receives a message on a topic it may not read (live fan-out incl. share groups, retained
   replay, resend to a resumed or taken-over session) *)
Theorem read_enforced (ob : bool) (evs : list (client * aev)) (c : client) (m : msg) :
  emitted ob evs -> In (c, ADeliver m) evs -> perm c (m_topic m) false = true.
Proof. intros He Hin. apply (emitted_ok ob evs He c m Hin). Qed.

(* write: whatever is delivered, retained, kept for an offline session or waiting as a delayed will and
   stems from a non-inline client was published with write permission on a valid non-$SYS topic name; and
   every topic alias of a connection is bound to such a topic (no bypass through an alias) *)
Theorem write_enforced (ob : bool) :
  (forall evs c m, emitted ob evs -> In (c, ADeliver m) evs -> msg_ok m) /\
  (forall st, reachable ob st ->
     (forall t m, In (t, m) (a_ret st) -> t = m_topic m /\ msg_ok m) /\
     (forall c s m, In (c, s) (a_cl st) -> In m (c_queue s) -> msg_ok m /\ perm c (m_topic m) false = true) /\
     (forall c m, In (c, m) (a_delayed st) -> msg_ok m) /\
     (forall c s a t, In (c, s) (a_cl st) -> In (a, t) (c_alias s) -> perm c t true = true /\ valid_pub_topic t = true)).
Proof.
  split.
  - intros evs c m He Hin. apply (emitted_ok ob evs He c m Hin).
  - intros st Hr. destruct (reachable_inv ob st Hr) as (Hs & Hrt & Hc & Hd). split; [|split; [|split]].
    + intros t m Hin. rewrite Forall_forall in Hrt. apply (Hrt _ Hin).
    + intros c s m Hin Hq. rewrite Forall_forall in Hc. destruct (Hc _ Hin) as [Hqs _].
      rewrite Forall_forall in Hqs. destruct (Hqs _ Hq) as (A & B & _). split; assumption.
    + intros c m Hin. rewrite Forall_forall in Hd. apply (Hd _ Hin).
    + intros c s a t Hin Ha. rewrite Forall_forall in Hc. destruct (Hc _ Hin) as (_ & _ & Hal).
      rewrite Forall_forall in Hal. apply (Hal _ Ha).
Qed.

Lemma sub_codes_nth (ver : N) (ob : bool) (cl : client) (fs : list (bytes * (N * bool))) :
  length (fst (sub_codes ver ob cl fs)) = length fs /\
  forall i f q nl, nth_error fs i = Some (f, (q, nl)) ->
    nth_error (fst (sub_codes ver ob cl fs)) i = Some (code_of ver ob cl f q nl).
Proof.
  rewrite sub_codes_eq. cbn [fst]. split; [apply map_length|].
  intros i f q nl H. rewrite (map_nth_error _ _ _ H). reflexivity.
Qed.

(* subscriptions: a denied filter (the string the client sent, with its $share prefix if any) is
   answered 0x87 (0x80 when obscured or MQTT 3), only valid permitted filters are ever in the index, and
   every delivery rests on such a filter whose effective filter matches the topic *)
Theorem sub_refused (ob : bool) :
  (forall ver cl fs i f q nl, nth_error fs i = Some (f, (q, nl)) -> valid_filter f = true -> nl && is_shared f = false ->
     perm cl f false = false ->
     nth_error (fst (sub_codes ver ob cl fs)) i = Some (if (ver <? 5) || ob then 128 else 135)) /\
  (forall st c f o, reachable ob st -> In (c, (f, o)) (a_subs st) -> valid_filter f = true /\ perm c f false = true) /\
  (forall evs c m, emitted ob evs -> In (c, ADeliver m) evs ->
     exists f, valid_filter f = true /\ perm c f false = true /\ matches (eff_of f) (m_topic m) = true).
Proof.
  split; [|split].
  - intros ver cl fs i f q nl Hn Hv Hnl Hp. destruct (sub_codes_nth ver ob cl fs) as [_ H]. rewrite (H i f q nl Hn).
    unfold code_of. rewrite Hv, Hnl, Hp. cbn [negb]. f_equal. unfold v3map. destruct ob; destruct (ver <? 5); reflexivity.
  - intros st c f o Hr Hin. destruct (reachable_inv ob st Hr) as (Hs & _). rewrite Forall_forall in Hs.
    apply (Hs _ Hin).
  - intros evs c m He Hin. apply (emitted_ok ob evs He c m Hin).
Qed.

(* $SYS: a client publish whose topic starts with $SYS changes nothing and reaches nobody *)
Theorem sys_refused (ob : bool) (sel : oracle) (st : ast) (cl : client) (topic payload : bytes) (qos : N) (rt : bool)
        (pid alias : N) :
  prefix (tag "$SYS") topic = true -> has_wild topic = false ->
  fst (astep ob sel st (APublish cl topic payload qos rt pid alias)) = st /\
  forall c m, ~ In (c, ADeliver m) (snd (astep ob sel st (APublish cl topic payload qos rt pid alias))).
Proof.
  intros Hp Hw. cbn [Acl.astep]. destruct (online st cl) as [s|]; [|split; [reflexivity | intros c m []]].
  rewrite Hw. assert (Hn : nilb topic = false) by (destruct topic; [discriminate Hp | reflexivity]).
  rewrite Hn. cbn [orb andb].
  unfold valid_pub_topic. rewrite Hp. cbn [negb andb fst snd]. split; [reflexivity|].
  intros c m. destruct (qos =? 0); cbn; [tauto | intros [E|[]]; discriminate].
Qed.

(* will topics: a CONNECT whose will topic is no valid topic name is refused and changes nothing (also
   when it would take over a live connection); every will a session holds has a valid topic name *)
Theorem will_topic_valid (ob : bool) :
  (forall sel st cl ver clean w, valid_pub_topic (w_topic w) = false ->
     astep ob sel st (AConnect cl ver clean (Some w)) = (st, [(cl, AConnack false false); (cl, AClosed)])) /\
  (forall st c s w, reachable ob st -> In (c, s) (a_cl st) -> c_will s = Some w -> valid_pub_topic (w_topic w) = true).
Proof.
  split.
  - intros sel st cl ver clean w Hv. cbn [Acl.astep]. rewrite Hv. reflexivity.
  - intros st c s w Hr Hin Hw. destruct (reachable_inv ob st Hr) as (_ & _ & Hc & _). rewrite Forall_forall in Hc.
    destruct (Hc _ Hin) as (_ & H & _). cbn in H. rewrite Hw in H. exact H.
Qed.

(* C30, server-level clause: an invalid filter is answered 0x8F (0x80 for MQTT 3) and creates
   nothing: no index entry ever holds an invalid filter and no delivery rests on one *)
Theorem subinvalid_code (ob : bool) (ver : N) (cl : client) (fs : list (bytes * (N * bool))) (i : nat) (f : bytes) (q : N) (nl : bool) :
  nth_error fs i = Some (f, (q, nl)) -> valid_filter f = false ->
  nth_error (fst (sub_codes ver ob cl fs)) i = Some (if ver <? 5 then 128 else 143) /\
  forall o, ~ In (f, o) (snd (sub_codes ver ob cl fs)).
Proof.
  intros Hn Hv. split.
  - destruct (sub_codes_nth ver ob cl fs) as [_ H]. rewrite (H i f q nl Hn). unfold code_of. rewrite Hv. cbn [negb].
    unfold v3map. destruct (ver <? 5); reflexivity.
  - intros o Hin. destruct (sub_codes_granted ver ob cl fs f o Hin) as [H _]. congruence.
Qed.

Theorem subinvalid_creates_nothing (ob : bool) (st : ast) (c : client) (f : bytes) (o : N * bool) :
  reachable ob st -> valid_filter f = false -> ~ In (c, (f, o)) (a_subs st).
Proof.
  intros Hr Hv Hin. destruct (reachable_inv ob st Hr) as (Hs & _). rewrite Forall_forall in Hs.
  destruct (Hs _ Hin) as [H _]. cbn in H. congruence.
Qed.

End Proofs.
