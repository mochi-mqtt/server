(* Proofs for C18: MatchTopic is level-by-level MQTT matching; the ledger's decisions do not depend
   on the iteration order of its maps; global rules are consulted in list order and a user's own
   rules take precedence; the model refines the declarative specification. *)
From MV Require Import Base.Val Base.BytesEq Base.ListMisc Topics.Alist Topics.AlistProofs Topics.Valid Topics.ValidProofs Auth.Ledger.
From Coq Require Import Lia Permutation.
Import VLevels.
Open Scope N_scope.

Local Arguments N.add : simpl never.
Local Arguments N.eqb : simpl never.

Lemma is_plus_not_hash l : is_plus l = true -> is_hash l = false.
Proof. intro H. apply is_plus_eq in H. subst l. reflexivity. Qed.

Lemma match_loop_spec fl : forall tl,
  hash_only_last fl = true -> match_loop fl tl = level_match fl tl.
Proof.
  induction fl as [|f fl' IH]; intros tl G.
  - destruct tl; reflexivity.
  - cbn [hash_only_last] in G. apply andb_true_iff in G. destruct G as [G1 G2].
    destruct tl as [|t tl']; [reflexivity|].
    cbn [match_loop level_match].
    destruct (is_plus f) eqn:P.
    + rewrite (is_plus_not_hash f P). cbn [orb andb]. apply IH. exact G2.
    + destruct (is_hash f) eqn:H.
      * rewrite G1. reflexivity.
      * cbn [orb]. destruct (beq_bytes f t); [apply IH; exact G2 | reflexivity].
Qed.

Theorem match_topic_spec : forall f t,
  hash_only_last (split f) = true -> match_topic f t = level_match (split f) (split t).
Proof. intros f t G. apply match_loop_spec. exact G. Qed.

Lemma split_inj a b : split a = split b -> a = b.
Proof. intro H. rewrite <- (join_split a), <- (join_split b), H. reflexivity. Qed.

(* a filter without wildcard levels matches only the identical topic *)
Definition no_wildcard (fl : list level) : Prop :=
  Forall (fun l => is_plus l = false /\ is_hash l = false) fl.

Lemma level_match_exact fl : forall tl, no_wildcard fl -> (level_match fl tl = true <-> fl = tl).
Proof.
  induction fl as [|f fl' IH]; intros tl NW.
  - destruct tl; cbn [level_match]; split; intro H; try reflexivity; discriminate.
  - inversion NW as [|? ? [P H] NW']. subst.
    destruct tl as [|t tl']; cbn [level_match]; [split; intro X; discriminate|].
    rewrite H, P. cbn [orb]. rewrite andb_true_iff, (IH tl' NW'). split.
    + intros [E1 E2]. apply beq_bytes_eq in E1. subst. reflexivity.
    + intro E. inversion E. subst. split; [apply beq_bytes_refl | reflexivity].
Qed.

Lemma no_wildcard_hash_only_last fl : no_wildcard fl -> hash_only_last fl = true.
Proof.
  induction 1 as [|l r [_ H] _ IH]; [reflexivity|]. cbn [hash_only_last]. rewrite H, IH. reflexivity.
Qed.

Theorem match_topic_exact : forall f t,
  no_wildcard (split f) -> (match_topic f t = true <-> f = t).
Proof.
  intros f t NW. rewrite (match_topic_spec f t (no_wildcard_hash_only_last _ NW)).
  rewrite (level_match_exact _ _ NW). split; [apply split_inj | intros ->; reflexivity].
Qed.

(* '+' matches exactly one level (whatever it contains) *)
Theorem level_match_plus : forall fl tl,
  level_match ([43] :: fl) tl = true <-> exists x tl', tl = x :: tl' /\ level_match fl tl' = true.
Proof.
  intros fl tl. destruct tl as [|x tl']; cbn [level_match].
  - split; [discriminate | intros [x [tl' [E _]]]; discriminate].
  - change (is_hash [43]) with false. change (is_plus [43]) with true. cbn [orb andb]. split.
    + intro H. exists x, tl'. split; [reflexivity | exact H].
    + intros [x' [tl'' [E H]]]. inversion E. subst. exact H.
Qed.

(* a trailing '#' matches one or more further levels: the levels before it are matched one by one
   and at least one level remains *)
Theorem level_match_trailing_hash : forall pre tl,
  hash_only_last pre = true -> Forall (fun l => is_hash l = false) pre ->
  (level_match (pre ++ [[35]]) tl = true <->
   exists t1 t2, tl = (t1 ++ t2)%list /\ level_match pre t1 = true /\ t2 <> []).
Proof.
  induction pre as [|f pre' IH]; intros tl G NH.
  - cbn [app]. destruct tl as [|x tl']; cbn [level_match].
    + split; [discriminate|]. intros [t1 [t2 [E [M N]]]].
      destruct t1; [|discriminate]. destruct t2; [contradiction | discriminate].
    + change (is_hash [35]) with true. cbn [nilb]. split; [|reflexivity].
      intros _. exists [], (x :: tl'). repeat split. discriminate.
  - inversion NH as [|? ? Hf NH']. subst.
    cbn [hash_only_last] in G. apply andb_true_iff in G. destruct G as [_ G2].
    cbn [app]. destruct tl as [|x tl']; cbn [level_match].
    + split; [discriminate|]. intros [t1 [t2 [E [M N]]]].
      destruct t1; [cbn [level_match] in M; discriminate | discriminate].
    + rewrite Hf. rewrite andb_true_iff, (IH tl' G2 NH'). split.
      * intros [A [t1 [t2 [E [M N]]]]]. exists (x :: t1), t2. subst tl'. repeat split; [|exact N].
        rewrite A, M. reflexivity.
      * intros [t1 [t2 [E [M N]]]]. destruct t1 as [|y t1']; [cbn [level_match] in M; discriminate|].
        inversion E. subst. apply andb_true_iff in M.
        destruct M as [A M]. split; [exact A|]. exists t1', t2. repeat split; assumption.
Qed.

(* the user ACL loop computes an order-free expression *)
Lemma user_acl_loop_closed acl topic write : forall matched,
  user_acl_loop acl topic write matched =
  if any_granting acl topic write then Some true
  else if matched || any_matching acl topic then Some false
  else None.
Proof.
  unfold any_granting, any_matching.
  induction acl as [|[f a] r IH]; intro matched.
  - cbn. destruct matched; reflexivity.
  - cbn [user_acl_loop existsb fst snd]. destruct (match_topic f topic).
    + destruct (grants write a); cbn [andb orb]; [reflexivity|].
      rewrite IH. cbn [orb]. rewrite orb_true_r. reflexivity.
    + rewrite andb_false_r. cbn [orb]. apply IH.
Qed.

Theorem user_acl_loop_perm : forall acl acl' topic write,
  Permutation acl acl' -> user_acl_loop acl topic write false = user_acl_loop acl' topic write false.
Proof.
  intros acl acl' topic write P. rewrite !user_acl_loop_closed. unfold any_granting, any_matching.
  rewrite (existsb_perm _ _ _ P). cbn [orb]. rewrite (existsb_perm _ _ _ P). reflexivity.
Qed.

(* Users[username] is the map lookup of Topics/Alist.v *)
Lemma find_user_al us name : find_user us name = al_get beq_bytes name us.
Proof. induction us as [|[k u] r IH]; [reflexivity|]. cbn [find_user al_get]. rewrite IH. reflexivity. Qed.

Theorem find_user_perm : forall us us' name,
  NoDup (map fst us) -> Permutation us us' -> find_user us name = find_user us' name.
Proof. intros us us' name ND P. rewrite !find_user_al. exact (al_get_perm beq_bytes_eq us us' name ND P). Qed.

(* Two ledgers that are the same Go value: same rule lists, same maps up to the order in which the
   association lists happen to enumerate them. *)
Definition user_equiv (u u' : user_rule) : Prop :=
  u_password u = u_password u' /\ u_disallow u = u_disallow u' /\ Permutation (u_acl u) (u_acl u').
Definition users_equiv (us us' : users) : Prop :=
  forall name, match find_user us name, find_user us' name with
               | Some u, Some u' => user_equiv u u'
               | None, None => True
               | _, _ => False
               end.
Definition acl_rule_equiv (r r' : acl_rule) : Prop :=
  c_client r = c_client r' /\ c_username r = c_username r' /\ c_remote r = c_remote r' /\
  Permutation (c_filters r) (c_filters r').
Definition ledger_equiv (l l' : ledger) : Prop :=
  users_equiv (l_users l) (l_users l') /\ l_auth l = l_auth l' /\ Forall2 acl_rule_equiv (l_acl l) (l_acl l').

(* in particular: permuting the Users map (unique keys) or any Filters map *)
Lemma users_equiv_perm us us' :
  NoDup (map fst us) -> Permutation us us' -> users_equiv us us'.
Proof.
  intros ND P name. rewrite <- (find_user_perm us us' name ND P).
  destruct (find_user us name); [|exact I]. repeat split. apply Permutation_refl.
Qed.

Lemma nilb_perm {A} (l l' : list A) : Permutation l l' -> nilb l = nilb l'.
Proof.
  intro P. destruct l; destruct l'; try reflexivity.
  - apply Permutation_nil in P. discriminate.
  - apply Permutation_sym, Permutation_nil in P. discriminate.
Qed.

Lemma acl_global_equiv rs rs' : Forall2 acl_rule_equiv rs rs' ->
  forall n c topic write, acl_global rs n c topic write = acl_global rs' n c topic write.
Proof.
  induction 1 as [|r r' rs rs' [E1 [E2 [E3 P]]] _ IH]; intros n c topic write; [reflexivity|].
  cbn [acl_global]. unfold acl_rule_matches, any_granting, any_matching.
  rewrite E1, E2, E3, (nilb_perm _ _ P), (existsb_perm _ _ _ P), (existsb_perm _ _ _ P), !IH. reflexivity.
Qed.

Theorem acl_ok_equiv : forall l l' c topic write,
  ledger_equiv l l' -> acl_ok l c topic write = acl_ok l' c topic write.
Proof.
  intros l l' c topic write [U [_ A]]. unfold acl_ok, user_acl.
  specialize (U (cl_username c)).
  rewrite (acl_global_equiv _ _ A).
  destruct (find_user (l_users l) (cl_username c)) as [u|];
    destruct (find_user (l_users l') (cl_username c)) as [u'|]; try contradiction; [|reflexivity].
  destruct U as [_ [_ P]]. rewrite (user_acl_loop_perm _ _ topic write P). reflexivity.
Qed.

Theorem auth_ok_equiv : forall l l' c pw,
  ledger_equiv l l' -> auth_ok l c pw = auth_ok l' c pw.
Proof.
  intros l l' c pw [U [A _]]. unfold auth_ok, user_auth.
  specialize (U (cl_username c)). rewrite A.
  destruct (find_user (l_users l) (cl_username c)) as [u|];
    destruct (find_user (l_users l') (cl_username c)) as [u'|]; try contradiction; [|reflexivity].
  destruct U as [E1 [E2 _]]. rewrite E1, E2. reflexivity.
Qed.

(* AuthOk: the first global rule that matches decides, with its index; none: refused *)
Lemma auth_global_skip pre : forall n rest c pw,
  Forall (fun x => auth_rule_matches x c pw = false) pre ->
  auth_global (pre ++ rest) n c pw = auth_global rest (n + N.of_nat (length pre)) c pw.
Proof.
  induction pre as [|x pre' IH]; intros n rest c pw F; cbn [app length].
  - f_equal. lia.
  - inversion F as [|? ? Hx F']. subst. cbn [auth_global]. rewrite Hx, (IH (n + 1) rest c pw F'). f_equal. lia.
Qed.

Lemma auth_global_first pre : forall n r post c pw,
  Forall (fun x => auth_rule_matches x c pw = false) pre -> auth_rule_matches r c pw = true ->
  auth_global (pre ++ r :: post) n c pw = (n + N.of_nat (length pre), a_allow r).
Proof. intros n r post c pw F M. rewrite (auth_global_skip pre n _ c pw F). cbn [auth_global]. rewrite M. reflexivity. Qed.

Lemma auth_global_none rs : forall n c pw,
  Forall (fun x => auth_rule_matches x c pw = false) rs -> auth_global rs n c pw = (0, false).
Proof. intros n c pw F. rewrite <- (app_nil_r rs), (auth_global_skip rs n [] c pw F). reflexivity. Qed.

(* ACLOk: a global rule is decisive when it matches the client and has no filters or a filter that
   matches the topic; the first decisive rule decides *)
Definition acl_decisive (r : acl_rule) (c : client) (topic : bytes) : bool :=
  acl_rule_matches r c && (nilb (c_filters r) || any_matching (c_filters r) topic).
Definition acl_rule_decision (r : acl_rule) (topic : bytes) (write : bool) : bool :=
  nilb (c_filters r) || any_granting (c_filters r) topic write.

Lemma granting_matching fs topic write : any_granting fs topic write = true -> any_matching fs topic = true.
Proof.
  unfold any_granting, any_matching. rewrite !existsb_exists. intros [x [Hin H]].
  apply andb_true_iff in H. exists x. split; [exact Hin | apply H].
Qed.

Lemma acl_global_skip r rs n c topic write :
  acl_decisive r c topic = false ->
  acl_global (r :: rs) n c topic write = acl_global rs (n + 1) c topic write.
Proof.
  unfold acl_decisive. intro H. cbn [acl_global].
  destruct (acl_rule_matches r c); [|reflexivity]. cbn [andb] in H.
  apply orb_false_iff in H. destruct H as [H1 H2]. rewrite H1, H2.
  destruct (any_granting (c_filters r) topic write) eqn:G; [|reflexivity].
  apply granting_matching in G. rewrite G in H2. discriminate.
Qed.

Lemma acl_global_skips pre : forall n rest c topic write,
  Forall (fun x => acl_decisive x c topic = false) pre ->
  acl_global (pre ++ rest) n c topic write = acl_global rest (n + N.of_nat (length pre)) c topic write.
Proof.
  induction pre as [|x pre' IH]; intros n rest c topic write F; cbn [app length].
  - f_equal. lia.
  - inversion F as [|? ? Hx F']. subst. rewrite (acl_global_skip x _ n c topic write Hx), (IH (n + 1) rest c topic write F').
    f_equal. lia.
Qed.

Lemma acl_global_first pre : forall n r post c topic write,
  Forall (fun x => acl_decisive x c topic = false) pre -> acl_decisive r c topic = true ->
  acl_global (pre ++ r :: post) n c topic write = (n + N.of_nat (length pre), acl_rule_decision r topic write).
Proof.
  intros n r post c topic write F M. rewrite (acl_global_skips pre n _ c topic write F). cbn [acl_global].
  unfold acl_decisive in M. apply andb_true_iff in M. destruct M as [M1 M2]. rewrite M1. unfold acl_rule_decision.
  destruct (nilb (c_filters r)); [reflexivity|]. cbn [orb] in *.
  destruct (any_granting (c_filters r) topic write); [reflexivity|]. rewrite M2. reflexivity.
Qed.

Lemma acl_global_none rs : forall n c topic write,
  Forall (fun x => acl_decisive x c topic = false) rs -> acl_global rs n c topic write = (0, true).
Proof. intros n c topic write F. rewrite <- (app_nil_r rs), (acl_global_skips rs n [] c topic write F). reflexivity. Qed.

(* a user's own rules take precedence over every global rule *)
Theorem user_auth_precedence : forall l c pw u,
  find_user (l_users l) (cl_username c) = Some u ->
  u_password u <> [] -> u_password u = pw ->
  auth_ok l c pw = (0, negb (u_disallow u)).
Proof.
  intros l c pw u F NE E. unfold auth_ok, user_auth. rewrite F, E.
  rewrite beq_bytes_refl. subst pw. destruct (u_password u); [contradiction|]. reflexivity.
Qed.

Theorem user_acl_precedence : forall l c topic write u,
  find_user (l_users l) (cl_username c) = Some u ->
  any_matching (u_acl u) topic = true ->
  acl_ok l c topic write = (0, any_granting (u_acl u) topic write).
Proof.
  intros l c topic write u F M. unfold acl_ok, user_acl. rewrite F, user_acl_loop_closed, M. cbn [orb].
  destruct (any_granting (u_acl u) topic write); reflexivity.
Qed.

(* when the user's own rules do not speak (no such user, or none of the user's filters matches the
   topic) the global rules decide *)
Theorem user_acl_fallthrough : forall l c topic write,
  match find_user (l_users l) (cl_username c) with
  | Some u => any_matching (u_acl u) topic = false
  | None => True
  end ->
  acl_ok l c topic write = acl_global (l_acl l) 0 c topic write.
Proof.
  intros l c topic write H. unfold acl_ok, user_acl.
  destruct (find_user (l_users l) (cl_username c)) as [u|]; [|reflexivity].
  rewrite user_acl_loop_closed, H. cbn [orb].
  destruct (any_granting (u_acl u) topic write) eqn:G; [|reflexivity].
  apply granting_matching in G. rewrite G in H. discriminate.
Qed.

Lemma any_matching_verdicts fs topic write :
  any_matching fs topic = negb (nilb (verdicts match_topic fs topic write)).
Proof.
  unfold any_matching, verdicts. induction fs as [|[f a] r IH]; [reflexivity|].
  cbn [existsb filter fst]. destruct (match_topic f topic); [reflexivity|]. exact IH.
Qed.

Lemma any_granting_verdicts fs topic write :
  any_granting fs topic write = existsb (fun b => b) (verdicts match_topic fs topic write).
Proof.
  unfold any_granting, verdicts. induction fs as [|[f a] r IH]; [reflexivity|].
  cbn [existsb filter fst snd]. destruct (match_topic f topic).
  - cbn [map existsb]. rewrite andb_true_r, IH. reflexivity.
  - rewrite andb_false_r. exact IH.
Qed.

Lemma decide_sound vs d : vs <> [] -> decide vs = Some d -> existsb (fun b => b) vs = d.
Proof.
  unfold decide. intros NE H.
  destruct (forallb (fun b => b) vs) eqn:A.
  - inversion H. subst. destruct vs as [|b vs']; [contradiction|].
    cbn [forallb] in A. apply andb_true_iff in A. destruct A as [A _]. subst b. reflexivity.
  - destruct (forallb negb vs) eqn:B; [|discriminate]. inversion H. subst.
    clear -B. induction vs as [|b vs' IH]; [reflexivity|].
    cbn [forallb] in B. apply andb_true_iff in B. destruct B as [B1 B2].
    destruct b; [discriminate|]. cbn [existsb orb]. apply IH. exact B2.
Qed.

Lemma applies_decisive r c topic : acl_rule_applies match_topic r c topic = acl_decisive r c topic.
Proof. unfold acl_rule_applies, acl_decisive. rewrite (any_matching_verdicts _ topic true). reflexivity. Qed.

(* the rule the specification finds splits the list the way acl_global_first / acl_global_none expect *)
Lemma find_decisive rs c topic :
  match find (fun r => acl_rule_applies match_topic r c topic) rs with
  | Some r => exists pre post, rs = (pre ++ r :: post)%list /\
                Forall (fun x => acl_decisive x c topic = false) pre /\ acl_decisive r c topic = true
  | None => Forall (fun x => acl_decisive x c topic = false) rs
  end.
Proof.
  induction rs as [|x rs' IH]; [constructor|].
  cbn [find]. rewrite applies_decisive. destruct (acl_decisive x c topic) eqn:D.
  - exists [], rs'. repeat split; [constructor | exact D].
  - destruct (find (fun r => acl_rule_applies match_topic r c topic) rs') as [r|].
    + destruct IH as [pre [post [E [F M]]]]. exists (x :: pre), post. subst rs'. repeat split; [|exact M].
      constructor; assumption.
    + constructor; assumption.
Qed.

Lemma acl_global_refines l c topic write d :
  match find (fun r => acl_rule_applies match_topic r c topic) (l_acl l) with
  | Some r => if nilb (c_filters r) then Some true
              else decide (verdicts match_topic (c_filters r) topic write)
  | None => Some true
  end = Some d ->
  snd (acl_global (l_acl l) 0 c topic write) = d.
Proof.
  pose proof (find_decisive (l_acl l) c topic) as FD.
  destruct (find (fun r => acl_rule_applies match_topic r c topic) (l_acl l)) as [r|].
  - destruct FD as [pre [post [E [F M]]]]. intro H. rewrite E, (acl_global_first pre 0 r post c topic write F M).
    cbn [snd]. unfold acl_rule_decision.
    destruct (nilb (c_filters r)) eqn:NF; [inversion H; reflexivity|]. cbn [orb].
    rewrite any_granting_verdicts. apply decide_sound; [|exact H].
    unfold acl_decisive in M. apply andb_true_iff in M. destruct M as [_ M]. rewrite NF in M. cbn [orb] in M.
    rewrite (any_matching_verdicts _ topic write) in M. intro Z. rewrite Z in M. discriminate.
  - intro H. inversion H. subst. rewrite (acl_global_none _ 0 c topic write FD). reflexivity.
Qed.

Theorem acl_ok_refines_spec : forall l c topic write d,
  acl_spec match_topic l c topic write = Some d -> snd (acl_ok l c topic write) = d.
Proof.
  intros l c topic write d. unfold acl_spec, acl_ok, user_acl.
  destruct (find_user (l_users l) (cl_username c)) as [u|]; [|apply acl_global_refines].
  rewrite user_acl_loop_closed. cbn [orb].
  rewrite any_granting_verdicts, (any_matching_verdicts _ topic write).
  destruct (verdicts match_topic (u_acl u) topic write) as [|b vs] eqn:V.
  - cbn [nilb existsb negb]. apply acl_global_refines.
  - cbn [nilb negb]. intro H. apply decide_sound in H; [|discriminate]. rewrite H.
    destruct d; reflexivity.
Qed.

Lemma auth_global_find rs : forall n c pw,
  snd (auth_global rs n c pw) =
  match find (fun r => auth_rule_matches r c pw) rs with Some r => a_allow r | None => false end.
Proof.
  induction rs as [|x rs' IH]; intros n c pw; [reflexivity|].
  cbn [auth_global find]. destruct (auth_rule_matches x c pw); [reflexivity | apply IH].
Qed.

Theorem auth_ok_is_spec : forall l c pw, snd (auth_ok l c pw) = auth_spec l c pw.
Proof.
  intros l c pw. unfold auth_ok, auth_spec. destruct (user_auth l c pw); [reflexivity|]. apply auth_global_find.
Qed.
