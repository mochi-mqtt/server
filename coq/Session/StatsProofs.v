(* Proofs for C38: every operation of the statistics model keeps every counter equal to the count
   it reports, so the equality holds after every history. *)
From MV Require Import Base.Val Session.Pkt Session.Stats.
From Coq Require Import Lia.
Open Scope Z_scope.

(* the invariant, with an offset d for the moments inside attachClient / teardown where
   ClientsConnected has already been moved and the Clients map has not *)
Definition inv_off (d : Z) (s : st) : Prop :=
  n_conn s = act_conn s + d /\ n_subs s = act_subs s /\ n_ret s = act_ret s /\ n_infl s = act_infl s.

Lemma del_pid_length pid l : mem_pid pid l = true -> S (length (del_pid pid l)) = length l.
Proof.
  unfold mem_pid. induction l as [|[p t] r IH]; cbn; [discriminate|].
  destruct (p =? pid)%N; cbn; [reflexivity|]. intros H. f_equal. apply IH, H.
Qed.

Lemma set_pid_length pid ty l : length (set_pid pid ty l) = if mem_pid pid l then length l else S (length l).
Proof.
  unfold mem_pid. induction l as [|[p t] r IH]; cbn; [reflexivity|].
  destruct (p =? pid)%N; cbn; [reflexivity|]. rewrite IH. destruct (find_ty pid r); reflexivity.
Qed.

Lemma del_p_length k l : mem_p k l = true -> S (length (del_p k l)) = length l.
Proof.
  induction l as [|x r IH]; cbn; [discriminate|].
  destruct (beq_pair x k); cbn; [reflexivity|]. intros H. f_equal. apply IH, H.
Qed.

Lemma upd_none {id f l} : get id l = None -> upd id f l = l.
Proof.
  induction l as [|c r IH]; cbn; [reflexivity|].
  destruct (beq_bytes (c_id c) id); [discriminate|]. intros H. f_equal. apply IH, H.
Qed.

Lemma get_upd id f l :
  (forall c, c_id (f c) = c_id c) -> get id (upd id f l) = option_map f (get id l).
Proof.
  intros Hid. induction l as [|c r IH]; cbn; [reflexivity|].
  destruct (beq_bytes (c_id c) id) eqn:E; cbn.
  - rewrite Hid, E. reflexivity.
  - rewrite E. apply IH.
Qed.

(* a count F over the sessions that adds up a weight w (sum_infl, count_conn) moves by the weight of the one
   session that is updated or removed *)
Section Count.
  Variables (F : list client -> Z) (w : client -> Z).
  Hypothesis F_cons : forall c r, F (c :: r) = w c + F r.

  Lemma count_upd id f l c : get id l = Some c -> F (upd id f l) = F l - w c + w (f c).
  Proof.
    induction l as [|x r IH]; cbn; [discriminate|].
    destruct (beq_bytes (c_id x) id); rewrite !F_cons.
    - intros H. injection H as ->. lia.
    - intros H. rewrite (IH H). lia.
  Qed.

  Lemma count_drop id l c : get id l = Some c -> F (drop id l) = F l - w c.
  Proof.
    induction l as [|x r IH]; cbn; [discriminate|].
    destruct (beq_bytes (c_id x) id); rewrite !F_cons.
    - intros H. injection H as ->. lia.
    - intros H. rewrite (IH H). lia.
  Qed.
End Count.

Definition sum_infl_upd := count_upd sum_infl (fun c => Z.of_nat (length (c_infl c))) (fun _ _ => eq_refl).
Definition sum_infl_drop := count_drop sum_infl (fun c => Z.of_nat (length (c_infl c))) (fun _ _ => eq_refl).
Definition count_conn_upd := count_upd count_conn (fun c => if c_conn c then 1 else 0) (fun _ _ => eq_refl).
Definition count_conn_drop := count_drop count_conn (fun c => if c_conn c then 1 else 0) (fun _ _ => eq_refl).
Arguments sum_infl_upd {id f l c}.
Arguments count_conn_upd {id f l c}.
Arguments sum_infl_drop {id l c}.
Arguments count_conn_drop {id l c}.

(* whatever happens to the Clients map: the invariant is kept if ClientsConnected and Inflight move with
   the counts over the map, and the offset with the difference *)
Lemma clients_inv d d' s s' :
  inv_off d s ->
  (s_index s', s_ret s', n_subs s', n_ret s') = (s_index s, s_ret s, n_subs s, n_ret s) ->
  n_infl s' - sum_infl (s_clients s') = n_infl s - sum_infl (s_clients s) ->
  n_conn s' - count_conn (s_clients s') - d' = n_conn s - count_conn (s_clients s) - d ->
  inv_off d' s'.
Proof.
  unfold inv_off, act_conn, act_subs, act_ret, act_infl. intros (H1 & H2 & H3 & H4) E Ei Ec.
  injection E as -> -> -> ->. repeat split; try assumption; lia.
Qed.

Lemma upd_neutral id f (s : st) d :
  (forall c, c_infl (f c) = c_infl c /\ c_conn (f c) = c_conn c) ->
  inv_off d s -> inv_off d (with_clients s (upd id f (s_clients s))).
Proof.
  intros Hf H. destruct (get id (s_clients s)) as [c|] eqn:G.
  - destruct (Hf c) as [Ei Ec]. apply (clients_inv d d s); [exact H|reflexivity|cbn -[Z.add]..].
    + rewrite (sum_infl_upd G), Ei. lia.
    + rewrite (count_conn_upd G), Ec. lia.
  - rewrite (upd_none G). exact H.
Qed.

(* the in-flight map of one session is rewritten: Inflight has to move by the change of its length *)
Lemma infl_upd_inv d s s' id g c :
  get id (s_clients s) = Some c -> inv_off d s ->
  s_clients s' = upd id (fun c => set_infl c (g (c_infl c))) (s_clients s) ->
  (s_index s', s_ret s', n_subs s', n_ret s', n_conn s') = (s_index s, s_ret s, n_subs s, n_ret s, n_conn s) ->
  n_infl s' = n_infl s + Z.of_nat (length (g (c_infl c))) - Z.of_nat (length (c_infl c)) ->
  inv_off d s'.
Proof.
  intros G H Ec E Ei. injection E as E1 E2 E3 E4 E5.
  apply (clients_inv d d s _ H); [congruence|rewrite Ec, Ei|rewrite Ec, E5].
  - rewrite (sum_infl_upd G). cbn. lia.
  - rewrite (count_conn_upd G). cbn. lia.
Qed.

Lemma infl_set_inv d s id pid ty : inv_off d s -> inv_off d (infl_set s id pid ty).
Proof.
  intros H. unfold infl_set. destruct (get id (s_clients s)) as [c|] eqn:G; [|exact H].
  apply (infl_upd_inv d s _ id (set_pid pid ty) c G H); [reflexivity..|cbn].
  rewrite set_pid_length. destruct (mem_pid pid (c_infl c)); cbn [negb]; lia.
Qed.

Lemma infl_set_ignore_inv d s id pid ty :
  mem_pid pid (infl_of s id) = true -> inv_off d s -> inv_off d (infl_set_ignore s id pid ty).
Proof.
  unfold infl_of. intros M H. destruct (get id (s_clients s)) as [c|] eqn:G; [|discriminate].
  apply (infl_upd_inv d s _ id (set_pid pid ty) c G H); [reflexivity..|cbn].
  rewrite set_pid_length, M. lia.
Qed.

Lemma infl_del_inv d s id pid : inv_off d s -> inv_off d (infl_del s id pid).
Proof.
  intros H. unfold infl_del. destruct (get id (s_clients s)) as [c|] eqn:G; [|exact H].
  destruct (mem_pid pid (c_infl c)) eqn:M; [|exact H].
  apply (infl_upd_inv d s _ id (del_pid pid) c G H); [reflexivity..|cbn].
  pose proof (del_pid_length _ _ M). lia.
Qed.

Lemma sub_add_inv d s id key : inv_off d s -> inv_off d (sub_add s id key).
Proof.
  intros H. unfold sub_add. destruct (mem_p (id, key) (s_index s)); [exact H|].
  destruct H as (H1 & H2 & H3 & H4). unfold inv_off, act_subs in *. cbn [with_index s_index n_subs length].
  repeat split; try assumption. lia.
Qed.

Lemma sub_del_inv d s id key : inv_off d s -> inv_off d (sub_del s id key).
Proof.
  intros H. unfold sub_del. destruct (mem_p (id, key) (s_index s)) eqn:M; [|exact H].
  pose proof (del_p_length _ _ M). destruct H as (H1 & H2 & H3 & H4).
  unfold inv_off, act_subs in *. cbn [with_index s_index n_subs]. repeat split; try assumption. lia.
Qed.

(* Info.Retained := Retained.Len() *)
Lemma with_ret_inv d s r : inv_off d s -> inv_off d (with_ret s r (Z.of_nat (length r))).
Proof. intros (H1 & H2 & H3 & H4). repeat split; assumption. Qed.

Lemma retain_inv d s rop topic : inv_off d s -> inv_off d (retain s rop topic).
Proof.
  intros H. unfold retain. destruct (rop =? 1)%N; [apply with_ret_inv, H|].
  destruct (rop =? 2)%N; [apply with_ret_inv, H|exact H].
Qed.

Lemma fold_inv {A} d (f : st -> A -> st) (l : list A) :
  (forall s x, inv_off d s -> inv_off d (f s x)) -> forall s, inv_off d s -> inv_off d (fold_left f l s).
Proof. intros Hf. induction l as [|x r IH]; cbn; intros s H; [exact H|]. apply IH, Hf, H. Qed.

(* the composite operations are built from the primitives above, each of which keeps the invariant.
   The hint database [stats] holds these preservation lemmas (all of the shape
   "inv_off d s -> inv_off d (f s ..)"), so that [auto with stats] peels a composite state one primitive
   at a time.  [step_publish] wraps the fold over the deliveries around infl_del, infl_set, retain and
   infl_del; with the hypothesis at the bottom that is a search of depth 7 (the default 5 is too shallow). *)
Create HintDb stats discriminated.
#[local] Hint Resolve infl_set_inv infl_del_inv infl_set_ignore_inv sub_add_inv sub_del_inv with_ret_inv retain_inv
  fold_inv : stats.

Lemma deliver_inv d s x : inv_off d s -> inv_off d (deliver s x).
Proof. destruct x as [[id pid] o]. unfold deliver. destruct (o =? 1)%N; auto with stats. Qed.

Lemma immediate_inv d s id imm : inv_off d s -> inv_off d (immediate s id imm).
Proof. destruct imm; cbn; auto with stats. Qed.

Lemma clear_inflights_inv d s id : inv_off d s -> inv_off d (clear_inflights s id).
Proof. unfold clear_inflights. auto with stats. Qed.

Lemma unsubscribe_client_inv d s id : inv_off d s -> inv_off d (unsubscribe_client s id).
Proof.
  intros H. unfold unsubscribe_client. apply fold_inv; [auto with stats|].
  apply upd_neutral; [intros c; split; reflexivity|exact H].
Qed.

#[local] Hint Resolve deliver_inv immediate_inv clear_inflights_inv unsubscribe_client_inv : stats.

Lemma infl_del_get s id pid c :
  get id (s_clients s) = Some c ->
  get id (s_clients (infl_del s id pid)) =
  Some (if mem_pid pid (c_infl c) then set_infl c (del_pid pid (c_infl c)) else c).
Proof.
  intros G. unfold infl_del. rewrite G.
  destruct (mem_pid pid (c_infl c)); cbn; [|exact G].
  rewrite get_upd by reflexivity. rewrite G. reflexivity.
Qed.

(* deleting the records one by one in the order of the map empties it *)
Lemma clear_fold_empty id : forall l s c,
  get id (s_clients s) = Some c -> c_infl c = l ->
  exists c', get id (s_clients (fold_left (fun s r => infl_del s id (fst r)) l s)) = Some c' /\
             c_infl c' = [] /\ c_conn c' = c_conn c.
Proof.
  induction l as [|[p t] r IH]; intros s c G E; cbn [fold_left fst].
  - exists c. auto.
  - pose proof (infl_del_get s id p c G) as G'. rewrite E in G'. unfold mem_pid in G'. cbn in G'.
    rewrite N.eqb_refl in G'. apply (IH _ _ G'). reflexivity.
Qed.

Lemma clear_inflights_empty {s id c} :
  get id (s_clients s) = Some c ->
  exists c', get id (s_clients (clear_inflights s id)) = Some c' /\ c_infl c' = [] /\ c_conn c' = c_conn c.
Proof. intros G. unfold clear_inflights, infl_of. rewrite G. apply (clear_fold_empty id _ s c G eq_refl). Qed.

(* the topic index is apart from the Clients map *)
Lemma fold_index_clients (f : st -> bytes -> st) (l : list (bytes * bytes)) :
  (forall s k, s_clients (f s k) = s_clients s) ->
  forall s, s_clients (fold_left (fun s fk => f s (snd fk)) l s) = s_clients s.
Proof. intros Hf. induction l as [|x r IH]; intros s; cbn; [reflexivity|]. rewrite IH. apply Hf. Qed.

Lemma sub_del_clients id s k : s_clients (sub_del s id k) = s_clients s.
Proof. unfold sub_del. destruct (mem_p _ _); reflexivity. Qed.
Lemma sub_add_clients id s k : s_clients (sub_add s id k) = s_clients s.
Proof. unfold sub_add. destruct (mem_p _ _); reflexivity. Qed.

Lemma unsubscribe_client_get {s id c} :
  get id (s_clients s) = Some c ->
  get id (s_clients (unsubscribe_client s id)) = Some (set_subs c []).
Proof.
  intros G. unfold unsubscribe_client. rewrite (fold_index_clients _ _ (sub_del_clients id)). cbn.
  rewrite get_upd by reflexivity. rewrite G. reflexivity.
Qed.

(* ClearInflights; UnsubscribeClient; Clients.Delete on a disconnected session: it holds no record and is
   not connected when it leaves the map, so no count moves *)
Lemma end_session_inv d s id c :
  get id (s_clients s) = Some c -> c_conn c = false -> inv_off d s ->
  inv_off d (let s2 := clear_inflights s id in
             let s3 := unsubscribe_client s2 id in
             with_clients s3 (drop id (s_clients s3))).
Proof.
  intros G Ec H. cbv zeta.
  destruct (clear_inflights_empty G) as (c' & G' & Ei & Ec').
  pose proof (unsubscribe_client_get G') as G''.
  apply (clients_inv d d (unsubscribe_client (clear_inflights s id) id));
    [apply unsubscribe_client_inv, clear_inflights_inv, H|reflexivity|cbn -[Z.add]..].
  - rewrite (sum_infl_drop G''). cbn. rewrite Ei. cbn. lia.
  - rewrite (count_conn_drop G''). cbn. rewrite Ec', Ec. lia.
Qed.

Lemma with_nconn_inv d d' s n :
  inv_off d s -> n = n_conn s + (d' - d) -> inv_off d' (with_nconn s n).
Proof. intros H ->. apply (clients_inv d d' s); [exact H|reflexivity|cbn -[Z.add]; lia..]. Qed.

Lemma replace_inv d s id c nc :
  get id (s_clients s) = Some c -> length (c_infl nc) = length (c_infl c) ->
  inv_off d s ->
  inv_off (d - (if c_conn nc then 1 else 0) + (if c_conn c then 1 else 0))
          (with_clients s (upd id (fun _ => nc) (s_clients s))).
Proof.
  intros G El H. apply (clients_inv d _ s); [exact H|reflexivity|cbn -[Z.add]..].
  - rewrite (sum_infl_upd G), El. lia.
  - rewrite (count_conn_upd G). lia.
Qed.

Lemma step_connect_inv s id clean ver acc : inv_off 0 s -> inv_off 0 (step_connect s id clean ver acc).
Proof.
  intros H. unfold step_connect. destruct acc; cbn [negb]; [|exact H].
  destruct (get id (s_clients s)) as [ex|] eqn:G.
  - (* ClientsConnected is incremented first; the predecessor's decrement, if it was connected, comes last *)
    assert (H0 : inv_off 1 (with_nconn s (n_conn s + 1))) by (apply (with_nconn_inv 0 1 s _ H); lia).
    assert (G0 : get id (s_clients (with_nconn s (n_conn s + 1))) = Some ex) by exact G.
    set (s0 := with_nconn s (n_conn s + 1)) in *.
    destruct (clean || c_v3clean ex).
    + pose proof (unsubscribe_client_get G0) as G1.
      destruct (clear_inflights_empty G1) as (c' & G2 & Ei & Ec).
      pose proof (clear_inflights_inv 1 _ id (unsubscribe_client_inv 1 _ id H0)) as H2.
      pose proof (replace_inv 1 _ id c' (new_client id (clean && (ver <? 5)%N) [] []) G2) as H3.
      cbn in Ec. rewrite Ei, Ec in H3. specialize (H3 eq_refl H2). cbn [new_client c_conn c_infl] in H3.
      cbv zeta. destruct (c_conn ex); [|exact H3]. eapply with_nconn_inv; [exact H3|lia].
    + cbv zeta.
      set (s1 := fold_left (fun s fk => sub_add s id (snd fk)) (c_subs ex) s0).
      assert (H1 : inv_off 1 s1) by (apply fold_inv; [intros; apply sub_add_inv; assumption|exact H0]).
      assert (G1 : get id (s_clients s1) = Some ex).
      { unfold s1. rewrite (fold_index_clients _ _ (sub_add_clients id)). exact G0. }
      pose proof (replace_inv 1 _ id ex (new_client id (clean && (ver <? 5)%N) (c_infl ex) (c_subs ex)) G1 eq_refl H1) as H2.
      cbn [new_client c_conn c_infl] in H2.
      apply fold_inv; [intros s' x Hs; destruct (is_ack_done (snd x)); [apply infl_del_inv|]; exact Hs|].
      destruct (c_conn ex); [|exact H2]. eapply with_nconn_inv; [exact H2|lia].
  - apply (clients_inv 0 0 s); [exact H|reflexivity|cbn -[Z.add]; lia..].
Qed.

Lemma step_close_inv s id expire : inv_off 0 s -> inv_off 0 (step_close s id expire).
Proof.
  intros H. unfold step_close.
  destruct (get id (s_clients s)) as [c|] eqn:G; [|exact H].
  destruct (c_conn c) eqn:Ec; cbn [negb]; [|exact H].
  set (s1 := with_nconn (with_clients s (upd id (fun c => set_conn c false) (s_clients s))) (n_conn s - 1)).
  assert (H1 : inv_off 0 s1).
  { apply (clients_inv 0 0 s); [exact H|reflexivity|cbn -[Z.add]..].
    - rewrite (sum_infl_upd G). cbn. lia.
    - rewrite (count_conn_upd G), Ec. cbn. lia. }
  destruct expire; [|exact H1].
  assert (G1 : get id (s_clients s1) = Some (set_conn c false)).
  { unfold s1. cbn. rewrite get_upd by reflexivity. rewrite G. reflexivity. }
  exact (end_session_inv 0 s1 id _ G1 eq_refl H1).
Qed.

Lemma expire_client_inv s id : inv_off 0 s -> inv_off 0 (expire_client s id).
Proof.
  intros H. unfold expire_client.
  destruct (get id (s_clients s)) as [c|] eqn:G; [|exact H].
  destruct (c_conn c) eqn:Ec; [exact H|].
  exact (end_session_inv 0 s id c G Ec H).
Qed.

Lemma step_subscribe_inv d s id fs : inv_off d s -> inv_off d (step_subscribe s id fs).
Proof.
  unfold step_subscribe. apply fold_inv. intros s' [[flt key] acc] H. destruct acc; [|exact H].
  apply upd_neutral; [intros c; split; reflexivity|]. apply sub_add_inv, H.
Qed.

Lemma step_unsubscribe_inv d s id pid fs : inv_off d s -> inv_off d (step_unsubscribe s id pid fs).
Proof.
  intros H. unfold step_unsubscribe. destruct (mem_pid pid (infl_of s id)); [exact H|].
  revert s H. apply fold_inv. intros s' f H.
  apply upd_neutral; [intros c; split; reflexivity|]. apply sub_del_inv, H.
Qed.

Lemma step_publish_inv d s id qos pid rop topic rej dels :
  inv_off d s -> inv_off d (step_publish s id qos pid rop topic rej dels).
Proof.
  intros H. unfold step_publish. destruct rej; [exact H|].
  destruct (find_ty pid (infl_of s id)) as [t|]; [destruct (t =? T_PUBREC)%N; [exact H|]|];
    cbv zeta; destruct (qos =? 0)%N, (qos =? 1)%N; auto 7 with stats.
Qed.

Lemma infl_set_ignore_present s id pid ty :
  mem_pid pid (infl_of s id) = true -> mem_pid pid (infl_of (infl_set_ignore s id pid ty) id) = true.
Proof.
  unfold infl_of, infl_set_ignore. cbn. destruct (get id (s_clients s)) as [c|] eqn:G; [|discriminate].
  rewrite get_upd by reflexivity. rewrite G. cbn. intros _.
  unfold mem_pid. induction (c_infl c) as [|[p t] r IH]; cbn; [rewrite N.eqb_refl; reflexivity|].
  destruct (p =? pid)%N eqn:E; cbn; rewrite E; [reflexivity|exact IH].
Qed.

(* a record is overwritten without counting only where the handler has found it in the map *)
Lemma step_ack_inv d s id ty pid bad : inv_off d s -> inv_off d (step_ack s id ty pid bad).
Proof.
  intros H. unfold step_ack. destruct (ty =? T_PUBACK)%N; [auto with stats|].
  destruct (mem_pid pid (infl_of s id)) eqn:M; cbn [negb].
  - destruct (ty =? T_PUBREC)%N; [destruct bad; auto with stats|].
    destruct (ty =? T_PUBREL)%N; [destruct bad; auto with stats|]. destruct (ty =? T_PUBCOMP)%N; auto with stats.
  - destruct (ty =? T_PUBREC)%N, (ty =? T_PUBREL)%N, (ty =? T_PUBCOMP)%N; auto with stats.
Qed.

Lemma step_publish_fault_inv d s id qos pid rop topic rej :
  inv_off d s -> inv_off d (step_publish_fault s id qos pid rop topic rej).
Proof.
  intros H. unfold step_publish_fault. destruct rej; [exact H|].
  destruct (find_ty pid (infl_of s id)) as [t|]; [destruct (t =? T_PUBREC)%N|]; auto with stats.
Qed.

Lemma step_pubrel_fault_inv d s id pid : inv_off d s -> inv_off d (step_pubrel_fault s id pid).
Proof. intros H. unfold step_pubrel_fault. destruct (mem_pid pid (infl_of s id)) eqn:M; auto with stats. Qed.

#[local] Hint Resolve step_connect_inv step_close_inv expire_client_inv step_subscribe_inv step_unsubscribe_inv
  step_publish_inv step_ack_inv step_publish_fault_inv step_pubrel_fault_inv : stats.

Theorem step_inv s o : inv_off 0 s -> inv_off 0 (step s o).
Proof. intros H. destruct o; cbn [step]; auto with stats. Qed.

Theorem run_inv ops : forall s, inv_off 0 s -> inv_off 0 (run s ops).
Proof. induction ops as [|o r IH]; cbn; intros s H; [exact H|]. apply IH, step_inv, H. Qed.

Lemma sum_infl_nonneg l : 0 <= sum_infl l.
Proof. induction l; cbn; lia. Qed.
Lemma count_conn_nonneg l : 0 <= count_conn l.
Proof. induction l as [|c r IH]; cbn; [lia|]. destruct (c_conn c); lia. Qed.

Lemma inv_stats_ok s : inv_off 0 s -> stats_ok s.
Proof.
  intros (H1 & H2 & H3 & H4). unfold stats_ok.
  pose proof (sum_infl_nonneg (s_clients s)). pose proof (count_conn_nonneg (s_clients s)).
  unfold act_conn, act_subs, act_ret, act_infl in *. repeat split; lia.
Qed.

(* from any consistent state (the initial one, or one restored from a store) the four counters equal the four
   counts after every history, and none is negative *)
Theorem stats_ok_from s (ops : list op) : inv_off 0 s -> stats_ok (run s ops).
Proof. intro H. apply inv_stats_ok, run_inv, H. Qed.

Theorem stats_always_ok (ops : list op) : stats_ok (run init ops).
Proof. apply stats_ok_from. repeat split. Qed.
