(* C12: whole-history reasoning about WHICH messages have been transmitted.  The ghost set T (uids of all
   PUBLISH packets written so far) is threaded through the run; two invariants hold for every history and every oracle, whatever else goes wrong with the accounting:
     I1  while the client is connected, every stored outbound PUBLISH that has never been transmitted carries
         the held-back mark;
     I2  while such a held-back, never-transmitted message exists, the send quota is 0 (and a maximum is in force).
   From them, and from the list of ways in which a step writes PUBLISH packets (step_shape, which also gives C10's
   identifier range): first transmissions happen in publish order for any two messages whose uint16(Created) stamps
   increase strictly. *)
From MV Require Import Base.Val Session.Pkt Session.Inflight Session.InflightProofs Session.QosProofs.
From Coq Require Import Lia.
Open Scope N_scope.

Definition tx_of (o : out) : list N :=
  match o with OPkt t _ _ _ u _ => if t =? T_PUBLISH then [u] else [] | _ => [] end.
Definition txs (outs : list out) : list N := flat_map tx_of outs.

Lemma txs_app a b : txs (a ++ b) = txs a ++ txs b.
Proof. unfold txs. apply flat_map_app. Qed.

Lemma txs_cons a l : txs (a :: l) = tx_of a ++ txs l.
Proof. reflexivity. Qed.

Lemma pubs_app a b : pubs (a ++ b) = pubs a ++ pubs b.
Proof. apply filter_app. Qed.

Lemma txs_pubs l : txs (pubs l) = txs l.
Proof.
  induction l as [|o l IH]; [reflexivity|]. cbn [pubs filter]. fold (pubs l). rewrite txs_cons, <- IH.
  destruct o as [t pid d q u rc|u|u]; try reflexivity. cbn [is_publish tx_of].
  destruct (t =? T_PUBLISH) eqn:E; [rewrite txs_cons; cbn [tx_of]; rewrite E|]; reflexivity.
Qed.

Lemma tx_of_rec d p r : tx_of (pkt_of_rec d p r) = if r_ty r =? T_PUBLISH then [r_uid r] else [].
Proof. unfold pkt_of_rec. destruct (r_ty r =? T_PUBLISH) eqn:E; cbn; [|rewrite E]; reflexivity. Qed.

Lemma in_txs_resend lst u :
  In u (txs (map (fun kv => pkt_of_rec true (fst kv) (snd kv)) lst)) <->
  exists k r, In (k, r) lst /\ r_ty r = T_PUBLISH /\ r_uid r = u.
Proof.
  induction lst as [|[k0 r0] lst IH]; cbn [map fst snd].
  - split; [intros []|intros (k & r & [] & _)].
  - rewrite txs_cons, tx_of_rec, in_app_iff, IH. split.
    + intros [I|(k & r & I & H)]; [|exists k, r; split; [right; exact I|exact H]].
      destruct (r_ty r0 =? T_PUBLISH) eqn:E; [|destruct I]. destruct I as [<-|[]].
      exists k0, r0. split; [left; reflexivity|split; [lia|reflexivity]].
    + intros (k & r & [E|I] & Ty & U); [left; inversion E; subst; rewrite Ty; left; reflexivity|right; eauto].
Qed.

Definition sub_pub (m0 m : imap) : Prop :=
  forall k r, get k m0 = Some r -> r_ty r = T_PUBLISH -> get k m = Some r.

Lemma sub_sub_pub m0 m : submap m0 m -> sub_pub m0 m.
Proof. intros S k r G _. exact (S k r G). Qed.

Lemma sub_pub_trans a b d : sub_pub a b -> sub_pub b d -> sub_pub a d.
Proof. intros H1 H2 k r G T. apply H2; [apply H1; assumption|exact T]. Qed.

Lemma frame_pub p s s0 : frame p s s0 -> sub_pub (s_infl s0) (s_infl s).
Proof.
  intros F k r G T. destruct (N.eq_dec k p) as [->|Ne]; [apply (fr_pub p s s0 F); assumption|].
  rewrite <- (fr_other p s s0 F k Ne). exact G.
Qed.

Definition i1 (s : st) (T : list N) : Prop :=
  s_conn s = true -> forall k r, get k (s_infl s) = Some r -> r_ty r = T_PUBLISH -> ~ In (r_uid r) T -> (r_expiry r < 0)%Z.
(* [slack] = 1 inside a handler (the quota may just have been raised by one), 0 between steps *)
Definition i2 (slack : Z) (s : st) (T : list N) : Prop :=
  forall k r, get k (s_infl s) = Some r -> r_ty r = T_PUBLISH -> ~ In (r_uid r) T -> (r_expiry r < 0)%Z ->
  (0 <= s_sendq s <= slack)%Z /\ (0 < s_maxsend s)%Z.

Record ghost (c : cfg) (s : st) (T : list N) : Prop := {
  g_wf : wf c s;
  g_i1 : i1 s T;
  g_i2 : i2 0 s T }.

Lemma ghost_init c : ghost c init_st [].
Proof. constructor; [apply wf_init|intros H; discriminate H|intros k r G; discriminate G]. Qed.

Lemma i1_mono s s' T T' :
  sub_pub (s_infl s') (s_infl s) -> (s_conn s' = true -> s_conn s = true) -> incl T T' -> i1 s T -> i1 s' T'.
Proof.
  intros S C I H Cn k r G Ty NI. apply (H (C Cn) k r); [apply S; assumption|exact Ty|].
  intros X. apply NI. apply I. exact X.
Qed.

Lemma i2_mono sl sl' s s' T T' :
  sub_pub (s_infl s') (s_infl s) -> incl T T' ->
  (0 <= s_sendq s' <= s_sendq s + (sl' - sl))%Z -> s_maxsend s' = s_maxsend s -> i2 sl s T -> i2 sl' s' T'.
Proof.
  intros S I Q M H k r G Ty NI E. rewrite M.
  destruct (H k r) as [A B]; [apply S; assumption|exact Ty| |exact E|].
  - intros X. apply NI. apply I. exact X.
  - split; [lia|exact B].
Qed.

Lemma all_sent_i s T :
  (forall k r, get k (s_infl s) = Some r -> r_ty r = T_PUBLISH -> In (r_uid r) T) -> i1 s T /\ i2 0 s T.
Proof. intros H. split; [intros _|]; intros k r G Ty NI; destruct (NI (H k r G Ty)). Qed.

Lemma teardown_i s T : i2 0 s T -> i1 (teardown s) T /\ i2 0 (teardown s) T.
Proof.
  intros H2. destruct (teardown_cases s) as [[_ ->]|[_ ->]]; [apply all_sent_i; intros k r G; discriminate G|].
  split; [intros Cn; discriminate Cn|exact H2].
Qed.

Lemma deferred_ghost s0 orc T :
  imm_ok (s_infl s0) -> i1 s0 T -> i2 1 s0 T ->
  let s' := fst (deferred s0 orc) in
  let T' := T ++ txs (snd (deferred s0 orc)) in
  i1 s' T' /\ i2 0 s' T'.
Proof.
  intros Im H1 H2.
  destruct (deferred_cases s0 orc Im) as [[-> N]|(p & r & _ & _ & _ & Q & _ & ->)]; cbn [fst snd].
  - (* nothing released: with quota left nothing is held back *)
    cbn [txs flat_map]. rewrite app_nil_r. split; [exact H1|].
    intros k r G Ty NIn Ex. destruct (H2 k r G Ty NIn Ex) as [A B]. split; [|exact B].
    destruct (Z.eq_dec (s_sendq s0) 0) as [Z0|NZ]; [lia|]. specialize (N ltac:(lia) k r G). lia.
  - split.
    + eapply i1_mono; [| |apply incl_appl, incl_refl|exact H1]; sproj; [apply sub_sub_pub, sub_del|tauto].
    + (* one unit is taken: the quota was exactly 1 if something still waits *)
      apply (i2_mono 1 0 s0 _ T); sproj; [apply sub_sub_pub, sub_del|apply incl_appl, incl_refl| |reflexivity|exact H2].
      unfold dec. replace (0 <? s_sendq s0)%Z with true by lia. lia.
Qed.

(* a handler: its own updates keep I1 and weaken I2 by at most one unit, the post-packet block restores it *)
Lemma handled_ghost c p lo s orc pre res T :
  cfg_ok c -> (0 <= lo)%Z -> ghost c s T -> handled c p lo s orc pre res ->
  i1 (fst res) (T ++ txs (snd res)) /\ i2 0 (fst res) (T ++ txs (snd res)).
Proof.
  intros C Lo [W H1 H2] (s0 & M & Sq & NP & ->). cbn [fst snd]. rewrite txs_app, <- (txs_pubs pre), NP. cbn [app txs flat_map].
  pose proof (frame_moves M) as F. pose proof (wf_sq c s W) as Q.
  pose proof (inc_le (s_sendq s) (s_maxsend s)) as IL.
  apply deferred_ghost.
  - apply (imm_ok_wf c), (wf_moves c p lo s s0); assumption.
  - apply (i1_mono s s0 T T); [exact (frame_pub p s s0 F)|rewrite (fr_conn p s s0 F); tauto|apply incl_refl|exact H1].
  - apply (i2_mono 0 1 s s0 T); [exact (frame_pub p s s0 F)|apply incl_refl| |apply F|exact H2].
    destruct Sq as [->| ->]; lia.
Qed.

Lemma out_publish_ghost c s T pq sq uid now mei pv qf :
  (0 <= now)%Z -> ghost c s T ->
  let res := out_publish c s pq sq uid now mei pv qf in
  i1 (fst res) (T ++ txs (snd res)) /\ i2 0 (fst res) (T ++ txs (snd res)).
Proof.
  intros Nw [W H1 H2]. cbn zeta.
  assert (Inc : forall t, incl T (T ++ t)) by (intros; apply incl_appl, incl_refl).
  assert (Same : forall s' t, s_infl s' = s_infl s -> s_conn s' = s_conn s ->
                 (forall k r, get k (s_infl s) = Some r -> r_ty r = T_PUBLISH -> ~ In (r_uid r) T -> (0 <= r_expiry r)%Z) \/
                 (s_sendq s' = s_sendq s /\ s_maxsend s' = s_maxsend s) ->
                 i1 s' (T ++ t) /\ i2 0 s' (T ++ t)).
  { intros s' t Ei Ec D. split.
    - apply (i1_mono s s' T); [rewrite Ei; apply sub_sub_pub, sub_refl|rewrite Ec; tauto|apply Inc|exact H1].
    - intros k r G Ty NI E. rewrite Ei in G. assert (NT : ~ In (r_uid r) T) by (intros X; apply NI, Inc, X).
      destruct D as [D|[-> ->]]; [specialize (D k r G Ty NT); lia|exact (H2 k r G Ty NT E)]. }
  (* where a new message is not held back, nothing untransmitted is being held back at all *)
  assert (None_held : ~ held s ->
            forall k r, get k (s_infl s) = Some r -> r_ty r = T_PUBLISH -> ~ In (r_uid r) T -> (0 <= r_expiry r)%Z).
  { intros NH k r G Ty NI. destruct (Z.ltb_spec (r_expiry r) 0) as [E|E]; [|exact E].
    destruct (H2 k r G Ty NI E). destruct NH. unfold held. lia. }
  destruct (out_publish_cases c s pq sq uid now mei pv qf) as [o _|i e _ Gi _ [Q0 Mx]|i e _ Gi _ Ex NH|i NH];
    cbn [fst snd].
  - apply Same; auto.
  - (* held back: the new record carries the mark, and the quota is 0 under a maximum *)
    cbn [txs flat_map]. rewrite app_nil_r. unfold stored. split.
    + intros Cn k r G Ty NI. sproj_in G. cbn [get] in G. destruct (i =? k); [|exact (H1 Cn k r G Ty NI)].
      inversion G; subst. apply hold_expiry_neg.
    + intros k r G Ty NI E. sproj. lia.
  - specialize (None_held NH). specialize (Ex Nw). unfold stored. split.
    + intros Cn k r G Ty NI. sproj_in G. sproj_in Cn. rewrite Cn in NI. cbn [get] in G. destruct (i =? k).
      * inversion G; subst. destruct NI. apply in_or_app. right. left. reflexivity.
      * apply (H1 Cn k r G Ty). intros X. apply NI, Inc, X.
    + intros k r G Ty NI E. exfalso. sproj_in G. cbn [get] in G. destruct (i =? k).
      * inversion G; subst. cbn in E. lia.
      * specialize (None_held k r G Ty (fun X => NI (Inc _ _ X))). lia.
  - apply Same; try reflexivity. left. exact (None_held NH).
Qed.

Lemma reconnect_ghost c s T v5 clean sei rm orc :
  ghost c s T ->
  let res := reconnect c s v5 clean sei rm orc in
  i1 (fst res) (T ++ txs (snd res)) /\ i2 0 (fst res) (T ++ txs (snd res)).
Proof.
  intros [W _ _]. cbn zeta. apply all_sent_i.
  destruct (reconnect_cases c s v5 clean sei rm orc) as [(_ & ->)|(_ & z & ->)]; cbn [fst snd]; sproj; intros k r G Ty.
  - discriminate G.
  - (* every stored PUBLISH is transmitted in this step *)
    apply in_or_app. right. rewrite txs_cons. apply in_or_app. right. apply in_txs_resend. exists k, r.
    split; [|tauto]. apply (get_all_spec orc _ (wf_nodup c s W)). apply resend_sub in G. exact G.
Qed.

Lemma deferred_closed_silent s orc : s_conn s = false -> snd (deferred s orc) = [].
Proof.
  intros Cn. destruct (deferred_shape s orc) as [[-> _]|(p & r & _ & _ & ->)]; [reflexivity|]. cbn [snd]. rewrite Cn. reflexivity.
Qed.

Lemma step_i1_i2 c s T o orc :
  cfg_ok c -> op_ok o -> ghost c s T ->
  let res := step c s o orc in
  i1 (fst res) (T ++ txs (snd res)) /\ i2 0 (fst res) (T ++ txs (snd res)).
Proof.
  intros C O G. pose proof G as [W H1 H2]. cbn zeta.
  assert (Idle : i1 s (T ++ txs []) /\ i2 0 s (T ++ txs [])) by (cbn; rewrite app_nil_r; tauto).
  destruct o; cbn [step op_ok] in *.
  - destruct (s_present s); [apply out_publish_ghost; assumption|exact Idle].
  - destruct (s_present s && s_conn s); [|exact Idle].
    destruct (in_publish_handled c s qos pid uid now orc) as [->|(pre & Hd)].
    + cbn. rewrite app_nil_r. apply teardown_i; assumption.
    + exact (handled_ghost c pid now s orc pre _ T C O G Hd).
  - destruct (s_present s && s_conn s); [|exact Idle].
    destruct (in_ack_handled c s ty pid rc now orc) as [->|(pre & _ & Hd)]; [exact Idle|].
    exact (handled_ghost c pid now s orc pre _ T C O G Hd).
  - destruct (s_present s && s_conn s); [|exact Idle].
    exact (handled_ghost c 0 0 s orc [] _ T C (Z.le_refl 0) G (handled_idle c s orc)).
  - destruct (s_present s && s_conn s); [|exact Idle].
    destruct graceful; [rewrite let_pair|]; cbn [fst snd txs flat_map]; rewrite app_nil_r; [|apply teardown_i; assumption].
    destruct (deferred_ghost (with_conn s false) orc T) as [_ B]; [exact (imm_ok_wf c s W)|intros Cn; discriminate Cn| |].
    + intros k r Gk Ty NI E. destruct (H2 k r Gk Ty NI E). sproj. split; [lia|assumption].
    + rewrite (deferred_closed_silent (with_conn s false) orc eq_refl) in B. cbn in B. rewrite app_nil_r in B.
      apply teardown_i, B.
  - apply reconnect_ghost; assumption.
  - destruct (s_present s); [|exact Idle]. cbn [fst snd txs flat_map]. rewrite app_nil_r.
    assert (S : sub_pub (filter (fun kv => negb (expired c now (snd kv))) (s_infl s)) (s_infl s))
      by (apply sub_sub_pub, sub_filter, W).
    split; [apply (i1_mono s _ T T)|apply (i2_mono 0 0 s _ T T)]; sproj; try assumption; try tauto; try apply incl_refl.
    pose proof (wf_sq c s W). lia.
Qed.

Theorem step_ghost c s T o orc :
  cfg_ok c -> op_ok o -> ghost c s T ->
  ghost c (fst (step c s o orc)) (T ++ txs (snd (step c s o orc))).
Proof.
  intros C O G. destruct (step_i1_i2 c s T o orc C O G) as [A B].
  constructor; [apply step_wf; [exact C|exact O|apply G]|exact A|exact B].
Qed.

Lemma run_txs_inv (I : st -> list N -> Prop) (P : op -> Prop) c :
  (forall s T o orc, P o -> I s T -> I (fst (step c s o orc)) (T ++ txs (snd (step c s o orc)))) ->
  forall h s T, (forall o orc, In (o, orc) h -> P o) -> I s T ->
  I (fst (run c s h)) (T ++ txs (concat (snd (run c s h)))).
Proof.
  intros St h s T H H0.
  refine (run_inv (fun s O => I s (T ++ txs O)) P c _ h s [] _ H).
  - intros s1 O o orc I1 Po. rewrite txs_app, app_assoc. apply St; assumption.
  - cbn. rewrite app_nil_r. exact H0.
Qed.

Theorem run_ghost c : cfg_ok c -> forall h s T,
  hist_ok h -> ghost c s T -> ghost c (fst (run c s h)) (T ++ txs (concat (snd (run c s h)))).
Proof.
  intros C h s T. apply (run_txs_inv (ghost c) op_ok). intros s1 T1 o orc O G. apply step_ghost; assumption.
Qed.

(* How a step can write PUBLISH packets: none, the message being published (direct), one held-back message released by
   the post-packet block, or the sorted resend of a resumed session. *)
Definition released (s s' : st) (t : list out) : Prop :=
  exists s0 p r, sub_pub (s_infl s0) (s_infl s) /\ s_conn s = true /\
    get p (s_infl s0) = Some r /\ r_ty r = T_PUBLISH /\
    t = [OPkt T_PUBLISH p false (r_qos r) (r_uid r) 0] /\
    (forall k' r', get k' (s_infl s0) = Some r' -> (r_expiry r' < 0)%Z -> (key16 r <= key16 r')%Z) /\
    sub_pub (s_infl s') (s_infl s0).

Lemma handled_shape c p lo s orc pre res :
  cfg_ok c -> (0 <= lo)%Z -> wf c s -> handled c p lo s orc pre res ->
  sub_pub (s_infl (fst res)) (s_infl s) /\
  (pubs (snd res) = [] \/ released s (fst res) (pubs (snd res))).
Proof.
  intros C Lo W (s0 & M & _ & NP & ->). cbn [fst snd]. rewrite pubs_app, NP. cbn [app].
  pose proof (frame_moves M) as F. pose proof (frame_pub p s s0 F) as Sub.
  assert (Sub' : sub_pub (s_infl (fst (deferred s0 orc))) (s_infl s0)) by apply sub_sub_pub, deferred_sub.
  split; [exact (sub_pub_trans _ _ _ Sub' Sub)|].
  destruct (deferred_cases s0 orc) as [[E _]|(p' & r & G & _ & Ty & _ & Min & E)];
    [apply (imm_ok_wf c), (wf_moves c p lo s s0); assumption|rewrite E; left; reflexivity|].
  rewrite E in *. cbn [fst snd]. destruct (s_conn s0) eqn:C0; [right|left; reflexivity].
  exists s0, p', r. cbn. rewrite <- (fr_conn p s s0 F). repeat split; assumption.
Qed.

Definition own_record (o : op) (r : rec) : Prop :=
  match o with
  | OutPublish pq sq uid _ now _ _ _ => r_uid r = uid /\ r_created r = now /\ 0 < (if sq <? pq then sq else pq)
  | _ => False
  end.

Lemma teardown_sub s : submap (s_infl (teardown s)) (s_infl s).
Proof. destruct (teardown_cases s) as [[_ ->]|[_ ->]]; [intros k r G; discriminate G|apply sub_refl]. Qed.

Lemma step_rec_source c s o orc k r :
  cfg_ok c -> op_ok o -> wf c s ->
  get k (s_infl (fst (step c s o orc))) = Some r -> r_ty r = T_PUBLISH ->
  get k (s_infl s) = Some r \/ own_record o r.
Proof.
  intros C O W. destruct o; cbn [step op_ok] in *.
  - destruct (s_present s); [|tauto].
    destruct (out_publish_cases c s pubqos subqos uid now mei ppv5 qfull) as [o _|i e _ _ Q _|i e _ _ Q _ _|i _];
      cbn [fst]; unfold stored; sproj; try tauto; cbn [get]; (destruct (i =? k); [|tauto]);
      intros G _; inversion G; subst; right; cbn; auto.
  - destruct (s_present s && s_conn s); [|tauto]. intros G Ty. left. revert G Ty.
    destruct (in_publish_handled c s qos pid uid now orc) as [->|(pre & Hd)].
    + intros G _. exact (teardown_sub s k r G).
    + exact (proj1 (handled_shape c pid now s orc pre _ C O W Hd) k r).
  - destruct (s_present s && s_conn s); [|tauto]. intros G Ty. left. revert G Ty.
    destruct (in_ack_handled c s ty pid rc now orc) as [->|(pre & _ & Hd)]; [tauto|].
    exact (proj1 (handled_shape c pid now s orc pre _ C O W Hd) k r).
  - destruct (s_present s && s_conn s); [|tauto]. intros G _. left. exact (deferred_sub s orc k r G).
  - destruct (s_present s && s_conn s); [|tauto]. intros G _. left.
    destruct graceful; [rewrite let_pair in G|]; apply teardown_sub in G; [|exact G].
    exact (deferred_sub (with_conn s false) orc k r G).
  - intros G _. left.
    destruct (reconnect_cases c s v5 clean sei rm orc) as [(_ & E)|(_ & z & E)]; rewrite E in G; [discriminate G|].
    exact (resend_sub _ _ k r G).
  - destruct (s_present s); [|tauto]. intros G _. left. exact (sub_filter _ _ (wf_nodup c s W) k r G).
Qed.

Definition direct (c : cfg) (s : st) (o : op) (t : list out) : Prop :=
  match o with
  | OutPublish pq sq uid _ _ _ _ _ =>
      let q := if sq <? pq then sq else pq in
      exists i, t = [OPkt T_PUBLISH i false q uid 0] /\ s_conn s = true /\
        (q = 0 \/ ~ held s /\ 1 <= i <= c_maxpid c)
  | _ => False
  end.

Definition resumed (s s' : st) (t : list out) : Prop :=
  exists lst, t = pubs (map (fun kv => pkt_of_rec true (fst kv) (snd kv)) lst) /\
    sorted_keys (map (fun kv => key16 (snd kv)) lst) /\
    (forall k r, In (k, r) lst -> get k (s_infl s) = Some r) /\
    (forall k r, get k (s_infl s') = Some r -> r_ty r = T_PUBLISH -> In (r_uid r) (txs t)).

Lemma step_shape c s o orc :
  cfg_ok c -> op_ok o -> wf c s ->
  let res := step c s o orc in
  let t := pubs (snd res) in
  t = [] \/ direct c s o t \/ released s (fst res) t \/ resumed s (fst res) t.
Proof.
  intros C O W. destruct o; cbn [step op_ok] in *.
  - destruct (s_present s); [|left; reflexivity].
    destruct (out_publish_cases c s pubqos subqos uid now mei ppv5 qfull)
      as [o [->|[->|(-> & Q0 & Cn)]]|i e _ _ _ _|i e R _ _ _ NH|i _];
      cbn [snd]; try (left; reflexivity).
    + right; left. exists 0. rewrite Q0. auto.
    + destruct (s_conn s) eqn:Cn; [right; left; exists i; auto|left; reflexivity].
  - destruct (s_present s && s_conn s); [|left; reflexivity].
    destruct (in_publish_handled c s qos pid uid now orc) as [->|(pre & Hd)]; [left; reflexivity|].
    destruct (proj2 (handled_shape c pid now s orc pre _ C O W Hd)); auto.
  - destruct (s_present s && s_conn s); [|left; reflexivity].
    destruct (in_ack_handled c s ty pid rc now orc) as [->|(pre & _ & Hd)]; [left; reflexivity|].
    destruct (proj2 (handled_shape c pid now s orc pre _ C O W Hd)); auto.
  - destruct (s_present s && s_conn s); [|left; reflexivity].
    destruct (proj2 (handled_shape c 0 0 s orc [] _ C (Z.le_refl 0) W (handled_idle c s orc))); auto.
  - left. destruct (s_present s && s_conn s); [|reflexivity].
    destruct graceful; [rewrite let_pair|]; reflexivity.
  - destruct (reconnect_cases c s v5 clean sei rm orc) as [(_ & ->)|(_ & z & ->)]; [left; reflexivity|].
    destruct (get_all_spec orc _ (wf_nodup c s W)) as [S I].
    right; right; right. exists (get_all orc (s_infl s)). cbn [fst snd].
    split; [reflexivity|]. split; [apply sorted16_keys, S|]. split; [intros k r In; apply I, In|].
    sproj. intros k r G Ty. rewrite txs_pubs. apply in_txs_resend. exists k, r. split; [apply I, (resend_sub _ _ k r G)|tauto].
  - left. destruct (s_present s); reflexivity.
Qed.

Lemma step_tx_source c s o orc u :
  cfg_ok c -> op_ok o -> wf c s -> In u (txs (snd (step c s o orc))) ->
  match o with OutPublish _ _ uid _ _ _ _ _ => uid = u | _ => False end \/
  exists k r, get k (s_infl s) = Some r /\ r_ty r = T_PUBLISH /\ r_uid r = u.
Proof.
  intros C O W I. rewrite <- txs_pubs in I. destruct (step_shape c s o orc C O W) as [E|[D|[R|R]]]; cbn zeta in *.
  - rewrite E in I. destruct I.
  - destruct o; try contradiction. destruct D as (i & Et & _). rewrite Et in I. destruct I as [I|[]]. left. exact I.
  - destruct R as (s0 & p & r & Sub & _ & Gp & Ty & Et & _). rewrite Et in I. destruct I as [I|[]].
    right. exists p, r. split; [apply Sub; assumption|tauto].
  - destruct R as (lst & Et & _ & InS & _). rewrite Et, txs_pubs in I. apply in_txs_resend in I. destruct I as (k & r & I & H).
    right. exists k, r. split; [apply InS, I|exact H].
Qed.

(* C10: every outbound QoS 1/2 PUBLISH the session ever writes — first transmission, held-back release or
   resend — carries an identifier between 1 and the configured maximumPacketID (c_maxpid) *)
Theorem publish_ids_in_range c s o orc :
  cfg_ok c -> op_ok o -> wf c s ->
  forall p d q u rc, In (OPkt T_PUBLISH p d q u rc) (snd (step c s o orc)) -> 0 < q -> 1 <= p <= c_maxpid c.
Proof.
  intros C O W p d q u rc I Q.
  assert (I' : In (OPkt T_PUBLISH p d q u rc) (pubs (snd (step c s o orc)))) by (apply filter_In; split; [exact I|reflexivity]).
  destruct (step_shape c s o orc C O W) as [E|[D|[R|R]]]; cbn zeta in *.
  - rewrite E in I'. destruct I'.
  - destruct o; try contradiction. destruct D as (i & Et & _ & D). rewrite Et in I'. destruct I' as [I'|[]].
    inversion I'; subst. destruct D as [Z|[_ R]]; [lia|exact R].
  - (* released: the identifier of a stored PUBLISH record *)
    destruct R as (s0 & p' & r & Sub & _ & G & Ty & Et & _). rewrite Et in I'. destruct I' as [I'|[]].
    inversion I'; subst. exact (wf_pub c s W p r (Sub p r G Ty) Ty).
  - destruct R as (lst & Et & _ & InS & _). rewrite Et in I'. apply filter_In in I'. destruct I' as [I' _].
    apply in_map_iff in I'. destruct I' as ([k r] & Eq & In'). apply pkt_of_rec_inv in Eq. cbn [fst snd] in Eq.
    destruct Eq as (T & -> & _). exact (wf_pub c s W k r (InS k r In') T).
Qed.

Lemma sorted_keys_head a l : sorted_keys (a :: l) -> forall b, In b l -> (a <= b)%Z.
Proof.
  revert a. induction l as [|x l IH]; intros a S b I; [destruct I|]. destruct S as [S1 S2].
  destruct I as [->|I]; [exact S1|]. specialize (IH x S2 b I). lia.
Qed.

Section Pair.
  Variables (c : cfg) (u1 u2 : N) (n1 n2 : Z) (q1 q2 : N).
  Hypothesis C : cfg_ok c.
  Hypothesis Hne : u1 <> u2.
  (* the stamps increase strictly after truncation to 16 bits: exactly what KF_C12_created_order is about *)
  Hypothesis Hkey : (n1 mod 65536 < n2 mod 65536)%Z.
  (* same QoS in the property; what is needed is only: if the first message is a QoS 1/2 delivery so is the second *)
  Hypothesis Hq : q1 = 0 \/ 0 < q2.

  (* every publishToClient of message u happens at second n with delivered QoS q *)
  Definition tagged (u : N) (n : Z) (q : N) (o : op) : Prop :=
    match o with
    | OutPublish pq sq uid _ now _ _ _ => uid = u -> now = n /\ (if sq <? pq then sq else pq) = q
    | _ => True
    end.
  Definition not_pub (u : N) (o : op) : Prop :=
    match o with OutPublish _ _ uid _ _ _ _ _ => uid <> u | _ => True end.

  (* at (any) transmission of u2 before which u1 has not been transmitted, u1 is not transmitted later either:
     with the first transmission of u2 this says "first transmissions in publish order, if both are delivered" *)
  Definition ord_ok (l : list N) : Prop :=
    forall pre post, l = pre ++ u2 :: post -> ~ In u1 pre -> ~ In u1 post.

  Lemma ord_nil_u2 l : ~ In u2 l -> ord_ok l.
  Proof. intros H pre post E. exfalso. apply H. rewrite E. apply in_or_app. right. left. reflexivity. Qed.

  Lemma ord_single x : ord_ok [x].
  Proof.
    intros pre post E _. destruct pre as [|y pre]; cbn in E.
    - inversion E; subst. intros [].
    - inversion E as [[E1 E2]]. destruct pre; discriminate E2.
  Qed.

  Lemma ord_cons x l : ord_ok l -> (x = u2 -> ~ In u1 l) -> ord_ok (x :: l).
  Proof.
    intros O H pre post E NI. destruct pre as [|y pre]; cbn in E; inversion E; subst.
    - apply H. reflexivity.
    - apply (O pre post eq_refl). intros X. apply NI. right. exact X.
  Qed.

  Lemma ord_app T t :
    ord_ok T -> (~ In u1 T -> In u2 T -> ~ In u1 t) -> (~ In u1 T -> ~ In u2 T -> ord_ok t) -> ord_ok (T ++ t).
  Proof.
    intros O H1 H2 pre post E NI.
    (* where does the split fall? *)
    apply app_eq_app in E. destruct E as (l & [[ET El]|[EP Et]]).
    - destruct l as [|x l]; cbn in El.
      + rewrite app_nil_r in ET. subst pre t.
        destruct (in_dec N.eq_dec u2 T) as [I2|N2]; [|exact (H2 NI N2 [] post eq_refl (fun X => X))].
        intros X. apply (H1 NI I2). right. exact X.
      + inversion El; subst x post. pose proof (O pre l ET NI) as NP.
        intros I. apply in_app_or in I. destruct I as [I|I]; [exact (NP I)|]. revert I. apply H1.
        * rewrite ET. intros X. apply in_app_or in X. destruct X as [X|[X|X]]; [exact (NI X)|exact (Hne (eq_sym X))|exact (NP X)].
        * rewrite ET. apply in_or_app. right. left. reflexivity.
    - subst pre. assert (NT : ~ In u1 T) by (intros X; apply NI; apply in_or_app; left; exact X).
      assert (NP' : ~ In u1 l) by (intros X; apply NI; apply in_or_app; right; exact X).
      destruct (in_dec N.eq_dec u2 T) as [I2|N2]; [|exact (H2 NT N2 l post Et NP')].
      intros X. apply (H1 NT I2). rewrite Et. apply in_or_app. right. right. exact X.
  Qed.

  Definition kept (u : N) (n : Z) (q : N) (s : st) : Prop :=
    forall k r, get k (s_infl s) = Some r -> r_ty r = T_PUBLISH -> r_uid r = u -> r_created r = n /\ 0 < q.

  Lemma kept_step u n q s o orc :
    op_ok o -> wf c s -> tagged u n q o -> kept u n q s -> kept u n q (fst (step c s o orc)).
  Proof.
    intros O W Tg K k r G Ty U.
    destruct (step_rec_source c s o orc k r C O W G Ty) as [G0|Own]; [apply (K k r); assumption|].
    destruct o; cbn [own_record] in Own; try contradiction. cbn [tagged] in Tg.
    destruct Own as (E1 & E2 & E3). rewrite E1 in U. destruct (Tg U) as [A B]. split; [congruence|]. rewrite <- B. exact E3.
  Qed.

  Lemma sorted_ord lst :
    sorted_keys (map (fun kv => key16 (snd kv)) lst) ->
    (forall k r, In (k, r) lst -> r_ty r = T_PUBLISH -> r_uid r = u1 -> r_created r = n1) ->
    (forall k r, In (k, r) lst -> r_ty r = T_PUBLISH -> r_uid r = u2 -> r_created r = n2) ->
    ord_ok (txs (map (fun kv => pkt_of_rec true (fst kv) (snd kv)) lst)).
  Proof.
    induction lst as [|[k0 r0] lst IH]; intros S K1 K2; [apply ord_nil_u2; intros []|].
    cbn [map fst snd]. rewrite txs_cons, tx_of_rec.
    assert (IH' : ord_ok (txs (map (fun kv => pkt_of_rec true (fst kv) (snd kv)) lst))).
    { apply IH; [destruct lst; [exact Logic.I|exact (proj2 S)]| |]; intros k r I; [apply (K1 k r)|apply (K2 k r)]; right; exact I. }
    destruct (r_ty r0 =? T_PUBLISH) eqn:Ty; [|exact IH']. cbn [app].
    apply ord_cons; [exact IH'|]. intros U2 I.
    (* r0 is message u2; some later record is message u1: its key would have to be at least as large *)
    apply in_txs_resend in I. destruct I as (k & r & I & Tr & Ur).
    pose proof (sorted_keys_head _ _ S (key16 r) (in_map (fun kv => key16 (snd kv)) _ _ I)) as Ge. cbn [snd] in Ge.
    assert (A : r_created r0 = n2) by (apply (K2 k0 r0); [left; reflexivity|lia|exact U2]).
    assert (B : r_created r = n1) by (apply (K1 k r); [right; exact I|exact Tr|exact Ur]).
    unfold key16 in Ge. rewrite A, B in Ge. lia.
  Qed.

  (* phase A: message u2 has not been published yet *)
  Record phaseA (s : st) (T : list N) : Prop := {
    a_ghost : ghost c s T;
    a_k1 : kept u1 n1 q1 s;
    a_no2 : ~ In u2 T;
    a_norec2 : forall k r, get k (s_infl s) = Some r -> r_ty r = T_PUBLISH -> r_uid r <> u2 }.

  Lemma phaseA_step s T o orc :
    op_ok o /\ tagged u1 n1 q1 o /\ not_pub u2 o -> phaseA s T ->
    phaseA (fst (step c s o orc)) (T ++ txs (snd (step c s o orc))).
  Proof.
    intros (O & Tg & NP) [G K1 N2 NR]. pose proof (g_wf c s T G) as W.
    constructor.
    - apply step_ghost; assumption.
    - apply kept_step; assumption.
    - intros I. apply in_app_or in I. destruct I as [I|I]; [exact (N2 I)|].
      destruct (step_tx_source c s o orc u2 C O W I) as [Own|(k & r & Gk & Ty & U)]; [|exact (NR k r Gk Ty U)].
      destruct o; contradiction.
    - intros k r Gk Ty U.
      destruct (step_rec_source c s o orc k r C O W Gk Ty) as [G0|Own]; [exact (NR k r G0 Ty U)|].
      destruct o; cbn [own_record] in Own; try contradiction. apply NP. destruct Own as [E _]. congruence.
  Qed.

  (* phase B: message u1 is not published any more *)
  Record phaseB (s : st) (T : list N) : Prop := {
    b_ghost : ghost c s T;
    b_k1 : kept u1 n1 q1 s;
    b_k2 : kept u2 n2 q2 s;
    b_dead : In u2 T -> ~ In u1 T -> forall k r, get k (s_infl s) = Some r -> r_ty r = T_PUBLISH -> r_uid r <> u1;
    b_ord : ord_ok T }.

  Lemma phaseA_B s T : phaseA s T -> phaseB s T.
  Proof.
    intros [G K1 N2 NR]. constructor; [exact G|exact K1| | |apply ord_nil_u2; exact N2].
    - intros k r Gk Ty U. exfalso. exact (NR k r Gk Ty U).
    - intros I. exfalso. exact (N2 I).
  Qed.

  Lemma phaseB_step s T o orc :
    op_ok o /\ not_pub u1 o /\ tagged u2 n2 q2 o -> phaseB s T ->
    phaseB (fst (step c s o orc)) (T ++ txs (snd (step c s o orc))).
  Proof.
    intros (O & NP & Tg) [G K1 K2 D Od]. pose proof G as [W H1 H2].
    (* a stored PUBLISH of u1 after the step was stored before it *)
    assert (Old : forall k r, get k (s_infl (fst (step c s o orc))) = Some r -> r_ty r = T_PUBLISH -> r_uid r = u1 ->
                  get k (s_infl s) = Some r).
    { intros k r Gk Ty U. destruct (step_rec_source c s o orc k r C O W Gk Ty) as [G0|Own]; [exact G0|].
      exfalso. destruct o; cbn [own_record] in Own; try contradiction. apply NP. destruct Own as [E _]. congruence. }
    pose proof (step_shape c s o orc C O W) as Sh. cbn zeta in Sh. pose proof (txs_pubs (snd (step c s o orc))) as Et0.
    constructor.
    - apply step_ghost; assumption.
    - apply kept_step; try assumption. destruct o; cbn [tagged not_pub] in *; try exact Logic.I. intros E. destruct (NP E).
    - apply kept_step; assumption.
    - intros I2 N1 k r Gk Ty U. pose proof (Old k r Gk Ty U) as G0.
      assert (NT : ~ In u1 T) by (intros X; apply N1, in_or_app; left; exact X).
      apply in_app_or in I2. destruct I2 as [I2|I2]; [exact (D I2 NT k r G0 Ty U)|].
      (* u2 is transmitted in this very step although a stored u1 never was *)
      rewrite <- U in NT. rewrite <- Et0 in I2. destruct Sh as [E|[Dr|[R|R]]].
      + rewrite E in I2. destruct I2.
      + (* sent straight away: but u1 is still held back, so the quota is 0 *)
        destruct o; try contradiction. destruct Dr as (i & Et & Cn & Cond). rewrite Et in I2.
        destruct I2 as [I2|[]]. cbn [tagged] in Tg. destruct (Tg I2) as [_ Eq].
        pose proof (H1 Cn k r G0 Ty NT) as Mk. destruct (H2 k r G0 Ty NT Mk) as [A B].
        destruct (K1 k r G0 Ty U) as [_ Q1]. destruct Hq as [Z|Q2]; [rewrite Z in Q1; destruct (N.lt_irrefl _ Q1)|].
        destruct Cond as [Z|[NC _]]; [rewrite Eq in Z; rewrite Z in Q2; destruct (N.lt_irrefl _ Q2)|].
        apply NC. split; [apply Z.le_antisymm; apply A|exact B].
      + (* released: the smaller key would have gone first *)
        destruct R as (s0 & p & r2 & Sub & Cs & Gp & Typ & Et & Min & Sub'). rewrite Et in I2.
        destruct I2 as [I2|[]].
        pose proof (Min k r (Sub' k r Gk Ty) (H1 Cs k r G0 Ty NT)) as Le.
        destruct (K1 k r G0 Ty U) as [Cr1 _]. destruct (K2 p r2 (Sub p r2 Gp Typ) Typ I2) as [Cr2 _].
        unfold key16 in Le. rewrite Cr1, Cr2 in Le. exact (Z.lt_irrefl _ (Z.lt_le_trans _ _ _ Hkey Le)).
      + (* resent: then so is u1 *)
        destruct R as (lst & _ & _ & _ & All). apply N1, in_or_app. right. rewrite <- U, <- Et0. exact (All k r Gk Ty).
    - apply ord_app; [exact Od| |].
      + (* u2 came first and u1 never: no stored PUBLISH is u1 any more *)
        intros N1 I2 X. destruct (step_tx_source c s o orc u1 C O W X) as [Own|(k & r & Gk & Ty & U)]; [|exact (D I2 N1 k r Gk Ty U)].
        destruct o; contradiction.
      + intros _ _. rewrite <- Et0. destruct Sh as [E|[Dr|[R|R]]].
        * rewrite E. apply ord_nil_u2. intros [].
        * destruct o; try contradiction. destruct Dr as (i & -> & _). apply ord_single.
        * destruct R as (s0 & p & r & _ & _ & _ & _ & -> & _). apply ord_single.
        * destruct R as (lst & -> & Srt & InS & _). rewrite txs_pubs. apply sorted_ord; [exact Srt| |]; intros k r I Ty U;
            [apply (K1 k r)|apply (K2 k r)]; auto.
  Qed.

  Definition hist_all (P : op -> Prop) (h : list (op * list N)) : Prop := forall o orc, In (o, orc) h -> P o.

  Lemma hist_all_and P Q h : hist_all P h -> hist_all Q h -> hist_all (fun o => P o /\ Q o) h.
  Proof. intros H1 H2 o orc I. split; [exact (H1 o orc I)|exact (H2 o orc I)]. Qed.

  (* C12, whole histories: ha = everything up to (and including) the last publication of message u1, hb = everything
     from the first publication of message u2 on.  For every oracle the first transmissions are in publish order. *)
  Theorem first_transmissions_in_order ha hb :
    hist_all op_ok (ha ++ hb) ->
    hist_all (tagged u1 n1 q1) ha -> hist_all (not_pub u2) ha ->
    hist_all (not_pub u1) hb -> hist_all (tagged u2 n2 q2) hb ->
    ord_ok (txs (concat (snd (run c init_st (ha ++ hb))))).
  Proof.
    intros Ok T1 NP2 NP1 T2.
    assert (OkA : hist_all op_ok ha) by (intros o orc I; apply (Ok o orc); apply in_or_app; left; exact I).
    assert (OkB : hist_all op_ok hb) by (intros o orc I; apply (Ok o orc); apply in_or_app; right; exact I).
    assert (P0 : phaseA init_st []).
    { constructor; [apply ghost_init|intros k r G; discriminate G|intros []|intros k r G; discriminate G]. }
    pose proof (run_txs_inv phaseA _ c (fun s T o orc => phaseA_step s T o orc) ha init_st []
                  (hist_all_and _ _ _ OkA (hist_all_and _ _ _ T1 NP2)) P0) as PA. cbn [app] in PA.
    pose proof (run_txs_inv phaseB _ c (fun s T o orc => phaseB_step s T o orc) hb _ _
                  (hist_all_and _ _ _ OkB (hist_all_and _ _ _ NP1 T2)) (phaseA_B _ _ PA)) as PB.
    rewrite run_app. cbn [snd]. rewrite concat_app, txs_app. apply PB.
  Qed.
End Pair.

(* the same in "first occurrence" words: if both messages are transmitted, u1's first transmission comes first *)
Lemma ord_ok_first u1 u2 l pre post :
  u1 <> u2 -> ord_ok u1 u2 l -> l = pre ++ u2 :: post -> ~ In u2 pre -> In u1 l -> In u1 pre.
Proof.
  intros Ne O E _ I. destruct (in_dec N.eq_dec u1 pre) as [Y|NY]; [exact Y|]. exfalso.
  rewrite E in I. apply in_app_or in I. destruct I as [I|[I|I]]; [exact (NY I)|exact (Ne (eq_sym I))|].
  exact (O pre post E NY I).
Qed.
