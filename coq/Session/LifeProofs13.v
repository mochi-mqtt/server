(* C13 — proofs: for every history of operations in which new connections get fresh numbers ([fresh_conns]) the
   life-cycle model never violates the C13 monitor (first packet is exactly one CONNACK, success only if an
   authentication hook allows, an invalid first packet / invalid CONNECT is refused).  Also [tstep_of], [run_mon_inv]
   and [run_mon_clean], the scheme by which LifeProofs14, 15 and 15J too carry an invariant along a trace. *)
From MV Require Import Base.Val Base.ListMisc Session.Lifecycle Session.LifeSpec Session.LifeBase Session.LifeStep.
Open Scope N_scope.

Definition tstep_of (k : caps) (s : state) (o : op) : tstep :=
  {| t_op := o; t_outs := snd (step k s o); t_hooks := hook_events k s o; t_pre := s; t_post := fst (step k s o) |}.

Lemma trace_cons k s o r :
  trace k s (o :: r) = tstep_of k s o :: trace k (fst (step k s o)) r.
Proof. cbn [trace]. unfold tstep_of. destruct (step k s o). reflexivity. Qed.

(* [Inv] also sees the operations still to come: C13 assumes of them that new connections get fresh numbers *)
Lemma run_mon_inv {M} (k : caps) (stepf : nat -> M -> obs -> M * list viol) (P : viol -> Prop)
      (Inv : M -> state -> list op -> Prop) :
  (forall i m s o r, Inv m s (o :: r) ->
      Inv (fst (stepf i m (obs_of (tstep_of k s o)))) (fst (step k s o)) r /\
      Forall P (snd (stepf i m (obs_of (tstep_of k s o))))) ->
  forall ops i m s, Inv m s ops -> Forall P (run_mon stepf i m (map obs_of (trace k s ops))).
Proof.
  intros H ops. induction ops as [|o r IH]; intros i m s I; [constructor|].
  rewrite trace_cons. cbn [map run_mon].
  destruct (H i m s o r I) as [I' F].
  destruct (stepf i m (obs_of (tstep_of k s o))) as [m' v]. cbn [fst snd] in *.
  apply Forall_app. split; [exact F|apply IH, I'].
Qed.

Lemma run_mon_clean {M} (k : caps) (stepf : nat -> M -> obs -> M * list viol) (Inv : M -> state -> list op -> Prop) :
  (forall i m s o r, Inv m s (o :: r) ->
      Inv (fst (stepf i m (obs_of (tstep_of k s o)))) (fst (step k s o)) r /\ snd (stepf i m (obs_of (tstep_of k s o))) = []) ->
  forall ops i m s, Inv m s ops -> run_mon stepf i m (map obs_of (trace k s ops)) = [].
Proof.
  intros H ops i m s I. assert (A : Forall (fun _ => False) (run_mon stepf i m (map obs_of (trace k s ops)))).
  { apply (run_mon_inv k stepf _ Inv); [|exact I]. intros i' m' s' o r I'. destruct (H i' m' s' o r I') as [J E]. split; [exact J|rewrite E; constructor]. }
  destruct (run_mon _ _ _ _); [reflexivity|inversion A; contradiction].
Qed.

(* connection numbers of new connections are fresh (the harness numbers connections consecutively) *)
Fixpoint fresh_conns (used : list N) (ops : list op) : bool :=
  match ops with
  | [] => true
  | OConnect c _ _ _ _ :: r | OBadFirst c _ :: r => negb (memN c used) && fresh_conns (c :: used) r
  | _ :: r => fresh_conns used r
  end.

Lemma m13_pkts_app i st a b :
  m13_pkts i st (a ++ b) =
  (fst (m13_pkts i (fst (m13_pkts i st a)) b), snd (m13_pkts i st a) ++ snd (m13_pkts i (fst (m13_pkts i st a)) b)).
Proof.
  revert st. induction a as [|x a IH]; intro st; cbn [app m13_pkts fst snd].
  - destruct (m13_pkts i st b). reflexivity.
  - destruct x; try apply IH.
    destruct (is_connack p).
    + destruct (memN c st).
      * rewrite IH. destruct (m13_pkts i st a). cbn [fst snd]. destruct (m13_pkts i l b). reflexivity.
      * apply IH.
    + rewrite IH. destruct (m13_pkts i st a). cbn [fst snd]. destruct (m13_pkts i l b). cbn [fst snd].
      destruct (memN c st); reflexivity.
Qed.

Lemma m13_pkts_quiet i st outs :
  (forall c p, In (OPkt c p) outs -> is_connack p = false /\ memN c st = true) ->
  m13_pkts i st outs = (st, []).
Proof.
  induction outs as [|x r IH]; intro H; cbn [m13_pkts]; [reflexivity|].
  assert (Hr : forall c p, In (OPkt c p) r -> is_connack p = false /\ memN c st = true)
    by (intros c p I; apply H; right; exact I).
  destruct x; try (apply IH, Hr).
  destruct (H c p (or_introl eq_refl)) as [A B]. rewrite A, (IH Hr), B. reflexivity.
Qed.

Lemma validate_ok_spec k p : cp_trunc p = false -> validate_connect k p = 0 -> connect_ok_spec p = true.
Proof.
  intros T V. unfold validate_connect in V.
  destruct (connect_validate p =? 0) eqn:CV; cbn [negb] in V; [|apply N.eqb_neq in CV; congruence].
  apply N.eqb_eq in CV. unfold connect_validate in CV.
  (* every test on the way to the final 0 came out false *)
  repeat match goal with H : (if ?b then _ else _) = 0 |- _ => destruct b eqn:?; [discriminate H|] end.
  clear CV V.
  (* the protocol name fixes the version *)
  assert (VER : cp_ver p = 3 \/ cp_ver p = 4 \/ cp_ver p = 5).
  { destruct (beq_bytes (cp_pname p) name_MQIsdp), (beq_bytes (cp_pname p) name_MQTT),
             (cp_ver p =? 3) eqn:E3, (cp_ver p =? 4) eqn:E4, (cp_ver p =? 5) eqn:E5;
      try discriminate; rewrite ?N.eqb_eq in *; auto. }
  (* each clause of the specification follows from the two or three tests that mention its fields *)
  unfold connect_ok_spec. rewrite T. cbn [negb andb]. repeat (apply andb_true_iff; split).
  - destruct (beq_bytes (cp_pname p) name_MQIsdp), (beq_bytes (cp_pname p) name_MQTT),
             (cp_ver p =? 3), (cp_ver p =? 4), (cp_ver p =? 5); try discriminate; reflexivity.
  - destruct (cp_reserved p); [discriminate|reflexivity].
  - destruct (cp_willflag p), (cp_willqos p =? 0), (cp_willretain p); try discriminate; reflexivity.
  - rewrite N.leb_antisym. destruct (cp_willflag p), (2 <? cp_willqos p), (cp_willtopic_ok p); try discriminate; reflexivity.
  - destruct VER as [E|[E|E]]; rewrite E in *; destruct (cp_passflag p), (cp_userflag p); try discriminate; reflexivity.
  - destruct VER as [E|[E|E]]; rewrite E in *; destruct (cp_clean p), (N.of_nat (length (cp_id p)) =? 0);
      try discriminate; reflexivity.
Qed.

Record inv13 (m : m13) (s : state) (ops : list op) : Prop := {
  i13_started : forall c, hasobj s c = true -> memN c (a_started m) = true;
  i13_sub : forall c, memN c (a_started m) = true -> memN c (st_used s) = true;
  i13_fresh : fresh_conns (st_used s) ops = true }.

Lemma clients_of_conn s l r : In r (clients_of s l) -> hasobj s (sc_conn r) = true.
Proof.
  induction l as [|[id c] t IH]; cbn [clients_of]; [intros []|].
  destruct (get_obj c (st_objs s)) as [o|] eqn:G; [|exact IH].
  intros [<-|I]; [|apply IH, I]. cbn. unfold hasobj. rewrite (get_obj_conn G), G. reflexivity.
Qed.

Lemma no_client_conn s c : hasobj s c = false -> existsb (fun r => sc_conn r =? c) (sn_clients (snap_of s)) = false.
Proof.
  intro H. destruct (existsb _ _) eqn:E; [|reflexivity].
  apply existsb_exists in E. destruct E as (r & I & EQ). apply N.eqb_eq in EQ. subst c.
  cbn in I. apply clients_of_conn in I. congruence.
Qed.

Lemma refusal_refused_ok c outs hk pre post op :
  refusal c outs -> existsb (fun r => sc_conn r =? c) (sn_clients post) = false ->
  refused_ok c {| b_op := op; b_outs := outs; b_hooks := hk; b_pre := pre; b_post := post |} = true.
Proof.
  intros R E. unfold refused_ok. cbn [b_outs b_post]. rewrite E. cbn [negb].
  destruct R as [->|(code & NZ & ->)]; cbn [pkts_to closes flat_map app].
  - rewrite andb_true_r. cbn [andb]. rewrite memN_true. cbn. auto.
  - rewrite N.eqb_refl. cbn [app]. destruct (code =? 0) eqn:Z; [apply N.eqb_eq in Z; congruence|]. cbn [negb andb].
    rewrite andb_true_r. rewrite memN_true. cbn. auto.
Qed.

Lemma no_success_connack (f : N -> list viol) outs :
  (forall x, In x outs -> match x with OPkt _ p => is_connack p = false | _ => True end) ->
  flat_map (fun o0 => match o0 with OPkt c0 (PConnack 0 _) => f c0 | _ => [] end) outs = [].
Proof.
  intro S. apply flat_map_nil. intros x I. specialize (S x I). destruct x; try reflexivity.
  destruct p; try reflexivity. discriminate S.
Qed.

Lemma sends_ok_no_connack s outs : sends_ok s outs ->
  flat_map (fun o => match o with OPkt c (PConnack 0 _) => [mkv V13_auth 0 c []] | _ => [] end) outs = [].
Proof.
  intro S. apply no_success_connack. intros x I. specialize (S x I). destruct x; auto. apply S.
Qed.

Lemma fresh_new_conn s o r c :
  is_new_conn s o = Some c -> fresh_conns (st_used s) (o :: r) = true -> fresh_conns (c :: st_used s) r = true.
Proof.
  destruct o; cbn [is_new_conn fresh_conns]; try discriminate;
  destruct (memN c0 (st_used s)); try discriminate; intro E; inversion E; subst; cbn [negb andb]; auto.
Qed.

(* a first packet on a connection number already used does not occur *)
Lemma fresh_old_conn s o r :
  is_new_conn s o = None -> fresh_conns (st_used s) (o :: r) = true ->
  fresh_conns (st_used s) r = true /\ match o with OConnect _ _ _ _ _ | OBadFirst _ _ => False | _ => True end.
Proof.
  destruct o; cbn [is_new_conn fresh_conns]; auto;
  destruct (memN c (st_used s)); try discriminate; cbn [negb andb]; discriminate.
Qed.

(* the clause on invalid first packets, as [m13_step] computes it; it is named only so that the proof
   below can fold it and settle it case by case *)
Definition m13_invalid (i : nat) (b : obs) : list viol :=
  match b_op b with
  | OBadFirst c _ => if refused_ok c b then [] else [mkv V13_invalid i c []]
  | OConnect c _ p _ id => if connect_ok_spec p || refused_ok c b then [] else [mkv V13_invalid i c id]
  | _ => []
  end.

Theorem m13_step_ok k i m s o r :
  inv13 m s (o :: r) ->
  inv13 (fst (m13_step i m (obs_of (tstep_of k s o)))) (fst (step k s o)) r /\
  snd (m13_step i m (obs_of (tstep_of k s o))) = [].
Proof.
  intros [ST SUB FR]. assert (W : objs_used s) by (intros c H; apply SUB, ST, H). pose proof (step_used k s o) as U.
  unfold m13_step. fold (m13_invalid i (obs_of (tstep_of k s o))).
  unfold tstep_of, obs_of. cbn [t_op t_outs t_hooks t_pre t_post b_outs b_op].
  destruct (is_new_conn s o) as [c|] eqn:NEW.
  - destruct (step_new_cases k s o c NEW W) as (CF & HS & CASES).
    assert (CS : memN c (a_started m) = false).
    { destruct (memN c (a_started m)) eqn:E; [|reflexivity]. apply SUB in E. congruence. }
    pose proof (fresh_new_conn s o r c NEW FR) as FR'.
    destruct CASES as [[E R]|(now & p & e & -> & T & V & AC & EO)].
    + destruct (step k s o) as [s' outs]. cbn [fst snd] in *. subst s'.
      assert (PK : exists st', m13_pkts i (a_started m) outs = (st', []) /\
                   (forall c', memN c' st' = true -> c' = c \/ memN c' (a_started m) = true) /\
                   (forall c', memN c' (a_started m) = true -> memN c' st' = true)).
      { destruct R as [->|(code & NZ & ->)]; cbn [m13_pkts is_connack].
        - exists (a_started m). auto.
        - rewrite CS. exists (c :: a_started m). split; [reflexivity|]. split.
          + intros c' H. rewrite memN_cons in H. apply orb_true_iff in H. destruct H as [H|H]; [left; apply N.eqb_eq, H|right; exact H].
          + intros c' H. rewrite memN_cons, H. apply orb_true_r. }
      destruct PK as (st' & PK & PA & PB). rewrite PK. cbn [fst snd app].
      rewrite flat_map_nil.
      2:{ intros x I. destruct (refusal_in c outs x R I) as [->|(code & NZ & ->)]; [reflexivity|]. destruct code; [congruence|reflexivity]. }
      cbn [app].
      assert (V3 : m13_invalid i {| b_op := o; b_outs := outs; b_hooks := hook_events k s o; b_pre := snap_of s; b_post := snap_of (set_used s (c :: st_used s)) |} = []).
      { unfold m13_invalid. cbn [b_op]. destruct o; cbn [is_new_conn] in NEW; try discriminate;
        destruct (memN c0 (st_used s)); try discriminate; inversion NEW; subst c0;
        rewrite (refusal_refused_ok c outs _ _ _ _ R (no_client_conn (set_used s (c :: st_used s)) c HS)); [rewrite orb_true_r|]; reflexivity. }
      rewrite V3. split; [|reflexivity].
      split; cbn [a_started].
      * intros c' H. apply PB, ST. exact H.
      * intros c' H. rewrite U, memN_cons. apply PA in H. destruct H as [->|H]; [rewrite N.eqb_refl; reflexivity|].
        rewrite (SUB _ H). apply orb_true_r.
      * rewrite U. exact FR'.
    + (* accepted: packets to the previous holder, the CONNACK, the resent messages *)
      pose proof (accepted_objs _ _ _ _ _ _ _ AC) as HH. destruct (accepted_outs _ _ _ _ _ _ _ AC HS) as (o1 & sp & l & EQ & S1). apply sends_ok_of in S1.
      rewrite EO, EQ. rewrite m13_pkts_app.
      assert (Q1 : m13_pkts i (a_started m) o1 = (a_started m, [])).
      { apply m13_pkts_quiet. intros c' p' I. destruct (S1 _ I) as [A B]. split; [exact A|].
        apply ST, openc_hasobj, B. }
      rewrite Q1. cbn [fst snd app].
      cbn [m13_pkts is_connack]. rewrite CS.
      assert (Q2 : m13_pkts i (c :: a_started m) (resend c l) = (c :: a_started m, [])).
      { apply m13_pkts_quiet. intros c' p' I. apply resend_in in I. destruct I as (mm & E). inversion E; subst.
        split; [reflexivity|]. rewrite memN_cons, N.eqb_refl. reflexivity. }
      rewrite Q2. cbn [fst snd app].
      rewrite flat_map_app, (no_success_connack _ o1).
      2:{ intros x I. pose proof (S1 x I) as Hx. destruct x; auto. apply Hx. }
      cbn [flat_map app]. rewrite N.eqb_refl, no_success_connack.
      2:{ intros x I. apply resend_in in I. destruct I as (mm & ->). reflexivity. }
      cbn [app].
      unfold m13_invalid. cbn [b_op]. rewrite (validate_ok_spec k p T V). cbn [orb]. split; [|reflexivity].
      split; cbn [a_started].
      * intros c' H. rewrite memN_cons. rewrite HH in H.
        apply orb_true_iff in H. destruct H as [H|H]; [rewrite (ST _ H); apply orb_true_r|rewrite H; reflexivity].
      * intros c' H. rewrite U. rewrite memN_cons in *. apply orb_true_iff in H.
        destruct H as [H|H]; [rewrite H; reflexivity|rewrite (SUB _ H); apply orb_true_r].
      * rewrite U. exact FR'.
  - (* an operation on existing connections: a CONNECT among them would reuse a connection number *)
    destruct (step_old k s o NEW) as (HH & _ & _ & SH). apply sends_ok_of in SH. destruct (step k s o) as [s' outs]. cbn [fst snd] in *.
    assert (Q : m13_pkts i (a_started m) outs = (a_started m, [])).
    { apply m13_pkts_quiet. intros c p I. destruct (SH _ I) as [A B]. split; [exact A|]. apply ST, openc_hasobj, B. }
    rewrite Q. cbn [fst snd app].
    rewrite no_success_connack.
    2:{ intros x I. pose proof (SH x I) as Hx. destruct x; auto. apply Hx. }
    cbn [app].
    destruct (fresh_old_conn s o r NEW FR) as [FR' OP].
    assert (V3 : m13_invalid i {| b_op := o; b_outs := outs; b_hooks := hook_events k s o; b_pre := snap_of s; b_post := snap_of s' |} = []).
    { unfold m13_invalid. cbn [b_op]. destruct o; try reflexivity; contradiction. }
    rewrite V3. split; [|reflexivity].
    split; cbn [a_started].
    + intros c' H. apply ST. rewrite <- HH. exact H.
    + intros c' H. rewrite U. apply SUB, H.
    + rewrite U. exact FR'.
Qed.

Theorem mon13_model_clean k ops : fresh_conns [] ops = true -> mon13 (map obs_of (trace k init ops)) = [].
Proof.
  intro F. apply (run_mon_clean k m13_step inv13 (m13_step_ok k)). split; cbn; [discriminate|discriminate|exact F].
Qed.
