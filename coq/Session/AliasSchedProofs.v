(* Proofs for C24 under concurrent publishers (Session/AliasSched.v): for every schedule the alias
   table is injective; for every schedule without the overtaking finding every PUBLISH on the
   connection passes the receiver's check. *)
From MV Require Import Base.Val Base.BytesEq Session.Pkt Session.Alias Session.AliasProofs Session.AliasSched.
From Coq Require Import Lia ZifyBool.
Open Scope N_scope.

Lemma find_pend_in {k l p} : find_pend k l = Some p -> In (k, p) l.
Proof.
  induction l as [|[j q] r IH]; cbn; [discriminate|].
  destruct (Nat.eqb j k) eqn:E; [apply Nat.eqb_eq in E; subst j; intros H; injection H as ->; left; reflexivity|].
  intros H. right. apply IH, H.
Qed.

Lemma in_del_pend {k l p x} : find_pend k l = Some p -> In x l -> x <> (k, p) -> In x (del_pend k l).
Proof.
  induction l as [|[j q] r IH]; cbn; [discriminate|].
  destruct (Nat.eqb j k) eqn:E.
  - apply Nat.eqb_eq in E. subst j. intros H. injection H as ->. intros [<-|Hin] Hne; [congruence|exact Hin].
  - intros H [<-|Hin] Hne; [left; reflexivity|right; apply IH; assumption].
Qed.

Lemma del_pend_incl k l x : In x (del_pend k l) -> In x l.
Proof.
  induction l as [|[j q] r IH]; cbn; [tauto|].
  destruct (Nat.eqb j k); [tauto|]. intros [H|H]; [left; exact H|right; apply IH, H].
Qed.

Lemma sstep_tab_ok s e : tab_ok (s_tab s) -> tab_ok (s_tab (sstep s e)) /\ o_max (s_tab (sstep s e)) = o_max (s_tab s).
Proof.
  intros H. destruct e as [k tp|k]; cbn.
  - destruct (find_pend k (s_pend s)); [auto|].
    destruct (out_set (s_tab s) tp) as [[a ex] t'] eqn:E.
    destruct (out_set_cases H E) as (C1 & C2 & _). auto.
  - destruct (find_pend k (s_pend s)); auto.
Qed.

Lemma run_tab_ok evs : forall s, tab_ok (s_tab s) ->
  tab_ok (s_tab (fold_left sstep evs s)) /\ o_max (s_tab (fold_left sstep evs s)) = o_max (s_tab s).
Proof.
  induction evs as [|e r IH]; intros s H; [auto|]. cbn.
  destruct (sstep_tab_ok s e H) as [H1 H2]. destruct (IH _ H1) as [H3 H4]. split; [exact H3|congruence].
Qed.

Theorem sched_table_ok (max : N) (evs : list sev) :
  tab_ok (s_tab (srun max evs)) /\ o_max (s_tab (srun max evs)) = max.
Proof. apply (run_tab_ok evs (sinit max)), tab_ok_init. Qed.

(* the receiver has learnt the binding from the wire, or its announcement is still with its publisher *)
Definition announced (rtab : list (N * bytes)) (pend : list (nat * pending)) (tp : bytes) (a : N) : Prop :=
  lookup_a a rtab = Some tp \/ exists k, In (k, (tp, a, false)) pend.

Lemma announced_incl rtab pend pend' tp a :
  (forall k, In (k, (tp, a, false)) pend -> In (k, (tp, a, false)) pend') ->
  announced rtab pend tp a -> announced rtab pend' tp a.
Proof. intros H [A|[k A]]; [left; exact A|right; exists k; exact (H k A)]. Qed.

Record sinv (max : N) (s : sst) (rtab : list (N * bytes)) : Prop := {
  i_recv : recv_all max [] (s_wire s) = Some rtab;
  i_omax : o_max (s_tab s) = max;
  i_tab : tab_ok (s_tab s);
  i_known : forall tp a, lookup_t tp (o_map (s_tab s)) = Some a -> announced rtab (s_pend s) tp a;
  i_pend : forall k tp a ex, In (k, (tp, a, ex)) (s_pend s) ->
              tp <> [] /\ a <= max /\ (0 < a -> lookup_t tp (o_map (s_tab s)) = Some a) }.
Arguments i_recv {max s rtab}.
Arguments i_omax {max s rtab}.
Arguments i_tab {max s rtab}.
Arguments i_known {max s rtab}.
Arguments i_pend {max s rtab}.

Lemma sstep_sinv max s rtab e :
  sinv max s rtab ->
  (forall k tp, e = SSet k tp -> tp <> []) ->
  KF_C24_binding_overtaken s e = false ->
  exists rtab', sinv max (sstep s e) rtab'.
Proof.
  intros I NE KF. pose proof (i_omax I) as Hmax. pose proof (i_tab I) as T.
  destruct e as [k tp|k]; cbn [sstep].
  - (* Set: the answer is kept by the publisher; nothing reaches the wire *)
    destruct (find_pend k (s_pend s)); [exists rtab; exact I|].
    destruct (out_set (s_tab s) tp) as [[a ex] t'] eqn:E.
    destruct (out_set_cases T E) as (T' & M & B & C).
    assert (Old : forall tp' a', lookup_t tp' (o_map (s_tab s)) = Some a' ->
                    announced rtab ((k, (tp, a, ex)) :: s_pend s) tp' a').
    { intros tp' a' H. apply (announced_incl rtab (s_pend s)); [intros k' Hk; right; exact Hk|].
      exact (i_known I _ _ H). }
    exists rtab. constructor; cbn [s_tab s_pend s_wire];
      [exact (i_recv I)|congruence|exact T'| |].
    + intros tp' a' H. destruct C as [[-> C]|(-> & -> & L & Em & Ec)]; [exact (Old _ _ H)|].
      rewrite Em in H. cbn [lookup_t] in H. destruct (beq_bytes tp tp') eqn:Et; [|exact (Old _ _ H)].
      injection H as <-. apply beq_bytes_eq in Et. subst tp'. right. exists k. left. reflexivity.
    + intros k' tp' a' ex' [H|H].
      * injection H as <- <- <- <-. split; [exact (NE _ _ eq_refl)|]. split; [lia|]. intro Ha.
        destruct C as [[-> C]|(-> & -> & L & Em & Ec)]; [destruct ex; [exact C|lia]|].
        rewrite Em. cbn. rewrite beq_bytes_refl. reflexivity.
      * destruct (i_pend I _ _ _ _ H) as (P1 & P2 & P3). split; [exact P1|]. split; [exact P2|]. intro Ha.
        specialize (P3 Ha). destruct C as [[-> C]|(-> & -> & L & Em & Ec)]; [exact P3|].
        (* a topic that has an alias is not the one that has just been given a new one *)
        rewrite Em. cbn [lookup_t]. destruct (beq_bytes tp tp') eqn:Et; [|exact P3].
        apply beq_bytes_eq in Et. congruence.
  - destruct (find_pend k (s_pend s)) as [[[tp a] ex]|] eqn:F; [|exists rtab; exact I].
    pose proof (find_pend_in F) as Hin.
    destruct (i_pend I _ _ _ _ Hin) as (Hne & Hb & Hl).
    destruct T as (Tc & Tr & Ti).
    (* an alias-only packet: the binding has been announced, otherwise this is the finding *)
    assert (K : 0 < a -> ex = true -> lookup_a a rtab = Some tp).
    { intros Ha ->. destruct (i_known I _ _ (Hl Ha)) as [H|[k' Hk]]; [exact H|]. exfalso.
      cbn [KF_C24_binding_overtaken] in KF. rewrite F in KF. replace (0 <? a) with true in KF by lia.
      rewrite <- not_true_iff_false in KF. apply KF. apply existsb_exists.
      exists (k', (tp, a, false)). split; [exact Hk|]. cbn. rewrite N.eqb_refl. reflexivity. }
    pose proof (recv_wire_of max rtab tp a ex Hne Hb K) as R.
    exists (if (0 <? a) && negb ex then (a, tp) :: rtab else rtab). constructor; cbn [s_tab s_pend s_wire].
    + rewrite recv_all_app, (i_recv I). cbn [recv_all]. rewrite R. reflexivity.
    + exact Hmax.
    + exact (i_tab I).
    + intros tp' a' H.
      (* the entry that leaves the pending list is the announcement of (tp, a) only if the packet announces;
         then the receiver has just learnt it *)
      destruct ((0 <? a) && negb ex && (a =? a')) eqn:An.
      * apply andb_true_iff in An. destruct An as [An Ea]. rewrite An. apply N.eqb_eq in Ea. subst a'.
        left. cbn [lookup_a]. rewrite N.eqb_refl. f_equal. apply (Ti tp tp' a); [apply Hl; lia|exact H].
      * destruct (i_known I _ _ H) as [A|[k' Hk]].
        -- left. destruct ((0 <? a) && negb ex); [|exact A]. cbn [lookup_a andb] in *. rewrite An. exact A.
        -- right. exists k'. apply (in_del_pend F Hk). intro X. injection X as _ -> -> <-.
           destruct (Tr _ _ H). rewrite N.eqb_refl, andb_true_r in An. cbn in An. lia.
    + intros k' tp' a' ex' H. apply (i_pend I k' tp' a' ex'), (del_pend_incl k), H.
Qed.

Definition topics_nonempty (evs : list sev) : Prop := forall k tp, In (SSet k tp) evs -> tp <> [].

Lemma run_sinv max : forall evs s rtab,
  sinv max s rtab -> topics_nonempty evs -> skf_free s evs = true ->
  exists rtab', sinv max (fold_left sstep evs s) rtab'.
Proof.
  induction evs as [|e r IH]; intros s rtab I NE KF; [exists rtab; exact I|].
  cbn in KF. apply andb_true_iff in KF. destruct KF as [K1 K2]. apply negb_true_iff in K1.
  destruct (sstep_sinv max s rtab e I) as [rtab' I'].
  - intros k tp ->. apply (NE k tp). left. reflexivity.
  - exact K1.
  - cbn. apply (IH _ _ I'); [intros k tp H; apply (NE k tp); right; exact H|exact K2].
Qed.

Lemma sinv_init max : sinv max (sinit max) [].
Proof.
  constructor; cbn; [reflexivity|reflexivity|apply tab_ok_init|intros tp a H; discriminate|intros k tp a ex []].
Qed.

Theorem sched_resolvable (max : N) (evs : list sev) :
  topics_nonempty evs -> skf_free (sinit max) evs = true ->
  recv_ok max [] (s_wire (srun max evs)) = true.
Proof.
  intros NE KF. destruct (run_sinv max evs (sinit max) [] (sinv_init max) NE KF) as [rtab I].
  rewrite recv_ok_all. unfold srun. rewrite (i_recv I). reflexivity.
Qed.
