(* C16 — notions for the will proofs on the life-cycle model: the will publications among the
   outputs, functions that keep a projection of every object, when a connection's will can still be
   published, the well-formedness of the delayed-will table, where a publication may come from and
   what a connection registered.  The theorems are in LifeProofs16M.v. *)
From MV Require Import Base.Val Session.Lifecycle Session.LifeSpec Session.LifeBase.
Open Scope N_scope.

Definition wills_for (c : N) (outs : list out) : list msg :=
  flat_map (fun o => match o with OWill c' m => if c' =? c then [m] else [] | _ => [] end) outs.

Lemma wills_for_of c m outs : In m (wills_for c outs) <-> In (c, m) (wills_of outs).
Proof.
  unfold wills_for, wills_of. rewrite !in_flat_map. split; intros (x & I & H); exists x; (split; [exact I|]); destruct x; try (destruct H; fail).
  - destruct (c0 =? c) eqn:E; [|destruct H]. apply N.eqb_eq in E. destruct H as [<-|[]]. left. congruence.
  - destruct H as [H|[]]. inversion H. rewrite N.eqb_refl. left. reflexivity.
Qed.

Lemma reading_phase s c o : reading s c = Some o -> get_obj c (st_objs s) = Some o /\ o_phase o = PhReading.
Proof.
  unfold reading. destruct (get_obj c (st_objs s)) as [x|]; [|discriminate].
  destruct (o_phase x) eqn:PH; try discriminate. destruct (o_open x); [|discriminate]. intro H. inversion H; subst. auto.
Qed.

Section Frame.
  Context {A : Type} (pr : cobj -> A).

  Definition same_pr (s s' : state) : Prop :=
    forall c, option_map pr (get_obj c (st_objs s')) = option_map pr (get_obj c (st_objs s)).
End Frame.

Definition same_will := same_pr o_will.
Definition same_phase := same_pr o_phase.

Lemma will_flag_lemmas :
  (forall o a b, o_will (with_session o a b) = o_will o) /\ (forall o now, o_will (stopped o now) = o_will o) /\
  (forall o ph, o_will (with_phase o ph) = o_will o) /\ (forall o, o_will (with_tko o) = o_will o).
Proof. repeat split; intros; try reflexivity. unfold stopped. destruct (o_open o); reflexivity. Qed.

Lemma id_lemmas :
  (forall o a b, o_id (with_session o a b) = o_id o) /\ (forall o now, o_id (stopped o now) = o_id o) /\
  (forall o ph, o_id (with_phase o ph) = o_id o) /\ (forall o, o_id (with_tko o) = o_id o).
Proof. repeat split; intros; try reflexivity. unfold stopped. destruct (o_open o); reflexivity. Qed.

(* pending_for, armed, has_pending and live say in the model's terms when a will can still be published;
   the proofs use them only in armed_not_pending: an armed will and a table entry exclude each other *)
Definition pending_for (s : state) (c : N) : list msg :=
  flat_map (fun e => if d_conn (snd e) =? c then [d_msg (snd e)] else []) (st_wills s).

Definition armed (s : state) (c : N) : bool :=
  match get_obj c (st_objs s) with
  | Some o => w_flag (o_will o) && negb (match o_phase o with PhDone => true | _ => false end)
  | None => false
  end.
Definition has_pending (s : state) (c : N) : bool := existsb (fun e => d_conn (snd e) =? c) (st_wills s).
Definition live (s : state) (c : N) : bool := armed s c || has_pending s c.

(* sendLWT, which enters a will into the table, runs in the operation that ends its connection's handler:
   between operations an entry belongs to a connection whose handler has finished, under that connection's
   identifier *)
Record wwf (s : state) : Prop := {
  ww_nodup : NoDup (map fst (st_wills s));
  ww_done : forall id d, In (id, d) (st_wills s) ->
              exists o, get_obj (d_conn d) (st_objs s) = Some o /\ o_id o = id /\ o_phase o = PhDone }.

Lemma wwf_init : wwf init.
Proof. split; cbn; [constructor|intros id d []]. Qed.

Lemma has_pending_in s c : has_pending s c = true <-> exists id d, In (id, d) (st_wills s) /\ d_conn d = c.
Proof.
  unfold has_pending. rewrite existsb_exists. split.
  - intros ([id d] & I & E). apply N.eqb_eq in E. exists id, d. auto.
  - intros (id & d & I & E). exists (id, d). split; [exact I|apply N.eqb_eq; exact E].
Qed.

Lemma armed_not_pending s c : wwf s -> armed s c = true -> has_pending s c = false.
Proof.
  intros [_ WD] A. destruct (has_pending s c) eqn:P; [|reflexivity]. apply has_pending_in in P.
  destruct P as (id & d & I & E). destruct (WD id d I) as (o & G & _ & PH). subst c.
  unfold armed in A. rewrite G, PH in A. rewrite andb_false_r in A. discriminate.
Qed.

Definition is_armed (o : cobj) : Prop := w_flag (o_will o) = true /\ o_phase o <> PhDone.

Definition src_ok (s : state) (c : N) (m : msg) : Prop :=
  (exists o, get_obj c (st_objs s) = Some o /\ is_armed o /\ m = will_msg (o_will o)) \/
  (exists id d, In (id, d) (st_wills s) /\ d_conn d = c /\ d_msg d = m).

Lemma send_lwt_disarms k now c s m :
  In m (wills_for c (snd (send_lwt k now c s))) ->
  forall o', get_obj c (st_objs (fst (send_lwt k now c s))) = Some o' -> w_flag (o_will o') = false.
Proof.
  unfold send_lwt. destruct (get_obj c (st_objs s)) as [o|] eqn:G; [|intros []].
  destruct (negb (w_flag (o_will o))); [intros []|]. destruct (0 <? w_delay (o_will o)); [intros []|].
  match goal with |- context [publish k ?mm ?sx] => destruct (publish k mm sx) as [s2 outs] end.
  cbn [fst]. intros _ o' G'. unfold upd_obj in G'. cbn in G'.
  match type of G' with get_obj c (put_obj ?x _) = _ => assert (CX : o_conn x = c) end.
  { cbn. destruct (get_obj c (st_objs s2)) as [x|] eqn:G2; [apply (get_obj_conn G2)|apply (get_obj_conn G)]. }
  rewrite <- CX in G' at 1. rewrite get_put_same in G'. inversion G'; subst. reflexivity.
Qed.

Definition will_of (p : cparams) : msg :=
  {| m_topic := cp_willtopic p; m_payload := cp_willpayload p; m_qos := cp_willqos p; m_retain := cp_willretain p |}.

Definition reg_step (o : op) : list (N * msg) :=
  match o with
  | OConnect c _ p _ _ => if cp_willflag p then [(c, will_of p)] else []
  | _ => []
  end.

Fixpoint reg_of (ops : list op) : list (N * msg) :=
  match ops with [] => [] | o :: r => reg_step o ++ reg_of r end.
