(* C13-C16 — what one operation of the life-cycle model does, exactly.  [step_cases]: every step is one of the eight
   cases of [stepR], whatever the state; a proof about all operations destructs it.  Each case gives the outputs as a
   list and the state afterwards field by field: the client objects through one function applied to every object
   (LifeBase.changes), the registry lists and the delayed-will table as expressions over the state before.  Only the
   retained table is left open throughout.
   Where an operation publishes, the objects change by deliveries first and an edit at the connection concerned
   second, [at_conn c f (deliv dl x)]: a publication only appends to in-flight lists ([deliv]), each delivery to a
   connection that the index lists for the topic ([listed]).  Where the model stops the connection before it publishes
   its will, [tail_ended] brings the two into this order, with [pubs_back].
   After [step_cases]: what the monitors' observation functions compute on the output list of each case, and the
   coarser facts that do where the exact state is not needed ([step_old], [step_new_cases], [step_conns]). *)
From MV Require Import Base.Val Base.BytesEq Base.ListMisc Session.Lifecycle Session.LifeSpec Session.LifeBase.
From Coq Require Import Lia.
Open Scope N_scope.

Definition add_infl (o : cobj) (l : list msg) : cobj := with_session o (o_subs o) (o_infl o ++ l).

Lemma add_infl_nil o : add_infl o [] = o.
Proof. destruct o. unfold add_infl, with_session. cbn. rewrite app_nil_r. reflexivity. Qed.

(* [dl c]: what is delivered to connection [c] *)
Definition deliv (dl : N -> list msg) (o : cobj) : cobj := add_infl o (dl (o_conn o)).
Definition justified (s : state) (dl : N -> list msg) : Prop := forall c m, In m (dl c) -> listed s c (m_topic m).

Definition pubs_ok (s : state) (outs : list out) : Prop :=
  forall x, In x outs -> exists c m, x = OPkt c (PPublish m false) /\ openc s c = true /\ listed s c (m_topic m).

(* the deliveries and the packets of a publication that happens only if [b] *)
Definition pubs_if (b : bool) (s : state) (dl : N -> list msg) (pubs : list out) : Prop :=
  justified s dl /\ pubs_ok s pubs /\ (b = false -> (forall c, dl c = []) /\ pubs = []).

(* a publication: only in-flight lists change; that [pubs] are the deliveries [dl] to the open connections is not
   recorded: no proof needs it *)
Record published (s s' : state) (pubs : list out) : Prop := {
  pb_reg : reg_eq s s';
  pb_wills : st_wills s' = st_wills s;
  pb_objs : exists dl, justified s dl /\ changes (deliv dl) s s';
  pb_outs : pubs_ok s pubs }.

Lemma deliv_none o : deliv (fun _ => []) o = o.
Proof. apply add_infl_nil. Qed.
Lemma deliv_deliv d1 d2 x : deliv d2 (deliv d1 x) = deliv (fun c => d1 c ++ d2 c) x.
Proof. unfold deliv, add_infl, with_session. cbn. rewrite app_assoc. reflexivity. Qed.

Lemma published_same s s' : st_objs s' = st_objs s /\ reg_eq s s' /\ st_wills s' = st_wills s -> published s s' [].
Proof.
  intros (EO & R & EW). split; [exact R|exact EW| |intros x []].
  exists (fun _ => []). split; [intros c m []|]. apply changes_same; [exact EO|]. intros c o _. apply deliv_none.
Qed.

(* what a later part of an operation delivers is justified in the state before the operation, if the registry is as it
   was and no connection has been reopened *)
Lemma pubs_back e s s1 : reg_eq s s1 -> changes e s s1 -> (forall o, o_open (e o) = true -> o_open o = true) ->
  (forall dl, justified s1 dl -> justified s dl) /\ (forall pubs, pubs_ok s1 pubs -> pubs_ok s pubs).
Proof.
  intros (_ & EC & EI) C H.
  assert (LI : forall c T, listed s1 c T -> listed s c T) by (intros c T (id & q & I & A); exists id, q; rewrite <- EC, <- EI; auto).
  split; [intros dl J c m I; apply LI, (J c m I)|]. intros pubs PO x I. destruct (PO x I) as (c & m & E & OP & L). exists c, m.
  split; [exact E|]. split; [apply (changes_openc _ _ _ c C H OP)|apply LI, L].
Qed.

Lemma published_trans s s1 s2 p1 p2 : published s s1 p1 -> published s1 s2 p2 -> published s s2 (p1 ++ p2).
Proof.
  intros [R1 W1 (d1 & J1 & C1) O1] [R2 W2 (d2 & J2 & C2) O2]. destruct (pubs_back _ s s1 R1 C1 (fun _ H => H)) as [BJ BO].
  split; [exact (reg_eq_trans _ _ _ R1 R2)|congruence| |].
  - exists (fun c => d1 c ++ d2 c). split.
    + intros c m I. apply in_app_or in I. destruct I as [I|I]; [apply (J1 c m I)|apply (BJ d2 J2 c m I)].
    + refine (changes_ext _ _ _ _ _ (changes_comp _ _ _ _ _ C1 C2)). intros c o _. apply deliv_deliv.
  - intros x I. apply in_app_or in I. destruct I as [I|I]; [apply (O1 x I)|apply (BO p2 O2 x I)].
Qed.

Lemma deliver_published k m ix : forall s, incl ix (st_index s) ->
  published s (fst (deliver k m ix s)) (snd (deliver k m ix s)).
Proof.
  induction ix as [|[[id f] q] r IH]; intros s IX; cbn [deliver]; [apply published_same; repeat split|].
  assert (IXr : incl r (st_index s)) by (intros e I; apply IX; right; exact I).
  destruct (beq_bytes f (m_topic m)) eqn:BF; [|apply IH, IXr]. apply bb_eq in BF. subst f.
  destruct (client_of s id) as [o|] eqn:C; [|apply IH, IXr].
  pose proof (client_of_obj C) as G. pose proof (client_of_aget s id o C) as A.
  set (q' := minN (minN (m_qos m) q) (k_maxqos k)).
  set (m' := {| m_topic := m_topic m; m_payload := m_payload m; m_qos := q'; m_retain := m_retain m && (o_ver o =? 5) |}).
  set (l := if 0 <? q' then [m'] else []).
  assert (EO : (if 0 <? q' then with_session o (o_subs o) (o_infl o ++ [m']) else o) = add_infl o l).
  { subst l. destruct (0 <? q'); [reflexivity|symmetry; apply add_infl_nil]. }
  rewrite EO. set (s1 := upd_obj s (add_infl o l)).
  assert (L : listed s (o_conn o) (m_topic m)) by (exists id, q; split; [apply IX; left; reflexivity|exact A]).
  assert (P1 : published s s1 (if o_open o then [OPkt (o_conn o) (PPublish m' false)] else [])).
  { split; [repeat split|reflexivity| |].
    - exists (fun c => if c =? o_conn o then l else []). split.
      + intros c x I. destruct (c =? o_conn o) eqn:E; [|destruct I]. apply N.eqb_eq in E. subst c l.
        destruct (0 <? q'); [|destruct I]. destruct I as [<-|[]]. exact L.
      + refine (changes_ext _ _ _ _ _ (changes_upd _ (fun y => add_infl y l) s o G eq_refl)). intros c x Gx.
        unfold at_conn, deliv. destruct (o_conn x =? o_conn o); [reflexivity|symmetry; apply add_infl_nil].
    - intros x I. destruct (o_open o) eqn:OO; [|destruct I]. destruct I as [<-|[]]. exists (o_conn o), m'.
      split; [reflexivity|]. split; [unfold openc; rewrite G; exact OO|exact L]. }
  specialize (IH s1 IXr). destruct (deliver k m r s1) as [s'' outs]. exact (published_trans _ _ _ _ _ P1 IH).
Qed.

Lemma publish_published k m s : published s (fst (publish k m s)) (snd (publish k m s)).
Proof. apply deliver_published, incl_refl. Qed.

(* publish, after retainMessage when the message asks for it *)
Lemma retained_published k (b : bool) m s :
  published s (fst (publish k m (if b then retain_msg k m s else s))) (snd (publish k m (if b then retain_msg k m s else s))).
Proof.
  exact (published_trans s _ _ [] _ (published_same s _ (retained_same k b m s)) (publish_published k m _)).
Qed.

(* sendLWT publishes the will of an armed object at once when it has no delay ([pub_now]), and the will then loses
   its flag ([disarm]); otherwise it enters it in the delayed-will table under the client identifier ([reg_now],
   [entry_of]) *)
Definition pub_now (o : cobj) : bool := w_flag (o_will o) && negb (0 <? w_delay (o_will o)).
Definition reg_now (o : cobj) : bool := w_flag (o_will o) && (0 <? w_delay (o_will o)).
Definition entry_of (c : N) (now : Z) (o : cobj) : dwill :=
  {| d_conn := c; d_due := (now + Z.of_N (w_delay (o_will o)))%Z; d_msg := will_msg (o_will o) |}.
Definition disarm (o : cobj) : cobj := if pub_now o then with_will o (will_clear_flag (o_will o)) else o.
Definition lwt_outs (c : N) (o : cobj) (pubs : list out) : list out :=
  if pub_now o then OWill c (will_msg (o_will o)) :: pubs ++ [OWillSent (o_id o)] else [].
Definition lwt_wills (c : N) (now : Z) (o : cobj) (tbl : list (bytes * dwill)) : list (bytes * dwill) :=
  if reg_now o then aset (o_id o) (entry_of c now o) tbl else tbl.

Lemma lwt_same a b : o_id a = o_id b -> o_will a = o_will b ->
  pub_now a = pub_now b /\ (forall c now tbl, lwt_wills c now a tbl = lwt_wills c now b tbl) /\ (forall c pubs, lwt_outs c a pubs = lwt_outs c b pubs).
Proof. unfold lwt_wills, lwt_outs, reg_now, pub_now, entry_of. intros -> ->. auto. Qed.

(* sendLWT, if the read loop ended with an error ([err]) *)
Lemma send_lwt_spec k now c (err : bool) s o : get_obj c (st_objs s) = Some o ->
  let r := if err then send_lwt k now c s else (s, []) in
  reg_eq s (fst r) /\ st_wills (fst r) = (if err then lwt_wills c now o (st_wills s) else st_wills s) /\
  exists dl pubs, pubs_if (err && pub_now o) s dl pubs /\
    changes (fun x => at_conn c (if err then disarm else fun y => y) (deliv dl x)) s (fst r) /\ snd r = if err then lwt_outs c o pubs else [].
Proof.
  intro G. cbv zeta.
  (* no error, no will, a delayed will: nothing is published and the object of [c] stays as it is *)
  assert (NONE : forall s' (f : cobj -> cobj) lwt, st_objs s' = st_objs s -> f o = o -> lwt = [] -> forall b, b = false ->
            exists dl pubs, pubs_if b s dl pubs /\ changes (fun x => at_conn c f (deliv dl x)) s s' /\ @nil out = lwt).
  { intros s' f lwt EO F -> b ->. exists (fun _ => []), []. split; [split; [intros ? ? []|split; [intros ? []|auto]]|]. split; [|reflexivity].
    apply (changes_at c (fun y => y) f _ s s' o G); [rewrite deliv_none; auto|reflexivity|].
    apply changes_same; [exact EO|]. intros c' x _. rewrite deliv_none. unfold at_conn. destruct (_ =? c); reflexivity. }
  destruct err; [|split; [apply reg_eq_refl|]; split; [reflexivity|]; apply NONE; reflexivity]. cbn [andb].
  unfold send_lwt, lwt_wills, lwt_outs, disarm, reg_now, pub_now. rewrite G.
  destruct (w_flag (o_will o)) eqn:F; cbn [negb andb].
  2:{ split; [apply reg_eq_refl|]. split; [reflexivity|]. apply NONE; cbn; rewrite ?F; reflexivity. }
  destruct (0 <? w_delay (o_will o)) eqn:D; cbn [negb fst snd].
  { split; [repeat split|]. split; [reflexivity|]. apply NONE; cbn; rewrite ?F, ?D; reflexivity. }
  pose proof (retained_published k (w_retain (o_will o)) (will_msg (o_will o)) s) as [R W (dl & J & C) PO].
  destruct (publish k (will_msg (o_will o)) _) as [s2 pubs]. cbn [fst snd] in *.
  assert (G2 : get_obj c (st_objs s2) = Some (deliv dl o)) by (rewrite (C c), G; reflexivity). rewrite G2.
  split; [exact R|]. split; [exact W|].
  exists dl, pubs. split; [split; [exact J|split; [exact PO|discriminate]]|]. split; [|reflexivity].
  apply (changes_at _ (fun x => with_will x (will_clear_flag (o_will x))) _ (deliv dl) s _ o G); [cbn; rewrite F, D; reflexivity|reflexivity|].
  exact (changes_comp _ _ _ _ _ C (changes_upd c (fun x => with_will x (will_clear_flag (o_will x))) s2 (deliv dl o) G2 (get_obj_conn G))).
Qed.

(* attachClient from `if err != nil` to its end, on the object of the connection: [normal] is err == nil (the will is
   dropped instead of sent), [ex] the block under `expire && !cl.IsTakenOver()` *)
Definition gone (now : Z) (normal ex : bool) (o : cobj) : cobj :=
  {| o_conn := o_conn o; o_id := o_id o; o_ver := o_ver o; o_clean := o_clean o; o_sei := o_sei o; o_seiflag := o_seiflag o;
     o_will := if normal then no_will else o_will (disarm o);
     o_open := false; o_disc := if o_open o then now else o_disc o; o_tko := o_tko o;
     o_subs := if ex then [] else o_subs o; o_infl := if ex then [] else o_infl o; o_phase := PhDone |}.

Definition ends_session (o : cobj) : bool := expire_cond o && negb (o_tko o).

(* clearExpiredClients on one expired entry [e] = (id, c): OnClientExpired, ClearInflights, UnsubscribeClient (which
   leaves the index alone for an object taken over), Clients.Delete.  The handler tail ends a session by the same three
   calls (LifeBase.drop_session). *)
Record dropped (e : bytes * N) (s s' : state) (outs : list out) : Prop := {
  dr_used : st_used s' = st_used s;
  dr_objs : changes (at_conn (snd e) (fun o => with_session o [] [])) s s';
  dr_clients : st_clients s' = adel (fst e) (st_clients s);
  dr_index : st_index s' = match get_obj (snd e) (st_objs s) with
                           | Some o => if o_tko o then st_index s else ix_del_all (o_id o) (map fst (o_subs o)) (st_index s)
                           | None => st_index s
                           end;
  dr_wills : st_wills s' = st_wills s;
  dr_outs : outs = [OExpired (fst e)] }.

Lemma drop_session_dropped c id s : dropped (id, c) s (drop_session c id s) [OExpired id].
Proof.
  destruct (clear_inflights_reg c s) as (U & _ & I). unfold drop_session.
  split; cbn [fst snd st_used st_clients st_index st_wills set_clients]; [|apply drop_session_upd|reflexivity| | |reflexivity].
  - rewrite unsubscribe_client_used. exact U.
  - rewrite unsubscribe_client_index, (changes_here _ _ _ _ (clear_inflights_upd c s)), I. destruct (get_obj c (st_objs s)); reflexivity.
  - rewrite unsubscribe_client_wills. apply modify_wills.
Qed.

(* the handler tail on the object [o] of [c]; [err = false] is a normal DISCONNECT, after which processDisconnect has
   called Stop *)
Lemma handler_tail_spec k now c err s o : get_obj c (st_objs s) = Some o -> (err = false -> o_open o = false) ->
  let ex := ends_session o in
  let r := handler_tail k now c err s in
  st_used (fst r) = st_used s /\
  st_clients (fst r) = (if ex then adel (o_id o) (st_clients s) else st_clients s) /\
  st_index (fst r) = (if ex then ix_del_all (o_id o) (map fst (o_subs o)) (st_index s) else st_index s) /\
  st_wills (fst r) = (if err then lwt_wills c now o (st_wills s) else st_wills s) /\
  exists dl pubs, pubs_if (err && pub_now o) s dl pubs /\
    changes (fun x => at_conn c (gone now (negb err) ex) (deliv dl x)) s (fst r) /\
    snd r = (if err then lwt_outs c o pubs else []) ++ (if err && o_open o then [OClose c] else []) ++ [ODisconnected (o_id o) (expire_cond o)].
Proof.
  intros G NE. cbv zeta. unfold handler_tail. pose proof (get_obj_conn G) as EC.
  pose proof (send_lwt_spec k now c err s o G) as A. set (pre := if err then disarm else fun y : cobj => y) in A.
  destruct (if err then send_lwt k now c s else (s, [])) as [s1 o1]. cbn [fst snd] in *.
  destruct A as ((U1 & C1 & I1) & W1 & dl & pubs & PI & CH1 & ->).
  set (oA := pre (deliv dl o)).
  assert (G1 : get_obj c (st_objs s1) = Some oA) by (rewrite (CH1 c), G; cbn; rewrite at_conn_same; [reflexivity|exact EC]).
  rewrite G1. cbv zeta.
  set (stop := fun x : cobj => if err then stopped x now else with_will x no_will).
  change (if err then stopped oA now else with_will oA no_will) with (stop oA).
  assert (FS : o_conn (stop oA) = c /\ o_id (stop oA) = o_id o /\ o_tko (stop oA) = o_tko o /\ o_subs (stop oA) = o_subs o /\
               expire_cond (stop oA) = expire_cond o /\ o_open oA = o_open o).
  { subst stop oA pre. cbv beta. unfold disarm. destruct err; [rewrite stopped_spec; destruct (pub_now _)|]; cbn; auto 10. }
  destruct FS as (CS & IS & TS & SS & ES & OA). rewrite IS, ES, TS, OA. fold (ends_session o).
  set (s2 := upd_obj s1 (stop oA)). fold (drop_session c (o_id o) s2).
  set (s3 := if ends_session o then drop_session c (o_id o) s2 else s2). fold (modify c (fun x => with_phase x PhDone) s3).
  pose proof (changes_upd c stop s1 oA G1 CS) as CH2. fold s2 in CH2.
  set (drop := fun x : cobj => if ends_session o then with_session x [] [] else x).
  assert (CH3 : changes (at_conn c drop) s2 s3).
  { subst s3 drop. destruct (ends_session o); [apply drop_session_upd|]. apply changes_fix; auto. }
  pose proof (changes_modify c (fun x => with_phase x PhDone) s3 (fun x => eq_refl)) as CH4.
  destruct (modify_reg c (fun x => with_phase x PhDone) s3) as (U4 & C4 & I4). cbn [fst snd].
  rewrite U4, C4, I4, modify_wills.
  assert (R3 : st_used s3 = st_used s /\
               st_clients s3 = (if ends_session o then adel (o_id o) (st_clients s) else st_clients s) /\
               st_index s3 = (if ends_session o then ix_del_all (o_id o) (map fst (o_subs o)) (st_index s) else st_index s) /\
               st_wills s3 = st_wills s1).
  { subst s3. unfold ends_session in *. destruct (expire_cond o && negb (o_tko o)) eqn:EX; [|cbn; auto].
    apply andb_true_iff in EX. destruct EX as [_ NT]. apply negb_true_iff in NT.
    destruct (drop_session_dropped c (o_id o) s2) as [DU _ DC DI DW _]. cbn [fst snd] in *.
    unfold s2 at 2 in DI. rewrite (get_upd_at s1 (stop oA) c CS), TS, NT, IS, SS in DI. rewrite DU, DC, DI, DW. cbn. rewrite U1, C1, I1. auto. }
  destruct R3 as (-> & -> & -> & ->). do 3 (split; [reflexivity|]). split; [exact W1|].
  exists dl, pubs. split; [exact PI|]. split; [|reflexivity].
  (* the four edits at [c] in one, which is [gone] on the one object it meets *)
  refine (changes_at c _ _ (deliv dl) s _ o G _ (fun _ => eq_refl)
            (changes_twice (changes_twice (changes_twice CH1 CH2 (fun _ => eq_refl)) CH3 (fun _ => eq_refl)) CH4 (fun _ => eq_refl))).
  assert (OY : err = false -> o_open (deliv dl o) = false) by exact NE. revert OY. generalize (deliv dl o). intros y OY.
  subst drop stop pre. cbv beta. unfold gone. destruct err; cbn [negb].
  - rewrite stopped_spec. unfold disarm. destruct (ends_session o); destruct (pub_now y); reflexivity.
  - destruct (ends_session o); destruct y; cbn in *; rewrite (OY eq_refl); reflexivity.
Qed.

(* DISCONNECT, a closed network connection and a second CONNECT end the handler of a reading connection;
   the teardown ends the parked handler of a connection that was taken over *)
Definition ending (s : state) (o : op) : option (N * Z * cobj) :=
  match o with
  | ODisconnect c now _ _ | ONetClose c now | OSecondConnect c now =>
      match reading s c with Some ob => Some (c, now, ob) | None => None end
  | OTeardown c now =>
      match get_obj c (st_objs s) with
      | Some ob => match o_phase ob with PhHeld => Some (c, now, ob) | _ => None end
      | None => None
      end
  | _ => None
  end.

Lemma ending_obj s o c now ob : ending s o = Some (c, now, ob) ->
  get_obj c (st_objs s) = Some ob /\
  ((reading s c = Some ob /\ o_open ob = true /\
    ((exists rc sei, o = ODisconnect c now rc sei) \/ o = ONetClose c now \/ o = OSecondConnect c now)) \/
   (o = OTeardown c now /\ o_phase ob = PhHeld)).
Proof.
  destruct o; cbn [ending]; try discriminate;
    try (destruct (reading s c0) as [x|] eqn:R; [|discriminate]; intro H; inversion H; subst; destruct (reading_obj s c ob R); eauto 10).
  destruct (get_obj c0 (st_objs s)) as [x|] eqn:G; [|discriminate]. destruct (o_phase x) eqn:PH; try discriminate. intro H. inversion H; subst. auto.
Qed.

(* a DISCONNECT that tries to raise a zero session expiry interval: a protocol error *)
Definition raises (ob : cobj) (sei : option N) : bool :=
  match sei with Some v => (0 <? v) && (o_sei ob =? 0) | None => false end.
(* cl.Read returns nil, so that the will is discarded: reason code 0x00 and no protocol error *)
Definition end_normal (o : op) (ob : cobj) : bool :=
  match o with ODisconnect _ _ rc sei => negb (raises ob sei) && (rc =? 0) | _ => false end.
(* the session expiry interval of the object afterwards: a DISCONNECT may carry one, which is stored capped *)
Definition sei_after (k : caps) (o : op) (ob : cobj) : N * bool :=
  match o with
  | ODisconnect _ _ _ (Some v) => if raises ob (Some v) then (o_sei ob, o_seiflag ob) else (capN k v, true)
  | _ => (o_sei ob, o_seiflag ob)
  end.
Definition end_sei (k : caps) (o : op) (ob y : cobj) : cobj := with_sei y (fst (sei_after k o ob)) (snd (sei_after k o ob)).

Definition end_outs (k : caps) (o : op) (c : N) (ob : cobj) (lwt : list out) : list out :=
  let bye := [ODisconnected (o_id ob) (expire_cond (end_sei k o ob ob))] in
  match o with
  | ODisconnect _ _ rc sei =>
      if raises ob sei then [OPkt c (PDisconnect (if o_ver ob <? 5 then 0 else 130)); OClose c] ++ lwt ++ bye
      else if rc =? 0 then OClose c :: bye
      else lwt ++ OClose c :: bye
  | OSecondConnect _ _ => lwt ++ (if o_ver ob =? 5 then [OPkt c (PDisconnect 130); OClose c] else [OClose c]) ++ bye
  | _ => lwt ++ (if o_open ob then [OClose c] else []) ++ bye
  end.

(* [o] ends the handler of [c], whose object was [ob]: the rest of attachClient after cl.Read has returned, with what
   made it return - processDisconnect (the interval stored, [end_sei]; on reason code 0x00 willDelayed.Delete and
   Stop), processConnect's sendLWT for a second CONNECT, and the DisconnectClient of receivePacket on a protocol
   error.  sendLWT runs unless [end_normal] ([lwt_wills], [lwt_outs], the deliveries [dl]); whether the session ends
   with the connection ([ends_session]) is judged on the interval the DISCONNECT has left. *)
Record ended (k : caps) (o : op) (c : N) (now : Z) (ob : cobj) (s s' : state) (outs : list out) : Prop := {
  en_used : st_used s' = st_used s;
  en_clients : st_clients s' = if ends_session (end_sei k o ob ob) then adel (o_id ob) (st_clients s) else st_clients s;
  en_index : st_index s' = if ends_session (end_sei k o ob ob) then ix_del_all (o_id ob) (map fst (o_subs ob)) (st_index s) else st_index s;
  en_wills : st_wills s' = if end_normal o ob then adel (o_id ob) (st_wills s) else lwt_wills c now ob (st_wills s);
  en_objs : exists dl pubs, pubs_if (negb (end_normal o ob) && pub_now ob) s dl pubs /\
      changes (fun x => at_conn c (fun y => gone now (end_normal o ob) (ends_session (end_sei k o ob ob)) (end_sei k o ob y)) (deliv dl x)) s s' /\
      outs = end_outs k o c ob (lwt_outs c ob pubs) }.

Lemma with_sei_same y : with_sei y (o_sei y) (o_seiflag y) = y.
Proof. destruct y. reflexivity. Qed.

Lemma end_sei_keep k o ob y : sei_after k o ob = (o_sei ob, o_seiflag ob) -> o_sei y = o_sei ob -> o_seiflag y = o_seiflag ob ->
  end_sei k o ob y = y.
Proof. intros E E1 E2. unfold end_sei. rewrite E. cbn. rewrite <- E1, <- E2. apply with_sei_same. Qed.

Lemma let_pair {A B C} (p : A * B) (f : B -> C) : (let (a, b) := p in (a, f b)) = (fst p, f (snd p)).
Proof. destruct p. reflexivity. Qed.

(* the handler tail after a first part of the operation that has stored the session expiry interval a DISCONNECT carries
   and, with [b], stopped the connection, and has written [o0] *)
Lemma tail_ended k o c now ob s s1 (b err : bool) o0 :
  get_obj c (st_objs s) = Some ob -> err = negb (end_normal o ob) -> (err = false -> b = true) ->
  changes (at_conn c (fun y => if b then stopped (end_sei k o ob y) now else end_sei k o ob y)) s s1 -> reg_eq s s1 ->
  st_wills s1 = (if err then st_wills s else adel (o_id ob) (st_wills s)) ->
  (forall lwt, o0 ++ (if err then lwt else []) ++ (if err && (negb b && o_open ob) then [OClose c] else []) ++
               [ODisconnected (o_id ob) (expire_cond (end_sei k o ob ob))] = end_outs k o c ob lwt) ->
  ended k o c now ob s (fst (handler_tail k now c err s1)) (o0 ++ snd (handler_tail k now c err s1)).
Proof.
  intros G -> NB CH0 (U0 & C0 & I0) EW EO. set (P := fun y => if b then stopped (end_sei k o ob y) now else end_sei k o ob y) in CH0.
  assert (G1 : get_obj c (st_objs s1) = Some (P ob)) by (rewrite (changes_here _ _ _ _ CH0), G; reflexivity).
  assert (F : o_id (P ob) = o_id ob /\ o_will (P ob) = o_will ob /\ o_subs (P ob) = o_subs ob /\ o_open (P ob) = negb b && o_open ob /\
              ends_session (P ob) = ends_session (end_sei k o ob ob) /\ expire_cond (P ob) = expire_cond (end_sei k o ob ob)).
  { subst P. cbv beta. destruct b; rewrite ?stopped_spec; repeat split. }
  destruct F as (EI & EL & ES & EOP & EX & EP). destruct (lwt_same _ _ EI EL) as (L1 & L2 & L3).
  destruct (handler_tail_spec k now c (negb (end_normal o ob)) s1 (P ob) G1) as (A1 & A2 & A3 & A4 & dl & pubs & (J & PO & Z) & CH & OUT).
  { intro E. rewrite EOP, (NB E). reflexivity. }
  rewrite EI, ES, EX, EP, EOP, L1, ?L2, ?L3, ?negb_involutive in *.
  split; [congruence|rewrite A2, C0; reflexivity|rewrite A3, I0; reflexivity|rewrite A4, EW; destruct (end_normal o ob); reflexivity|].
  exists dl, pubs. split; [|split; [|rewrite OUT; apply EO]].
  - destruct (pubs_back _ s s1 (conj U0 (conj C0 I0)) CH0) as [BJ BO]; [|split; [apply BJ, J|split; [apply BO, PO|exact Z]]].
    intro y. unfold at_conn, P. destruct (_ =? c); [|auto]. destruct b; [rewrite stopped_open; discriminate|auto].
  - refine (changes_ext _ _ _ _ _ (changes_comp _ _ _ _ _ CH0 CH)). intros c' x _. unfold at_conn, P. cbn [deliv add_infl with_session o_conn].
    destruct (o_conn x =? c) eqn:Q; [|rewrite Q; reflexivity]. destruct b; rewrite ?stopped_spec; cbn; rewrite Q; [|reflexivity].
    unfold gone, disarm, pub_now. cbn. destruct (w_flag (o_will x) && _); reflexivity.
Qed.

Lemma step_ended k s o c now ob : ending s o = Some (c, now, ob) -> ended k o c now ob s (fst (step k s o)) (snd (step k s o)).
Proof.
  intro EN. destruct (ending_obj s o c now ob EN) as [G SH]. pose proof (get_obj_conn G) as EC.
  (* network close, teardown: the tail and nothing before it *)
  assert (PLAIN : sei_after k o ob = (o_sei ob, o_seiflag ob) -> end_normal o ob = false ->
            (forall lwt, lwt ++ (if o_open ob then [OClose c] else []) ++ [ODisconnected (o_id ob) (expire_cond (end_sei k o ob ob))] = end_outs k o c ob lwt) ->
            ended k o c now ob s (fst (handler_tail k now c true s)) (snd (handler_tail k now c true s))).
  { intros SA NM EO. rewrite <- (app_nil_l (snd _)).
    apply (tail_ended k o c now ob s s false true [] G); [rewrite NM; reflexivity|discriminate| |apply reg_eq_refl|reflexivity|exact EO].
    apply changes_fix; [reflexivity|]. intros x Gx. rewrite G in Gx. inversion Gx; subst x. apply (end_sei_keep k o ob ob SA); reflexivity. }
  destruct SH as [(RD & OO & [(rc & sei & ->)|[->| ->]])|[-> SH]]; cbn [step].
  - unfold do_disconnect. rewrite RD.
    change (match sei with Some v => (0 <? v) && (o_sei ob =? 0) | None => false end) with (raises ob sei).
    set (o := ODisconnect c now rc sei). destruct (raises ob sei) eqn:RA.
    + (* protocol error: DISCONNECT 0x82 and Stop, then the tail *)
      assert (SA : end_sei k o ob ob = ob) by (apply end_sei_keep; [unfold sei_after, o; destruct sei; [rewrite RA|]|..]; reflexivity).
      unfold disconnect_client. rewrite G, OO, let_pair. cbn [fst snd].
      pose proof (changes_upd c (fun y => stopped (end_sei k o ob y) now) s ob G (eq_trans (stopped_conn (end_sei k o ob ob) now) EC)) as CH0. cbv beta in CH0. rewrite SA in CH0.
      apply (tail_ended k o c now ob s _ true true [_; _] G); [unfold end_normal; cbn; rewrite RA; reflexivity|reflexivity|exact CH0|repeat split|reflexivity|].
      intro lwt. unfold end_outs. cbn. rewrite RA. reflexivity.
    + (* the session expiry interval the DISCONNECT carries is stored, capped *)
      set (o1 := end_sei k o ob ob).
      replace (match sei with Some v => with_sei ob (if k_maxsei k <? v then k_maxsei k else v) true | None => ob end) with o1
        by (subst o1; unfold end_sei, sei_after, o; destruct sei; [rewrite RA; reflexivity|apply with_sei_same]).
      pose proof (changes_upd c (end_sei k o ob) s ob G EC) as CH0. fold o1 in CH0.
      destruct (negb (rc =? 0)) eqn:RC.
      * (* a reason code other than 0x00: the read loop ends with an error *)
        apply negb_true_iff in RC. rewrite <- (app_nil_l (snd _)).
        apply (tail_ended k o c now ob s _ false true [] G); [unfold end_normal; cbn; rewrite RA, RC; reflexivity|discriminate|exact CH0|repeat split|reflexivity|].
        intro lwt. unfold end_outs. cbn. rewrite RA, RC, OO. reflexivity.
      * (* normal: the pending will of the identifier is cancelled, the connection closed, the will removed *)
        apply negb_false_iff in RC. rewrite let_pair. cbn [fst snd].
        set (s2 := set_wills (upd_obj s o1) (adel (o_id o1) (st_wills (upd_obj s o1)))).
        pose proof (changes_twice CH0 (changes_upd c (fun y => stopped y now) s2 o1 (get_upd_at s o1 c EC) (eq_trans (stopped_conn o1 now) EC)) (fun _ => eq_refl)) as CH.
        apply (tail_ended k o c now ob s _ true false [_] G); [unfold end_normal; cbn; rewrite RA, RC; reflexivity|reflexivity|exact CH|repeat split|reflexivity|].
        intro lwt. unfold end_outs. cbn. rewrite RA, RC. reflexivity.
  - unfold do_netclose. rewrite RD. apply PLAIN; reflexivity.
  - (* second CONNECT: sendLWT, for MQTT 5 DISCONNECT 0x82 and Stop, then the tail, whose sendLWT finds the will
       published or enters it again *)
    unfold do_second_connect. rewrite RD.
    destruct (send_lwt_spec k now c true s ob G) as (R1 & W1 & dl & pubs & PI & CH1 & O1).
    destruct (send_lwt k now c s) as [s1 o1]. cbn [fst snd andb] in *. subst o1.
    set (stop := fun y : cobj => if o_ver ob =? 5 then stopped y now else y).
    assert (A2 : let r2 := if o_ver ob =? 5 then disconnect_client now c 130 s1 else (s1, []) in
                 reg_eq s1 (fst r2) /\ st_wills (fst r2) = st_wills s1 /\ changes (at_conn c stop) s1 (fst r2) /\
                 snd r2 = if o_ver ob =? 5 then [OPkt c (PDisconnect 130); OClose c] else []).
    { subst stop. cbv zeta. destruct (o_ver ob =? 5) eqn:V5.
      - split; [apply disconnect_client_reg|]. split; [apply disconnect_client_wills|]. split; [apply disconnect_client_upd|].
        rewrite disconnect_client_out, (CH1 c), G. apply N.eqb_eq in V5. cbn. rewrite at_conn_same by exact EC. unfold disarm. destruct (pub_now _); cbn; rewrite OO, V5; reflexivity.
      - split; [apply reg_eq_refl|]. split; [reflexivity|]. split; [|reflexivity]. apply changes_fix; reflexivity. }
    destruct (if o_ver ob =? 5 then disconnect_client now c 130 s1 else (s1, [])) as [s2 o2]. cbn [fst snd] in A2. destruct A2 as (R2 & W2 & CH2 & ->).
    pose proof (changes_twice CH1 CH2 (fun _ => eq_refl)) as CH12. set (o2 := stop (disarm (deliv dl ob))).
    assert (G2 : get_obj c (st_objs s2) = Some o2) by (rewrite (CH12 c), G; cbn; rewrite at_conn_same by exact EC; reflexivity).
    destruct (handler_tail_spec k now c true s2 o2 G2) as (A1 & A2 & A3 & A4 & dl' & pubs' & (_ & _ & Z') & CH & OUT); [discriminate|].
    destruct (handler_tail k now c true s2) as [s3 o3]. cbn [fst snd negb andb] in *.
    destruct (reg_eq_trans _ _ _ R1 R2) as (U & C & IX). rewrite U, C, IX in *.
    assert (SK : forall y, o_sei y = o_sei ob -> o_seiflag y = o_seiflag ob -> end_sei k (OSecondConnect c now) ob y = y) by (intro y; apply end_sei_keep; reflexivity).
    assert (F1 : o_id o2 = o_id ob /\ o_subs o2 = o_subs ob /\ ends_session o2 = ends_session ob /\ expire_cond o2 = expire_cond ob /\
                 o_open o2 = negb (o_ver ob =? 5) /\ pub_now o2 = false /\
                 lwt_wills c now o2 (lwt_wills c now ob (st_wills s)) = lwt_wills c now ob (st_wills s)).
    { subst o2 stop. cbv beta. unfold lwt_wills, reg_now, entry_of, disarm, pub_now, deliv.
      destruct (o_ver ob =? 5); rewrite ?stopped_spec; cbn [o_will o_id add_infl with_session closed_at with_will];
        (destruct (w_flag (o_will ob)) eqn:F; [destruct (0 <? w_delay (o_will ob)) eqn:D|]); cbn -[aset]; rewrite ?F, ?D, ?OO; cbn -[aset]; rewrite ?aset_idem; auto 10. }
    destruct F1 as (I1 & S1 & E1 & X1 & OP1 & P1 & LW). rewrite I1, S1, E1, X1, OP1 in *. rewrite W2, W1, LW in A4.
    destruct (Z' P1) as [Z1 ->].
    split; unfold end_outs, end_normal; rewrite ?(SK ob eq_refl eq_refl); cbn [negb andb]; auto.
    exists dl, pubs. split; [exact PI|]. split.
    + apply (changes_at c (fun y => gone now false (ends_session ob) (stop (disarm y))) _ (deliv dl) s _ ob G); [|reflexivity|].
      * rewrite (SK (deliv dl ob) eq_refl eq_refl). generalize (deliv dl ob). intro y.
        subst stop. cbv beta. unfold gone, disarm, pub_now. destruct (o_ver ob =? 5); rewrite ?stopped_spec;
          (destruct (w_flag (o_will y)) eqn:F; [destruct (0 <? w_delay (o_will y)) eqn:D|]); cbn; rewrite ?F, ?D; cbn; try reflexivity; destruct (o_open y); reflexivity.
      * refine (changes_twice CH12 (changes_ext _ _ _ _ _ CH) (fun _ => eq_refl)). intros c' x _. unfold deliv. rewrite Z1, add_infl_nil. reflexivity.
    + rewrite OUT. unfold lwt_outs at 2. rewrite P1. destruct (o_ver ob =? 5); cbn [negb app]; rewrite <- ?app_assoc; reflexivity.
  - unfold do_teardown. rewrite G, SH. apply PLAIN; reflexivity.
Qed.

(* what inheritClientSession returns for the holder [eo] of the identifier: the session present flag of the CONNACK *)
Definition resumes (p : cparams) (eo : cobj) : bool := negb (cp_clean p || (o_clean eo && (o_ver eo <? 5))).

Definition new_obj (k : caps) (c : N) (p : cparams) (e : bytes) (old : option cobj) : cobj :=
  cap_sei k (match old with
             | Some eo => if resumes p eo then with_session (parse_connect c p e) (o_subs eo) (o_infl eo) else parse_connect c p e
             | None => parse_connect c p e
             end).

Definition accept_outs (c : N) (p : cparams) (old : option cobj) : list out :=
  match old with
  | Some eo => (if o_open eo then [OPkt (o_conn eo) (PDisconnect (if o_ver eo <? 5 then 0 else 142)); OClose (o_conn eo)] else []) ++
               [OPkt c (PConnack 0 (resumes p eo))] ++ (if resumes p eo then resend c (o_infl eo) else [])
  | None => [OPkt c (PConnack 0 false)]
  end.

Lemma holder_or_not s e c' :
  (exists eo, client_of s e = Some eo /\ c' = o_conn eo) \/ (forall eo, client_of s e = Some eo -> c' <> o_conn eo).
Proof.
  destruct (client_of s e) as [eo|]; [|right; discriminate]. destruct (N.eq_dec c' (o_conn eo)) as [E|NE]; [left; exists eo; auto|].
  right. intros eo' H. inversion H; subst. exact NE.
Qed.

(* connection [c] is accepted under the identifier [e]: attachClient from ParseConnect to ResendInflightMessages.
   inheritClientSession gives [ac_holder] (the holder of the identifier is taken over) and [ac_others], [ac_index] and
   the session of [new_obj]; Clients.Add gives [ac_clients], willDelayed.Delete [ac_wills].  The objects are not given
   by one [changes] because that of [c] is new. *)
Record accepted (k : caps) (c : N) (now : Z) (p : cparams) (e : bytes) (s s' : state) : Prop := {
  ac_used : st_used s' = c :: st_used s;
  ac_new : get_obj c (st_objs s') = Some (new_obj k c p e (client_of s e));
  ac_holder : forall eo, client_of s e = Some eo -> o_conn eo <> c -> get_obj (o_conn eo) (st_objs s') = Some (taken_over now eo);
  ac_others : forall c', c' <> c -> (forall eo, client_of s e = Some eo -> c' <> o_conn eo) -> get_obj c' (st_objs s') = get_obj c' (st_objs s);
  ac_clients : st_clients s' = aset e c (st_clients s);
  ac_index : st_index s' = match client_of s e with
                           | Some eo => if resumes p eo then fold_left (fun ix fq => ix_add e (fst fq) (snd fq) ix) (o_subs eo) (st_index s)
                                        else if o_tko eo then st_index s else ix_del_all (o_id eo) (map fst (o_subs eo)) (st_index s)
                           | None => st_index s
                           end;
  ac_wills : st_wills s' = adel e (st_wills s) }.

Lemma taken_over_spec now x :
  taken_over now x =
  {| o_conn := o_conn x; o_id := o_id x; o_ver := o_ver x; o_clean := o_clean x; o_sei := o_sei x; o_seiflag := o_seiflag x;
     o_will := o_will x; o_open := false; o_disc := if o_open x then now else o_disc x; o_tko := true; o_subs := []; o_infl := [];
     o_phase := match o_phase x with PhReading => PhHeld | ph => ph end |}.
Proof. unfold taken_over, held. rewrite stopped_spec. destruct x as [? ? ? ? ? ? ? ? ? ? ? ? ph]. destruct ph; reflexivity. Qed.

Lemma new_obj_fields k c p e old :
  let n := new_obj k c p e old in
  o_conn n = c /\ okey n = (e, false, true, PhReading, 0%Z) /\ o_ver n = cp_ver p /\
  o_sei n = capN k (o_sei (parse_connect c p e)) /\ o_will n = o_will (parse_connect c p e) /\
  o_subs n = match old with Some eo => if resumes p eo then o_subs eo else [] | None => [] end /\
  o_infl n = match old with Some eo => if resumes p eo then o_infl eo else [] | None => [] end.
Proof.
  cbv zeta. unfold new_obj, cap_sei, capN, okey. destruct old as [eo|]; [destruct (resumes p eo)|]; cbn [o_sei with_session parse_connect];
    destruct (k_maxsei k <? _); repeat split.
Qed.

Lemma step_accepted k c now p e s : cp_trunc p = false -> validate_connect k p = 0 ->
  accepted k c now p e s (fst (attach k c now p true e (set_used s (c :: st_used s)))) /\
  snd (attach k c now p true e (set_used s (c :: st_used s))) = accept_outs c p (client_of s e).
Proof.
  intros T V. set (s0 := set_used s (c :: st_used s)). unfold attach. rewrite T, V. cbn [N.eqb negb].
  pose proof (inherit_spec k now p (parse_connect c p e) s0) as IS.
  destruct (inherit k now p (parse_connect c p e) s0) as [[[s1 n1] sp] o1]. cbv zeta. fold (cap_sei k n1). cbn [fst snd] in *.
  change (o_id (parse_connect c p e)) with e in IS. change (client_of s0 e) with (client_of s e) in IS.
  assert (ID : o_id (cap_sei k n1) = e).
  { rewrite (proj1 (proj2 (cap_sei_fields k n1))). destruct (client_of s e) as [eo|]; destruct IS as (_ & -> & _); [destruct (negb _)|]; reflexivity. }
  rewrite ID.
  assert (GO : forall n c', c' <> c -> o_conn n = c -> get_obj c' (st_objs (upd_obj s1 (cap_sei k n))) = get_obj c' (st_objs s1)).
  { intros n c' N CN. apply get_upd_other. rewrite (proj1 (cap_sei_fields k n)), CN. exact N. }
  assert (GN : forall n, o_conn n = c -> get_obj c (st_objs (upd_obj s1 (cap_sei k n))) = Some (cap_sei k n)).
  { intros n CN. apply get_upd_at. rewrite (proj1 (cap_sei_fields k n)). exact CN. }
  unfold new_obj, accept_outs. destruct (client_of s e) as [eo|] eqn:CO.
  - destruct IS as (-> & -> & -> & U & EU & EC & EI & EW). fold (resumes p eo) in *.
    assert (CN : o_conn (if resumes p eo then with_session (parse_connect c p e) (o_subs eo) (o_infl eo) else parse_connect c p e) = c)
      by (destruct (resumes p eo); reflexivity).
    split; [split; rewrite ?CO; unfold new_obj; cbn [st_used st_objs st_clients st_index st_wills set_wills set_clients]|].
    + exact EU.
    + apply (GN _ CN).
    + intros eo' H N. inversion H; subst eo'. rewrite (GO _ _ N CN), (changes_here _ _ _ _ U). change (st_objs s0) with (st_objs s).
      rewrite (client_of_obj CO). reflexivity.
    + intros c' N NH. rewrite (GO _ c' N CN). apply (changes_other _ _ _ _ c' U), (NH eo eq_refl).
    + rewrite EC. reflexivity.
    + exact EI.
    + cbn. rewrite EW. reflexivity.
    + destruct (cap_sei_fields k (if resumes p eo then with_session (parse_connect c p e) (o_subs eo) (o_infl eo) else parse_connect c p e))
        as (_ & _ & _ & _ & _ & _ & _ & ->). destruct (resumes p eo); reflexivity.
  - destruct IS as (-> & -> & -> & ->).
    split; [split; rewrite ?CO; unfold new_obj; cbn [st_used st_objs st_clients st_index st_wills set_wills set_clients]|]; try reflexivity.
    + apply (GN (parse_connect c p e) eq_refl).
    + intros eo H. discriminate H.
    + intros c' N _. apply (GO (parse_connect c p e) c' N eq_refl).
Qed.

(* a housekeeping tick is a run of parts, one per entry concerned, each from the state the one before has left *)
Inductive ran {A} (part : A -> state -> state -> list out -> Prop) : list A -> state -> state -> list out -> Prop :=
| ran_nil s : ran part [] s s []
| ran_cons a l s s1 s2 o1 o2 : part a s s1 o1 -> ran part l s1 s2 o2 -> ran part (a :: l) s s2 (o1 ++ o2).

Definition expired_entry (k : caps) (now : Z) (s : state) (e : bytes * N) : bool :=
  match get_obj (snd e) (st_objs s) with Some o => expired k now o | None => false end.

Lemma tick_clients_ran k now l : forall s,
  ran dropped (filter (expired_entry k now s) l) s (fst (tick_clients k now l s)) (snd (tick_clients k now l s)).
Proof.
  induction l as [|[id c] r IH]; intro s; [constructor|]. rewrite tick_clients_cons. cbn [filter]. unfold expired_entry at 1. cbn [snd].
  destruct (get_obj c (st_objs s)) as [o|]; [|apply IH]. destruct (expired k now o); [|apply IH].
  specialize (IH (drop_session c id s)).
  (* whether an entry has expired does not depend on the sessions dropped before it *)
  rewrite (filter_ext (expired_entry k now (drop_session c id s)) (expired_entry k now s)) in IH.
  - destruct (tick_clients k now r (drop_session c id s)) as [s3 outs]. apply (ran_cons dropped (id, c) _ s _ s3 [OExpired id] outs (drop_session_dropped c id s) IH).
  - intros [id' c']. unfold expired_entry. cbn [snd]. rewrite (drop_session_upd c id s c').
    destruct (get_obj c' (st_objs s)) as [x|]; [|reflexivity]. cbn. unfold at_conn. destruct (_ =? c); reflexivity.
Qed.

(* sendDelayedLWT on one due entry: the will is published, the entry deleted, and the will cleared of the client now
   registered under the identifier, which need not be the connection [d_conn] that left the entry *)
Definition due (now : Z) (e : bytes * dwill) : bool := (d_due (snd e) <? now)%Z.

Record fired (e : bytes * dwill) (s s' : state) (outs : list out) : Prop := {
  fi_reg : reg_eq s s';
  fi_wills : st_wills s' = adel (fst e) (st_wills s);
  fi_objs : exists dl pubs, pubs_if true s dl pubs /\
      changes (fun x => match client_of s (fst e) with
                        | Some o => at_conn (o_conn o) (fun y => with_will y no_will) (deliv dl x)
                        | None => deliv dl x
                        end) s s' /\
      outs = OWill (d_conn (snd e)) (d_msg (snd e)) :: pubs ++
             match client_of s (fst e) with Some _ => [OWillSent (fst e)] | None => [] end }.

Lemma fire_fired k id d s :
  let (s1, o1) := publish k (d_msg d) s in
  let (s2, o2) := will_sent k id (d_msg d) s1 in
  fired (id, d) s (set_wills s2 (adel id (st_wills s2))) (OWill (d_conn d) (d_msg d) :: o1 ++ o2).
Proof.
  pose proof (publish_published k (d_msg d) s) as [R W (dl & J & C) PO]. destruct (publish k (d_msg d) s) as [s1 o1]. cbn [fst snd] in *.
  destruct R as (RU & RC & RI).
  assert (CO : client_of s1 id = option_map (deliv dl) (client_of s id)).
  { unfold client_of. rewrite RC. destruct (aget id (st_clients s)) as [ec|]; [apply (C ec)|reflexivity]. }
  unfold will_sent. rewrite CO. destruct (client_of s id) as [o|] eqn:CS; cbn [option_map].
  - pose proof (client_of_obj CS) as G.
    set (s' := if m_retain (d_msg d) then retain_msg k (d_msg d) s1 else s1).
    destruct (retained_same k (m_retain (d_msg d)) (d_msg d) s1) as (EO & (EU & EC & EI) & EW). fold s' in EO, EU, EC, EI, EW.
    split; cbn [fst snd]; [repeat split; cbn; [rewrite EU; exact RU|rewrite EC; exact RC|rewrite EI; exact RI]|cbn [st_wills set_wills upd_obj set_objs fst]; rewrite EW, W; reflexivity|].
    exists dl, o1. split; [split; [exact J|split; [exact PO|discriminate]]|]. split; [|cbn [fst]; rewrite CS; reflexivity]. cbn [fst]. rewrite CS.
    assert (G' : get_obj (o_conn (deliv dl o)) (st_objs s') = Some (deliv dl o)) by (change (o_conn (deliv dl o)) with (o_conn o); rewrite EO, (C (o_conn o)), G; reflexivity).
    pose proof (changes_upd _ (fun y => with_will y no_will) s' (deliv dl o) G' eq_refl) as C2.
    refine (changes_ext _ _ _ _ _ (changes_comp _ _ _ _ _ (changes_comp _ _ _ _ _ C (changes_same _ s1 s' EO (fun _ _ _ => eq_refl))) C2)). reflexivity.
  - split; cbn [fst snd]; [repeat split; assumption|cbn [st_wills set_wills fst]; rewrite W; reflexivity|].
    exists dl, o1. split; [split; [exact J|split; [exact PO|discriminate]]|]. cbn [fst]. rewrite CS, app_nil_r. auto.
Qed.

Lemma tick_will_ran k now l : forall s,
  ran fired (filter (due now) l) s (fst (tick_will k now l s)) (snd (tick_will k now l s)).
Proof.
  induction l as [|[id d] r IH]; intro s; [constructor|]. rewrite tick_will_cons. cbn [filter]. change (due now (id, d)) with (d_due d <? now)%Z.
  destruct (d_due d <? now)%Z; [|apply IH].
  pose proof (fire_fired k id d s) as F. destruct (publish k (d_msg d) s) as [s1 o1]. destruct (will_sent k id (d_msg d) s1) as [s2 o2].
  specialize (IH (set_wills s2 (adel id (st_wills s2)))). destruct (tick_will k now r _) as [s4 o4]. cbn [fst snd] in *.
  rewrite app_assoc. exact (ran_cons fired (id, d) _ s _ s4 _ o4 F IH).
Qed.

(* the operation finds nothing to do: a first packet on a connection number already used, a packet or event for
   a connection whose handler is not reading, a teardown without a parked handler *)
Definition idle (s : state) (o : op) : Prop :=
  match o with
  | OConnect c _ _ _ _ | OBadFirst c _ => memN c (st_used s) = true
  | ODisconnect _ _ _ _ | ONetClose _ _ | OSecondConnect _ _ | OTeardown _ _ => ending s o = None
  | OSubscribe c _ _ | OPublish c _ => reading s c = None
  | OTickClients _ | OTickWill _ => False
  end.

Record subscribed (c : N) (f : bytes) (q : N) (ob : cobj) (s s' : state) : Prop := {
  su_reg : st_used s' = st_used s /\ st_clients s' = st_clients s /\ st_wills s' = st_wills s;
  su_objs : changes (at_conn c (fun o => with_session o (aset f q (o_subs o)) (o_infl o))) s s';
  su_index : st_index s' = ix_add (o_id ob) f q (st_index s) }.

(* [S_refused] and [S_accepted] are a first packet on a fresh connection number.  [S_ended] covers the four operations
   of [ending], which differ only in what comes before the handler tail.  A tick runs over the entries that are
   expired, or due, in the state in which it starts. *)
Inductive stepR (k : caps) (s : state) : op -> state -> list out -> Prop :=
| S_idle o : idle s o -> stepR k s o s []
| S_refused o c outs : is_new_conn s o = Some c -> refusal c outs -> stepR k s o (set_used s (c :: st_used s)) outs
| S_accepted c now p e s' : memN c (st_used s) = false -> cp_trunc p = false -> validate_connect k p = 0 ->
    accepted k c now p e s s' -> stepR k s (OConnect c now p true e) s' (accept_outs c p (client_of s e))
| S_ended o c now ob s' outs : ending s o = Some (c, now, ob) -> ended k o c now ob s s' outs -> stepR k s o s' outs
| S_expired now s' outs : ran dropped (filter (expired_entry k now s) (st_clients s)) s s' outs -> stepR k s (OTickClients now) s' outs
| S_fired now s' outs : ran fired (filter (due now) (st_wills s)) s s' outs -> stepR k s (OTickWill now) s' outs
| S_subscribed c f q ob s' : reading s c = Some ob -> subscribed c f q ob s s' -> stepR k s (OSubscribe c f q) s' []
| S_published c m ob s' pubs : reading s c = Some ob -> published s s' pubs -> stepR k s (OPublish c m) s' pubs.

Theorem step_cases k s o : stepR k s o (fst (step k s o)) (snd (step k s o)).
Proof.
  destruct (ending s o) as [[[c now] ob]|] eqn:EN; [exact (S_ended k s o c now ob _ _ EN (step_ended k s o c now ob EN))|].
  destruct (is_new_conn s o) as [c|] eqn:NEW.
  { destruct (step_new k s o c NEW) as (M & [[E R]|(now & p & e & -> & T & V & E)]).
    - rewrite E. exact (S_refused k s o c _ NEW R).
    - rewrite E. destruct (step_accepted k c now p e s T V) as [A ->]. exact (S_accepted k s c now p e _ M T V A). }
  (* DISCONNECT, network close, second CONNECT for a connection that is not reading *)
  destruct o; cbn [step is_new_conn ending] in *;
    try (unfold do_disconnect, do_netclose, do_second_connect; destruct (reading s c) eqn:RD; [discriminate|]; apply S_idle; cbn [idle ending fst]; rewrite RD; reflexivity).
  - destruct (memN c (st_used s)) eqn:M; [apply S_idle; exact M|discriminate].
  - destruct (memN c (st_used s)) eqn:M; [apply S_idle; exact M|discriminate].
  - unfold do_teardown. destruct (get_obj c (st_objs s)) as [x|] eqn:G; [destruct (o_phase x) eqn:PH; try discriminate|];
      apply S_idle; cbn [idle ending fst]; rewrite G, ?PH; reflexivity.
  - apply S_expired, tick_clients_ran.
  - apply S_fired, tick_will_ran.
  - unfold do_subscribe. destruct (reading s c) as [ob|] eqn:RD; [|apply S_idle; exact RD]. apply (S_subscribed k s c f q ob _ RD).
    destruct (reading_obj s c ob RD) as [G _]. split; [repeat split| |reflexivity].
    exact (changes_upd c (fun o => with_session o (aset f q (o_subs o)) (o_infl o)) s ob G (get_obj_conn G)).
  - unfold do_publish. destruct (reading s c) as [ob|] eqn:RD; [|apply S_idle; exact RD]. apply (S_published k s c m ob _ _ RD), retained_published.
Qed.

Lemma pkts_to_app c a b : pkts_to c (a ++ b) = pkts_to c a ++ pkts_to c b.
Proof. unfold pkts_to. apply flat_map_app. Qed.
Lemma closes_app a b : closes (a ++ b) = closes a ++ closes b.
Proof. unfold closes. apply flat_map_app. Qed.
Lemma wills_of_app a b : wills_of (a ++ b) = wills_of a ++ wills_of b.
Proof. unfold wills_of. apply flat_map_app. Qed.

Lemma pubs_obs s pubs : pubs_ok s pubs -> wills_of pubs = [] /\ closes pubs = [].
Proof.
  intro P. induction pubs as [|x r IH]; [auto|]. destruct IH as (A & B); [intros y I; apply P; right; exact I|].
  destruct (P x (or_introl eq_refl)) as (c & m & -> & _). auto.
Qed.

Lemma ended_obs k s o c now ob s' outs : ending s o = Some (c, now, ob) -> ended k o c now ob s s' outs ->
  wills_of outs = (if negb (end_normal o ob) && pub_now ob then [(c, will_msg (o_will ob))] else []) /\
  closes outs = (if o_open ob then [c] else []).
Proof.
  intros EN [_ _ _ _ (dl & pubs & (_ & PO & _) & _ & ->)]. destruct (pubs_obs s pubs PO) as (PW & PC).
  assert (L : wills_of (lwt_outs c ob pubs) = (if pub_now ob then [(c, will_msg (o_will ob))] else []) /\ closes (lwt_outs c ob pubs) = []).
  { unfold lwt_outs. destruct (pub_now ob); [|auto]. cbn. rewrite wills_of_app, closes_app, PW, PC. auto. }
  revert L. generalize (lwt_outs c ob pubs). intro lwt. destruct (ending_obj s o c now ob EN) as [_ SH]. unfold end_outs, end_normal.
  destruct SH as [(_ & OO & [(rc & sei & ->)|[->| ->]])|[-> _]]; try rewrite OO; destruct (pub_now ob);
    try destruct (raises ob sei); try destruct (rc =? 0); try destruct (o_ver ob =? 5); try destruct (o_open ob);
    intros [LW LC]; cbn; rewrite ?wills_of_app, ?closes_app, ?LW, ?LC; cbn; rewrite ?app_nil_r; auto.
Qed.

Lemma resend_obs c l : wills_of (resend c l) = [] /\ closes (resend c l) = [] /\ pkts_to c (resend c l) = map (fun m => PPublish m true) l /\
  forall c', c' <> c -> pkts_to c' (resend c l) = [].
Proof.
  repeat split; [induction l; cbn; auto|induction l; cbn; auto| |].
  - induction l as [|m r IH]; cbn; [reflexivity|]. rewrite N.eqb_refl. cbn. f_equal. exact IH.
  - intros c' N. induction l as [|m r IH]; cbn; [reflexivity|]. destruct (c =? c') eqn:E; [apply N.eqb_eq in E; congruence|exact IH].
Qed.

Lemma accept_obs c p old :
  wills_of (accept_outs c p old) = [] /\
  closes (accept_outs c p old) = match old with Some eo => if o_open eo then [o_conn eo] else [] | None => [] end /\
  success_connack (pkts_to c (accept_outs c p old)) = Some (match old with Some eo => resumes p eo | None => false end).
Proof.
  unfold accept_outs. destruct old as [eo|]; [|cbn; rewrite N.eqb_refl; auto].
  assert (R : wills_of (if resumes p eo then resend c (o_infl eo) else []) = [] /\ closes (if resumes p eo then resend c (o_infl eo) else []) = [] /\
              filter is_connack (pkts_to c (if resumes p eo then resend c (o_infl eo) else [])) = []).
  { destruct (resumes p eo); [|auto]. destruct (resend_obs c (o_infl eo)) as (A & B & C & _). rewrite A, B, C. repeat split. clear. induction (o_infl eo) as [|m r IH]; cbn; auto. }
  destruct R as (A & B & C). rewrite !wills_of_app, !closes_app, !pkts_to_app, A, B. unfold success_connack. rewrite !filter_app, C.
  destruct (o_open eo); cbn; rewrite N.eqb_refl; [destruct (o_conn eo =? c)|]; cbn; auto.
Qed.

Lemma accept_pkts_holder c p eo : o_conn eo <> c ->
  pkts_to (o_conn eo) (accept_outs c p (Some eo)) = if o_open eo then [PDisconnect (if o_ver eo <? 5 then 0 else 142)] else [].
Proof.
  intro H. unfold accept_outs. rewrite !pkts_to_app. apply N.eqb_neq in H. rewrite N.eqb_sym in H. cbn [pkts_to flat_map]. rewrite H. cbn [app].
  replace (pkts_to (o_conn eo) (if resumes p eo then _ else [])) with (@nil opkt).
  - destruct (o_open eo); cbn; rewrite ?N.eqb_refl; reflexivity.
  - destruct (resumes p eo); [|reflexivity]. symmetry. apply resend_obs. apply N.eqb_neq. rewrite N.eqb_sym. exact H.
Qed.

Lemma accept_publishes c p old c' m d : In (OPkt c' (PPublish m d)) (accept_outs c p old) ->
  c' = c /\ d = true /\ exists eo, old = Some eo /\ resumes p eo = true /\ In m (o_infl eo).
Proof.
  unfold accept_outs. destruct old as [eo|]; [|intros [H|[]]; discriminate]. intro I.
  apply in_app_or in I. destruct I as [I|[I|I]]; [destruct (o_open eo); [destruct I as [I|[I|[]]]|destruct I]; discriminate|discriminate|].
  destruct (resumes p eo) eqn:R; [|destruct I]. unfold resend in I. apply in_map_iff in I. destruct I as (m' & E & IN). inversion E; subst. eauto 6.
Qed.

Lemma accept_hooks k s c now p e : memN c (st_used s) = false -> cp_trunc p = false -> validate_connect k p = 0 ->
  hook_events k s (OConnect c now p true e) =
  match client_of s e with
  | Some eo => if resumes p eo then [] else map (fun fq => HUnsub e (fst fq)) (o_subs eo) ++ map (fun m => HDropped e (m_payload m)) (o_infl eo)
  | None => []
  end.
Proof. intros M T V. cbn [hook_events]. rewrite M, T, V. cbn. destruct (client_of s e) as [eo|]; [|reflexivity]. unfold resumes. destruct (_ || _); reflexivity. Qed.

Lemma refusal_obs c outs : refusal c outs ->
  wills_of outs = [] /\ closes outs = [c] /\ success_connack (pkts_to c outs) = None.
Proof.
  intros [->|(code & NZ & ->)]; cbn; [auto|]. rewrite N.eqb_refl. cbn. repeat split. destruct code; [congruence|reflexivity].
Qed.

Lemma fired_obs l s s' outs : ran fired l s s' outs ->
  wills_of outs = map (fun e => (d_conn (snd e), d_msg (snd e))) l /\ closes outs = [] /\
  st_wills s' = fold_left (fun t e => adel (fst e) t) l (st_wills s).
Proof.
  intro R. induction R as [s|a l s s1 s2 o1 o2 [_ EW (dl & pubs & (_ & PO & _) & _ & ->)] _ (A & B & D)]; [cbn; auto|].
  destruct (pubs_obs s pubs PO) as (PW & PC). cbn [map fold_left]. rewrite D, EW.
  change (OWill (d_conn (snd a)) (d_msg (snd a)) :: ?l) with ([OWill (d_conn (snd a)) (d_msg (snd a))] ++ l).
  rewrite !wills_of_app, !closes_app, PW, PC, A, B. destruct (client_of s (fst a)); auto.
Qed.

Lemma step_used k s o : st_used (fst (step k s o)) = match is_new_conn s o with Some c => c :: st_used s | None => st_used s end.
Proof.
  destruct (step_cases k s o) as [o ID|o c outs NEW R|c now p e s' M T VV A|o c now ob s' outs EN E|now s' outs R|now s' outs R|c f q ob s' RD S|c m ob s' pubs RD P].
  - destruct o; cbn in *; rewrite ?ID; reflexivity.
  - rewrite NEW. reflexivity.
  - cbn. rewrite M. apply A.
  - destruct (ending_obj s o c now ob EN) as [_ [(_ & _ & [(rc & sei & ->)|[->| ->]])|[-> _]]]; apply E.
  - induction R as [|a l s0 s1 s2 o1 o2 D _ IH]; [reflexivity|]. rewrite IH. apply D.
  - induction R as [|a l s0 s1 s2 o1 o2 F _ IH]; [reflexivity|]. rewrite IH. apply F.
  - apply S.
  - apply P.
Qed.

Definition still (x x' : cobj) : Prop :=
  o_id x' = o_id x /\ (o_open x' = true -> o_open x = true) /\ incl (map fst (o_subs x')) (map fst (o_subs x)).

(* what every operation on existing connections but SUBSCRIBE satisfies, in a form that composes over the parts of
   a tick ([calm_seq]) *)
Definition calm (s s' : state) (outs : list out) : Prop :=
  reg_le s s' /\ (exists e, changes e s s' /\ forall x, still x (e x)) /\ outs_ok s s' outs.

Lemma still_refl x : still x x.
Proof. split; [reflexivity|]. split; [auto|apply incl_refl]. Qed.
Lemma still_trans a b c : still a b -> still b c -> still a c.
Proof. intros (A1 & A2 & A3) (B1 & B2 & B3). split; [congruence|]. split; [auto|eapply incl_tran; eassumption]. Qed.

Lemma still_deliv dl x : still x (deliv dl x).
Proof. split; [reflexivity|]. split; [auto|apply incl_refl]. Qed.

Lemma calm_refl s : calm s s [].
Proof. split; [apply reg_le_refl|]. split; [|apply outs_ok_nil]. exists (fun x => x). split; [apply changes_same; reflexivity|apply still_refl]. Qed.

Lemma calm_seq s s1 o1 s2 o2 : calm s s1 o1 -> calm s1 s2 o2 -> calm s s2 (o1 ++ o2).
Proof.
  intros (R1 & (e1 & C1 & S1) & K1) (R2 & (e2 & C2 & S2) & K2). split; [exact (reg_le_trans _ _ _ R1 R2)|].
  split; [exists (fun x => e2 (e1 x)); split; [exact (changes_comp _ _ _ _ _ C1 C2)|intro x; exact (still_trans _ _ _ (S1 x) (S2 _))]|].
  assert (OP : forall e a b c, changes e a b -> (forall x, still x (e x)) -> openc b c = true -> openc a c = true).
  { intros e a b c C S. apply (changes_openc e a b c C). intro x. apply (S x). }
  intros x I. apply in_app_or in I. destruct I as [I|I].
  - specialize (K1 x I). destruct x as [c p|c| | | |]; cbn in *; auto. destruct K1 as [H CL]. split; [exact H|].
    destruct (openc s2 c) eqn:E; [|reflexivity]. apply (OP _ _ _ c C2 S2) in E. congruence.
  - specialize (K2 x I). destruct R1 as (RC & RI). destruct x as [c p|c| | | |]; cbn in *; auto.
    + destruct p as [| |m d|]; auto; [apply (OP _ _ _ c C1 S1), K2|].
      destruct K2 as (D & O2 & id & q & II & A). split; [exact D|]. split; [apply (OP _ _ _ c C1 S1), O2|]. exists id, q. auto.
    + rewrite <- (changes_hasobj _ _ _ c C1). exact K2.
Qed.

Lemma pubs_outs_ok s s' pubs : pubs_ok s pubs -> outs_ok s s' pubs.
Proof. intros P x I. destruct (P x I) as (c & m & -> & OP & L). cbn. auto. Qed.

Lemma ended_outs_ok k s o c now ob s' outs : ending s o = Some (c, now, ob) -> ended k o c now ob s s' outs -> outs_ok s s' outs.
Proof.
  intros EN [_ _ _ _ (dl & pubs & (_ & PO & _) & CH & ->)]. destruct (ending_obj s o c now ob EN) as [G SH].
  assert (L : outs_ok s s' (lwt_outs c ob pubs)).
  { unfold lwt_outs. destruct (pub_now ob); [|apply outs_ok_nil]. apply outs_ok_cons; [exact I|].
    apply outs_ok_app; [apply pubs_outs_ok, PO|]. apply outs_ok_cons; [exact I|apply outs_ok_nil]. }
  assert (CL : out_ok s s' (OClose c)).
  { split; [unfold hasobj; rewrite G; reflexivity|]. unfold openc. rewrite (CH c), G. cbn. rewrite at_conn_same by apply (get_obj_conn G). reflexivity. }
  assert (DC : o_open ob = true -> forall code, out_ok s s' (OPkt c (PDisconnect code))) by (intros OO code; cbn; unfold openc; rewrite G; exact OO).
  unfold end_outs. destruct SH as [(_ & OO & [(rc & sei & ->)|[->| ->]])|[-> _]];
    repeat match goal with |- context [if ?b then _ else _] => destruct b end;
    repeat match goal with
           | |- outs_ok _ _ (_ ++ _) => apply outs_ok_app
           | |- outs_ok _ _ (_ :: _) => apply outs_ok_cons
           | |- outs_ok _ _ [] => apply outs_ok_nil
           end; try assumption; try exact I; apply (DC OO).
Qed.

(* what every operation on existing connections satisfies: [calm], but that SUBSCRIBE adds one subscription *)
Definition old_ok (s : state) (o : op) (s' : state) (outs : list out) : Prop :=
  (forall c, hasobj s' c = hasobj s c) /\
  (forall id c, aget id (st_clients s') = Some c -> aget id (st_clients s) = Some c) /\
  (forall c x', get_obj c (st_objs s') = Some x' ->
     exists x, get_obj c (st_objs s) = Some x /\ o_id x' = o_id x /\ (o_open x' = true -> o_open x = true) /\
       forall f, In f (map fst (o_subs x')) -> In f (map fst (o_subs x)) \/ exists q, o = OSubscribe c f q /\ reading s c = Some x) /\
  outs_ok s s' outs.

Lemma step_old k s o : is_new_conn s o = None -> old_ok s o (fst (step k s o)) (snd (step k s o)).
Proof.
  intro NEW.
  assert (CALM : forall s' outs, calm s s' outs -> old_ok s o s' outs).
  { intros s' outs ((EC & _) & (e & CH & ST) & OK). split; [intro c; apply (changes_hasobj _ _ _ c CH)|]. split; [exact EC|]. split; [|exact OK].
    intros c x' G'. destruct (changes_back _ _ _ _ _ CH G') as (x & G & ->). destruct (ST x) as (A1 & A2 & A3). exists x. auto 6. }
  destruct (step_cases k s o) as [o ID|o c outs NEW' R|c now p e s' M T VV A|o c now ob s' outs EN E|now s' outs R|now s' outs R|c f q ob s' RD S|c m ob s' pubs RD P].
  - apply CALM, calm_refl.
  - congruence.
  - cbn in NEW. rewrite M in NEW. discriminate.
  - apply CALM. pose proof (ended_outs_ok k s o c now ob s' outs EN E) as OK. destruct E as [_ EC EI _ (dl & pubs & _ & CH & _)]. split; [|split; [|exact OK]].
    + unfold reg_le. rewrite EC, EI. split; destruct (ends_session _); try apply incl_refl; auto; [intros id c'; apply adel_le|apply incl_filter].
    + eexists. split; [exact CH|]. intro x. unfold at_conn. cbn [deliv add_infl with_session o_conn]. destruct (_ =? c); [|apply still_deliv].
      split; [reflexivity|]. split; [discriminate|]. cbn. destruct (ends_session _); [intros y []|apply incl_refl].
  - apply CALM. clear NEW CALM. induction R as [s0|a l s0 s1 s2 o1 o2 D _ IH]; [apply calm_refl|]. refine (calm_seq _ s1 _ _ _ _ IH).
    destruct D as [_ CH EC EI _ ->]. split; [|split].
    + split; [rewrite EC; intros id c'; apply adel_le|].
      rewrite EI. destruct (get_obj (snd a) (st_objs s0)) as [x|]; [destruct (o_tko x)|]; try apply incl_refl. apply incl_filter.
    + eexists. split; [exact CH|]. intro x. unfold at_conn. destruct (_ =? _); [|apply still_refl]. split; [reflexivity|]. split; [auto|intros y []].
    + apply outs_ok_cons; [exact I|apply outs_ok_nil].
  - apply CALM. clear NEW CALM. induction R as [s0|a l s0 s1 s2 o1 o2 F _ IH]; [apply calm_refl|]. refine (calm_seq _ s1 _ _ _ _ IH).
    destruct F as [RG _ (dl & pubs & (J & PO & _) & CH & ->)]. split; [apply reg_eq_le, RG|]. split.
    + eexists. split; [exact CH|]. intro x. destruct (client_of _ _); [unfold at_conn; destruct (_ =? _)|]; split; try reflexivity; (split; [auto|apply incl_refl]).
    + apply outs_ok_cons; [exact I|]. apply outs_ok_app; [apply pubs_outs_ok, PO|]. destruct (client_of _ _); [apply outs_ok_cons; [exact I|]|]; apply outs_ok_nil.
  - destruct S as [(_ & EC & _) CH _]. destruct (reading_obj s c ob RD) as [G _]. split; [intro c0; apply (changes_hasobj _ _ _ c0 CH)|]. split; [rewrite EC; auto|]. split; [|apply outs_ok_nil].
    intros c0 x' G'. destruct (changes_back _ _ _ _ _ CH G') as (x & Gx & ->). exists x. unfold at_conn. rewrite (get_obj_conn Gx).
    destruct (c0 =? c) eqn:Q; [|auto 6]. apply N.eqb_eq in Q. subst c0. assert (x = ob) by congruence. subst x. split; [exact G|]. split; [reflexivity|]. split; [auto|].
    intros f0 IN. cbn in IN. apply in_aset_keys in IN. destruct IN as [IN| ->]; [left; exact IN|right; exists q; auto].
  - apply CALM. destruct P as [RG _ (dl & J & CH) PO]. split; [apply reg_eq_le, RG|]. split; [|apply pubs_outs_ok, PO].
    eexists. split; [exact CH|]. intro x. apply still_deliv.
Qed.

(* the objects of the other connections after [c] is accepted: as they were, but for the holder of the identifier *)
Lemma accepted_old k c now p e s s' c' x' : accepted k c now p e s s' -> c' <> c -> get_obj c' (st_objs s') = Some x' ->
  exists x, get_obj c' (st_objs s) = Some x /\ ((x' = x /\ client_of s e <> Some x) \/ x' = taken_over now x).
Proof.
  intros AC N G'. destruct (holder_or_not s e c') as [(eo & CO & ->)|NH].
  - rewrite (ac_holder _ _ _ _ _ _ _ AC eo CO N) in G'. inversion G'. exists eo. split; [exact (client_of_obj CO)|right; reflexivity].
  - rewrite (ac_others _ _ _ _ _ _ _ AC c' N NH) in G'. exists x'. split; [exact G'|left]. split; [reflexivity|].
    intro CO. apply (NH x' CO). symmetry. exact (get_obj_conn G').
Qed.

Lemma accepted_objs k c now p e s s' : accepted k c now p e s s' -> forall c', hasobj s' c' = hasobj s c' || (c' =? c).
Proof.
  intros AC c'. unfold hasobj. destruct (c' =? c) eqn:E; [apply N.eqb_eq in E; subst c'; rewrite (ac_new _ _ _ _ _ _ _ AC); symmetry; apply orb_true_r|].
  apply N.eqb_neq in E. rewrite orb_false_r. destruct (holder_or_not s e c') as [(eo & CO & ->)|NH].
  - rewrite (ac_holder _ _ _ _ _ _ _ AC eo CO E), (client_of_obj CO). reflexivity.
  - rewrite (ac_others _ _ _ _ _ _ _ AC c' E NH). reflexivity.
Qed.

Lemma accepted_outs k c now p e s s' : accepted k c now p e s s' -> hasobj s c = false ->
  exists o1 sp l, accept_outs c p (client_of s e) = o1 ++ [OPkt c (PConnack 0 sp)] ++ resend c l /\ outs_ok s s' o1.
Proof.
  intros AC HN. unfold accept_outs. destruct (client_of s e) as [eo|] eqn:CO; [|exists [], false, []; split; [reflexivity|apply outs_ok_nil]].
  pose proof (client_of_obj CO) as G.
  exists (if o_open eo then [OPkt (o_conn eo) (PDisconnect (if o_ver eo <? 5 then 0 else 142)); OClose (o_conn eo)] else []), (resumes p eo),
         (if resumes p eo then o_infl eo else []).
  split; [destruct (resumes p eo); reflexivity|]. destruct (o_open eo) eqn:OO; [|apply outs_ok_nil].
  assert (OC : openc s (o_conn eo) = true) by (unfold openc; rewrite G; exact OO).
  apply outs_ok_cons; [exact OC|]. apply outs_ok_cons; [|apply outs_ok_nil]. split; [apply openc_hasobj, OC|].
  assert (N : o_conn eo <> c) by (intro E; unfold hasobj in HN; rewrite <- E, G in HN; discriminate).
  unfold openc. rewrite (ac_holder _ _ _ _ _ _ _ AC eo CO N), taken_over_spec. reflexivity.
Qed.

Lemma step_new_cases k s o c : is_new_conn s o = Some c -> objs_used s ->
  memN c (st_used s) = false /\ hasobj s c = false /\
  ((fst (step k s o) = set_used s (c :: st_used s) /\ refusal c (snd (step k s o))) \/
   exists now p e, o = OConnect c now p true e /\ cp_trunc p = false /\ validate_connect k p = 0 /\
     accepted k c now p e s (fst (step k s o)) /\ snd (step k s o) = accept_outs c p (client_of s e)).
Proof.
  intros NEW W. destruct (step_new k s o c NEW) as (M & CASES). split; [exact M|].
  split; [destruct (hasobj s c) eqn:H; [apply W in H; congruence|reflexivity]|].
  destruct CASES as [A|(now & p & e & -> & T & V & E)]; [left; exact A|]. right. exists now, p, e. rewrite E.
  destruct (step_accepted k c now p e s T V). auto 6.
Qed.

Lemma resend_in c l x : In x (resend c l) -> exists m, x = OPkt c (PPublish m true).
Proof. unfold resend. rewrite in_map_iff. intros (m & <- & _). exists m. reflexivity. Qed.

Lemma refusal_in c outs x : refusal c outs -> In x outs -> x = OClose c \/ exists code, code <> 0 /\ x = OPkt c (PConnack code false).
Proof. intros [->|(code & NZ & ->)] I; cbn in I; [destruct I as [<-|[]]|destruct I as [<-|[<-|[]]]]; eauto. Qed.

(* whatever the operation: a packet goes to a connection that was open or to the one the operation opens; a connection
   the broker closes is closed afterwards, and its number used; no other connection is open afterwards than before *)
Lemma step_conns k s o : objs_used s ->
  (forall c p, In (OPkt c p) (snd (step k s o)) -> openc s c = true \/ is_new_conn s o = Some c) /\
  (forall c, In (OClose c) (snd (step k s o)) -> openc (fst (step k s o)) c = false /\ memN c (st_used (fst (step k s o))) = true) /\
  (forall c, openc (fst (step k s o)) c = true -> openc s c = true \/ is_new_conn s o = Some c).
Proof.
  intro W. rewrite step_used. destruct (is_new_conn s o) as [c0|] eqn:NEW.
  2:{ destruct (step_old k s o NEW) as (_ & _ & OBJ & S). split; [|split].
      - intros c p I. left. apply (sends_ok_of _ _ _ S _ I).
      - intros c I. destruct (S _ I) as [H C]. split; [exact C|apply W, H].
      - intros c E. left. unfold openc in *. destruct (get_obj c (st_objs (fst (step k s o)))) as [x'|] eqn:G'; [|discriminate].
        destruct (OBJ c x' G') as (x & G & _ & OP & _). rewrite G. exact (OP E). }
  destruct (step_new_cases k s o c0 NEW W) as (M & HS & [[E R]|(now & p & e & -> & _ & _ & AC & EO)]).
  - rewrite E. split; [|split].
    + intros c p I. right. destruct (refusal_in c0 _ _ R I) as [H|(code & _ & H)]; inversion H. reflexivity.
    + intros c I. destruct (refusal_in c0 _ _ R I) as [H|(code & _ & H)]; inversion H. rewrite memN_cons, N.eqb_refl. split; [|reflexivity].
      unfold openc. unfold hasobj in HS. cbn. destruct (get_obj c0 (st_objs s)); [discriminate|reflexivity].
    + intros c E'. left. exact E'.
  - destruct (accepted_outs _ _ _ _ _ _ _ AC HS) as (o1 & sp & l & EQ & IO). rewrite EO, EQ. split; [|split].
    + intros c pk I. apply in_app_or in I. destruct I as [I|[I|I]].
      * left. apply (sends_ok_of _ _ _ IO _ I).
      * right. inversion I. reflexivity.
      * right. apply resend_in in I. destruct I as (mm & E). inversion E. reflexivity.
    + intros c I. apply in_app_or in I. destruct I as [I|[I|I]]; [|discriminate|apply resend_in in I; destruct I; discriminate].
      destruct (IO _ I) as [HX CX]. rewrite memN_cons, (W c HX), orb_true_r. auto.
    + intros c E. destruct (N.eq_dec c c0) as [->|N]; [right; reflexivity|left]. unfold openc in *.
      destruct (get_obj c (st_objs (fst _))) as [x'|] eqn:G'; [|discriminate].
      destruct (accepted_old _ _ _ _ _ _ _ c x' AC N G') as (x & -> & [[-> _]| ->]); [exact E|rewrite taken_over_spec in E; discriminate].
Qed.
