(* The expiry model (Session/Expiry.v), for C25: a copy is stamped with publish time + the smaller
   non-zero of the publisher's interval and the server maximum, and reads back the same wherever it
   waits; housekeeping removes it exactly when run after that time; it is never delivered later; outside
   the listed finding the interval written on delivery is positive and at most what remains. *)
From MV Require Import Base.Val Session.Pkt Session.Expiry.
From Coq Require Import Lia ZifyBool.
Open Scope Z_scope.

Lemma eff_cases m i : 0 <= m -> 0 <= i ->
  (m = 0 /\ eff m i = i) \/ (0 < m /\ 0 < eff m i <= m /\ (i = 0 -> eff m i = m)).
Proof. intros Hm Hi. unfold eff. destruct (m =? 0) eqn:M; [lia|]. destruct (i =? 0) eqn:I; lia. Qed.

Lemma minimum_is_eff a b : 0 <= a -> 0 <= b -> minimum a b = eff a b.
Proof.
  intros Ha Hb. unfold minimum, eff.
  destruct (a =? 0) eqn:A; destruct (b =? 0) eqn:B; cbn [negb andb]; try lia.
  destruct (b <? a) eqn:L; lia.
Qed.

Lemma held_hold e : 0 <= e -> held (hold e) = e.
Proof. intros H. unfold held, hold. destruct (e <? 0) eqn:E; [lia|]. destruct (-1 - e <? 0) eqn:F; lia. Qed.

Lemma held_nonneg e : 0 <= e -> held e = e.
Proof. intros H. unfold held. destruct (e <? 0) eqn:E; [lia|reflexivity]. Qed.

Lemma wf_parts c : wf_cfg c = true ->
  0 <= g_smax c /\ 0 <= g_interval c /\ 0 <= g_created c /\ (g_ver5 c = false -> g_interval c = 0).
Proof. unfold wf_cfg. intros H. repeat split; lia. Qed.

Lemma minimum_is_eff_cfg c : wf_cfg c = true -> minimum (g_smax c) (g_interval c) = eff (g_smax c) (g_interval c).
Proof. intro W. destruct (wf_parts c W) as (H1 & H2 & _). apply minimum_is_eff; assumption. Qed.

Lemma pub_expiry_spec c : wf_cfg c = true ->
  pub_expiry (g_smax c) (g_created c) (g_interval c) = if expires c then expiry_time c else 0.
Proof. intros W. unfold pub_expiry, expires, expiry_time, c_eff. rewrite (minimum_is_eff_cfg c W). reflexivity. Qed.

Lemma expiry_time_pos c : wf_cfg c = true -> expires c = true -> 0 < expiry_time c.
Proof. intros W E. destruct (wf_parts c W) as (_ & _ & H3 & _). unfold expires, expiry_time in *. lia. Qed.

(* whichever way the copy is stored (as it is, or marked as held back), the code reads the same time back *)
Lemma seen_stored c : wf_cfg c = true ->
  seen_expiry c (stored_expiry c) = if expires c then expiry_time c else 0.
Proof.
  intros W. rewrite <- (pub_expiry_spec c W).
  assert (E0 : 0 <= pub_expiry (g_smax c) (g_created c) (g_interval c)).
  { rewrite (pub_expiry_spec c W). pose proof (expiry_time_pos c W). destruct (expires c); lia. }
  unfold seen_expiry, stored_expiry.
  destruct (g_place c =? P_RETAINED)%N eqn:R.
  - replace (g_place c =? P_HELD)%N with false by (unfold P_RETAINED, P_HELD in *; lia). reflexivity.
  - destruct (g_place c =? P_HELD)%N; [apply held_hold|apply held_nonneg]; exact E0.
Qed.

(* housekeeping removes the copy exactly when its time argument is strictly later than the expiry time *)
Theorem house_removes_exact c h : wf_cfg c = true ->
  house_removes c (stored_expiry c) h = expires c && (expiry_time c <? h).
Proof.
  intros W. destruct (wf_parts c W) as (H1 & H2 & H3 & H4).
  unfold house_removes. rewrite (seen_stored c W). pose proof (expiry_time_pos c W) as P.
  unfold expires, expiry_time, c_eff in *. pose proof (eff_cases _ _ H1 H2) as S.
  (* the test on the server maximum alone: an MQTT 3 publisher has no interval, so it is the same test;
     for an MQTT 5 publisher the effective interval is no larger, so the first test has fired already *)
  destruct (0 <? eff (g_smax c) (g_interval c)) eqn:E; [specialize (P eq_refl)|]; destruct (g_ver5 c);
    try specialize (H4 eq_refl); lia.
Qed.

Theorem no_late_delivery c : wf_cfg c = true ->
  forall evs present dead, (dead = true -> present = false) -> late_ok c dead (run c present evs) = true.
Proof.
  intros W. induction evs as [|e r IH]; intros present dead D; [reflexivity|].
  cbn [run]. destruct e as [h|now]; cbn [step].
  - cbn [late_ok]. apply IH. rewrite (house_removes_exact c h W). intros H.
    destruct dead; [rewrite (D eq_refl); reflexivity|]. cbn [orb] in H. rewrite H. destruct present; reflexivity.
  - destruct present; cbn [late_ok].
    + destruct dead; [specialize (D eq_refl); discriminate|]. cbn [andb negb]. apply IH. intros; discriminate.
    + rewrite andb_false_r. cbn [negb andb]. apply IH. intros; reflexivity.
Qed.

(* the interval a delivery carries is positive and at most what remains of the message's life *)
Theorem interval_shrinks c : wf_cfg c = true ->
  forall evs present, kf_free c evs = true -> interval_ok c (run c present evs) = true.
Proof.
  intros W. induction evs as [|e r IH]; intros present K; [reflexivity|].
  cbn [run]. destruct e as [h|now]; cbn [step kf_free] in *.
  - cbn [interval_ok]. apply IH, K.
  - apply andb_true_iff in K. destruct K as [K1 K2].
    destruct present; cbn [interval_ok negb orb andb]; [|apply IH, K2].
    rewrite (IH _ K2), andb_true_r.
    unfold interval_ok_one, write_interval, KF_C25_interval_floor in *. rewrite (seen_stored c W).
    destruct (expires c) eqn:E; [|reflexivity]. cbn [negb orb andb] in K1 |- *.
    (* something remains (outside the finding), so WritePacket writes exactly what remains *)
    pose proof (expiry_time_pos c W E) as P. apply negb_true_iff in K1.
    replace (0 <? expiry_time c) with true by lia. cbv zeta. rewrite K1. lia.
Qed.
