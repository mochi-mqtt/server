(* C38 under concurrent connection attempts: for every schedule, at every point where no teardown is
   pending, Info.ClientsConnected equals the number of established connections (from C35's counter
   invariant, Conc/LimitProofs.v). *)
From Coq Require Import Lia.
From MV Require Import Base.Val Base.ListMisc Base.Sched Conc.Limit Conc.LimitProofs Session.StatsLimit.
Open Scope Z_scope.

Lemma wsum_quiet l : existsb is_kicked l = false -> wsum l = count_est l.
Proof.
  intro H. unfold count_est. rewrite countZ_filter. apply (sumZ_ext_in weight). intros s I.
  pose proof (existsb_false_In _ _ s H I). destruct s; try reflexivity. discriminate.
Qed.

Theorem connected_exact_when_quiet (max : Z) (specs : list tspec) (sched : list tid) :
  0 <= max ->
  let c := run exec sched (limit_threads max specs) in
  quiet c = true -> connected_ok c /\ 0 <= l_counter (shared c).
Proof.
  intros Hm c Q. destruct (limit_counter max specs sched Hm) as [Hc Hr]. fold c in Hc, Hr.
  unfold quiet in Q. apply Bool.negb_true_iff in Q.
  split; [unfold connected_ok, connected; rewrite Hc; apply wsum_quiet, Q|lia].
Qed.
