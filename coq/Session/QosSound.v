(* Soundness of the monitors.  C12: chk12 is sound for a specification written in the property's words: if it accepts
   every step of an observed history, first transmissions are in publish order for every two messages of one
   publisher/topic delivered at one QoS.  C09, C10 (end of the file): the step checks chk09 / chk10 imply the step
   specifications Spec09_step / Spec10_step. *)
From MV Require Import Base.Val Base.ListMisc Session.Pkt Session.Inflight Session.QosSpecs Session.QosOrder.
From Coq Require Import Lia.
Open Scope N_scope.

Definition msg_of (o : op) : list omsg :=
  match o with
  | OutPublish pq sq uid grp now mei _ _ =>
      [{| m_uid := uid; m_qos := eff_qos pq sq; m_grp := grp; m_created := now; m_mei := mei |}]
  | _ => []
  end.

(* the monitor reads two components of the view only: what has been published, what has been received *)
Definition core (v : view) : list omsg * list N := (v_pubs v, v_seen v).

Lemma core_if (b : bool) (x y : view) : core (if b then x else y) = if b then core x else core y.
Proof. destruct b; reflexivity. Qed.

Lemma if_same {A} (b : bool) (x : A) : (if b then x else x) = x.
Proof. destruct b; reflexivity. Qed.

Lemma core_view_drop v : core (view_drop v) = core v.
Proof. unfold view_drop. rewrite core_if. apply if_same. Qed.

Lemma core_view_op c v o ob : core (view_op c v o ob) = (msg_of o ++ v_pubs v, v_seen v).
Proof.
  destruct o; cbn [view_op msg_of app]; try reflexivity.
  - rewrite core_if. apply if_same.
  - rewrite core_if. destruct (find_pend pid (v_pend v)); [|apply if_same]. rewrite !core_if, !if_same. reflexivity.
  - apply core_view_drop.
  - rewrite core_if. apply if_same.
Qed.

Definition seen_pkt (seen : list N) (p : out) : list N :=
  match p with
  | OPkt t _ _ _ u _ => if (t =? T_PUBLISH) && negb (inb u seen) then u :: seen else seen
  | _ => seen
  end.

Lemma core_view_pkt d v p : core (view_pkt d v p) = (v_pubs v, seen_pkt (v_seen v) p).
Proof.
  destruct p; [|reflexivity..]. unfold view_pkt, seen_pkt.
  destruct (ty =? T_PUBLISH); cbn [andb].
  - destruct (inb uid (v_seen v)), dup, (0 <? qos); reflexivity.
  - rewrite !core_if, core_view_drop. unfold core. cbn. rewrite !if_same. reflexivity.
Qed.

Lemma core_fold_view_pkt d l : forall v,
  core (fold_left (view_pkt d) l v) = (v_pubs v, fold_left seen_pkt l (v_seen v)).
Proof.
  induction l as [|p l IH]; intros v; [reflexivity|]. cbn [fold_left]. rewrite IH.
  pose proof (core_view_pkt d v p) as E. inversion E as [[E1 E2]]. rewrite E1, E2. reflexivity.
Qed.

Lemma core_view_step c v o ob :
  core (view_step c v o ob) = (msg_of o ++ v_pubs v, fold_left seen_pkt (ob_pkts ob) (v_seen v)).
Proof.
  unfold view_step. change (core ?x) with (v_pubs x, v_seen x). cbn [v_pubs v_seen].
  change (v_pubs ?x, v_seen ?x) with (core x). rewrite core_if, core_view_drop, if_same, core_fold_view_pkt.
  pose proof (core_view_op c v o ob) as E. inversion E as [[E1 E2]]. rewrite E1, E2. reflexivity.
Qed.

Lemma view_op_pubs c v o ob : v_pubs (view_op c v o ob) = msg_of o ++ v_pubs v.
Proof. exact (f_equal fst (core_view_op c v o ob)). Qed.
Lemma view_op_seen c v o ob : v_seen (view_op c v o ob) = v_seen v.
Proof. exact (f_equal snd (core_view_op c v o ob)). Qed.
Lemma view_step_pubs c v o ob : v_pubs (view_step c v o ob) = msg_of o ++ v_pubs v.
Proof. exact (f_equal fst (core_view_step c v o ob)). Qed.
Lemma view_step_seen c v o ob : v_seen (view_step c v o ob) = fold_left seen_pkt (ob_pkts ob) (v_seen v).
Proof. exact (f_equal snd (core_view_step c v o ob)). Qed.

(* messages published towards the session, oldest first; uids received as PUBLISH packets, in order *)
Definition pubs_of (tr : list (op * obs)) : list omsg := flat_map (fun x => msg_of (fst x)) tr.
Definition rx_of (tr : list (op * obs)) : list N := flat_map (fun x => txs (ob_pkts (snd x))) tr.

Definition before (a b : omsg) (P : list omsg) : Prop := exists l1 l2 l3, P = l1 ++ a :: l2 ++ b :: l3.

(* for any two messages of one publisher and topic (grp) delivered at the same QoS, published in this order, the first
   transmissions arrive in this order (if both arrive) *)
Definition Spec12 (tr : list (op * obs)) : Prop :=
  forall a b, before a b (pubs_of tr) -> m_grp a = m_grp b -> m_qos a = m_qos b ->
  ord_ok (m_uid a) (m_uid b) (rx_of tr).

(* what the monitor does over a whole history *)
Fixpoint accept12 (c : cfg) (v : view) (tr : list (op * obs)) : Prop :=
  match tr with
  | [] => True
  | (o, ob) :: r => chk12 c v o ob (view_op c v o ob) = None /\ accept12 c (view_step c v o ob) r
  end.

(* assumptions about the observation itself: every message has its own uid, and a message is received only after
   it has been published (both hold by construction of the harness) *)
Definition uids_distinct (tr : list (op * obs)) : Prop := NoDup (map m_uid (pubs_of tr)).
Fixpoint causal (P : list omsg) (tr : list (op * obs)) : Prop :=
  match tr with
  | [] => True
  | (o, ob) :: r =>
      (forall u, In u (txs (ob_pkts ob)) -> In u (map m_uid (P ++ msg_of o))) /\ causal (P ++ msg_of o) r
  end.

Lemma inb_In u l : inb u l = true <-> In u l.
Proof. exact (existsb_eqb_In N.eqb N.eqb_eq u l). Qed.

Lemma find_msg_app_notin u l r : ~ In u (map m_uid l) -> find_msg u (l ++ r) = find_msg u r.
Proof.
  induction l as [|m l IH]; intros NI; [reflexivity|]. cbn [app find_msg find].
  destruct (m_uid m =? u) eqn:E; [exfalso; apply NI; left; lia|]. apply IH. intros X. apply NI. right. exact X.
Qed.

Lemma find_msg_nodup Q m : NoDup (map m_uid Q) -> In m Q -> find_msg (m_uid m) Q = Some m.
Proof.
  induction Q as [|x Q IH]; intros N I; [destruct I|]. cbn [map] in N. inversion N as [|? ? NI Nd]; subst.
  cbn [find_msg find]. destruct I as [->|I]; [rewrite N.eqb_refl; reflexivity|].
  destruct (m_uid x =? m_uid m) eqn:E.
  - exfalso. apply NI. replace (m_uid x) with (m_uid m) by lia. apply in_map. exact I.
  - apply IH; assumption.
Qed.

Lemma pub_index_app_notin u l r : ~ In u (map m_uid l) -> pub_index u (l ++ r) = (length l + pub_index u r)%nat.
Proof.
  induction l as [|m l IH]; intros NI; [reflexivity|]. cbn [app pub_index length].
  destruct (m_uid m =? u) eqn:E; [exfalso; apply NI; left; lia|]. rewrite IH; [lia|]. intros X. apply NI. right. exact X.
Qed.

Lemma pub_index_head m r : pub_index (m_uid m) (m :: r) = 0%nat.
Proof. cbn. rewrite N.eqb_refl. reflexivity. Qed.

(* in the newest-first list the later message has the smaller index *)
Lemma before_index a b P :
  NoDup (map m_uid P) -> before a b P ->
  (pub_index (m_uid b) (rev P) < pub_index (m_uid a) (rev P))%nat /\ In a P /\ In b P /\ m_uid a <> m_uid b.
Proof.
  intros N (l1 & l2 & l3 & ->).
  assert (Nr : NoDup (map m_uid (rev (l1 ++ a :: l2 ++ b :: l3)))).
  { rewrite map_rev. apply NoDup_rev. exact N. }
  assert (Er : rev (l1 ++ a :: l2 ++ b :: l3) = (rev l3 ++ b :: rev l2) ++ a :: rev l1).
  { rewrite rev_app_distr. cbn [rev]. rewrite rev_app_distr. cbn [rev]. rewrite <- !app_assoc. reflexivity. }
  rewrite Er in *. rewrite map_app in Nr. cbn [map] in Nr.
  assert (Na : ~ In (m_uid a) (map m_uid (rev l3 ++ b :: rev l2))).
  { intros X. apply (NoDup_app_disj Nr X). left. reflexivity. }
  assert (Nb : ~ In (m_uid b) (map m_uid (rev l3))).
  { apply NoDup_app_l in Nr. rewrite map_app in Nr. intros X. apply (NoDup_app_disj Nr X). left. reflexivity. }
  split.
  - rewrite (pub_index_app_notin _ _ _ Na), pub_index_head, <- app_assoc, (pub_index_app_notin _ _ _ Nb).
    cbn [app]. rewrite pub_index_head, app_length. cbn [length]. lia.
  - split; [apply in_or_app; right; left; reflexivity|]. split.
    + apply in_or_app. right. right. apply in_or_app. right. left. reflexivity.
    + intros E. apply Na. rewrite E, map_app. apply in_or_app. right. left. reflexivity.
Qed.

(* Spec12 tr is pairs_ok (pubs_of tr) (rx_of tr); the induction needs it for the prefixes of both lists *)
Definition pairs_ok (P : list omsg) (R : list N) : Prop :=
  forall a b, before a b P -> m_grp a = m_grp b -> m_qos a = m_qos b -> ord_ok (m_uid a) (m_uid b) R.

Lemma find_msg_rev P m : NoDup (map m_uid P) -> In m P -> find_msg (m_uid m) (rev P) = Some m.
Proof.
  intros N I. apply find_msg_nodup; [rewrite map_rev; apply NoDup_rev; exact N|apply in_rev in I; exact I].
Qed.

Lemma pairs_snoc_pkt P seen R u :
  NoDup (map m_uid P) ->
  (forall x, In x seen <-> In x R) ->
  (* the monitor's test at the first transmission of u found no later message of the same flow already received *)
  (~ In u seen -> forall m, find_msg u (rev P) = Some m ->
     find (fun u' => match find_msg u' (rev P) with
                     | Some m' => (m_grp m' =? m_grp m) && (m_qos m' =? m_qos m)
                                  && Nat.ltb (pub_index u' (rev P)) (pub_index u (rev P))
                     | None => false
                     end) seen = None) ->
  pairs_ok P R -> pairs_ok P (R ++ [u]).
Proof.
  intros N SR Test PO a b B Gr Qo.
  destruct (before_index a b P N B) as (Lt & Ia & Ib & Nab).
  apply ord_app; [exact Nab|apply (PO a b); assumption| |intros _ _; apply ord_single].
  intros Na Yb [E|[]]. subst u.
  assert (NS : ~ In (m_uid a) seen) by (intros X; apply Na; apply SR; exact X).
  pose proof (Test NS a (find_msg_rev P a N Ia)) as F.
  assert (Sb : In (m_uid b) seen) by (apply SR; exact Yb).
  pose proof (find_none _ _ F (m_uid b) Sb) as Fb. cbn beta in Fb.
  rewrite (find_msg_rev P b N Ib) in Fb.
  rewrite <- Gr, <- Qo, !N.eqb_refl in Fb. cbn [andb] in Fb.
  apply Nat.ltb_ge in Fb. lia.
Qed.

Lemma pkts_sound P : NoDup (map m_uid P) -> forall l seen R,
  (forall x, In x seen <-> In x R) ->
  (forall u, In u (txs l) -> In u (map m_uid P)) ->
  chk12_pkts (rev P) seen l = None ->
  pairs_ok P R ->
  pairs_ok P (R ++ txs l) /\ (forall x, In x (fold_left seen_pkt l seen) <-> In x (R ++ txs l)).
Proof.
  intros N. induction l as [|p l IH]; intros seen R SR Ca Ck PO.
  - cbn. rewrite app_nil_r. tauto.
  - assert (Cl : forall x, In x (txs l) -> In x (map m_uid P)).
    { intros x I. apply Ca. rewrite txs_cons. apply in_or_app. right. exact I. }
    destruct p as [t pid d q u rc|u|u]; cbn [chk12_pkts] in Ck; rewrite txs_cons; cbn [tx_of fold_left seen_pkt];
      try (cbn [app]; apply IH; assumption).
    destruct (t =? T_PUBLISH) eqn:Tp; cbn [andb] in *.
    2:{ cbn [app]. apply IH; assumption. }
    assert (Cu : In u (map m_uid P)) by (apply Ca; rewrite txs_cons; cbn [tx_of]; rewrite Tp; left; reflexivity).
    rewrite app_assoc.
    destruct (inb u seen) eqn:Iu; cbn [negb] in *.
    + pose proof (proj1 (inb_In u seen) Iu) as Su.
      apply IH; try assumption.
      * intros x. rewrite in_app_iff. cbn [In]. split; [intros X; left; apply SR; exact X|].
        intros [X|[X|[]]]; [apply SR; exact X|subst x; exact Su].
      * apply (pairs_snoc_pkt P seen R u N SR); [|exact PO]. intros NS. contradiction.
    + assert (NSu : ~ In u seen) by (intros X; apply inb_In in X; congruence).
      destruct (proj1 (in_map_iff m_uid P u) Cu) as (m & Em & Im). subst u.
      rewrite (find_msg_rev P m N Im) in Ck.
      match type of Ck with (match find ?f seen with _ => _ end) = None => destruct (find f seen) eqn:F end; [discriminate Ck|].
      apply IH; try assumption.
      * intros x. cbn [In]. rewrite in_app_iff. cbn [In]. rewrite SR. tauto.
      * apply (pairs_snoc_pkt P seen R (m_uid m) N SR); [|exact PO].
        intros _ m0 Fm. rewrite (find_msg_rev P m N Im) in Fm. inversion Fm; subst m0. exact F.
Qed.

Lemma before_snoc a b P m :
  before a b (P ++ [m]) -> before a b P \/ (b = m /\ In a P).
Proof.
  intros (l1 & l2 & l3 & E). induction l3 as [|x l3 _] using rev_ind.
  - right. assert (E' : P ++ [m] = (l1 ++ a :: l2) ++ [b]) by (rewrite E, <- app_assoc; reflexivity).
    apply app_inj_tail in E'. destruct E' as [EP Em]. split; [congruence|]. rewrite EP. apply in_or_app. right. left. reflexivity.
  - left. assert (E' : P ++ [m] = (l1 ++ a :: l2 ++ b :: l3) ++ [x]).
    { rewrite E. rewrite <- !app_assoc. cbn [app]. rewrite <- !app_assoc. reflexivity. }
    apply app_inj_tail in E'. destruct E' as [EP _]. exists l1, l2, l3. exact EP.
Qed.

Record inv12 (v : view) (P : list omsg) (R : list N) : Prop := {
  i_pubs : v_pubs v = rev P;
  i_seen : forall x, In x (v_seen v) <-> In x R;
  i_caus : forall u, In u R -> In u (map m_uid P);
  i_ok : pairs_ok P R }.

Lemma accept12_sound c : forall tr v P R,
  NoDup (map m_uid (P ++ pubs_of tr)) -> causal P tr -> inv12 v P R -> accept12 c v tr ->
  pairs_ok (P ++ pubs_of tr) (R ++ rx_of tr).
Proof.
  induction tr as [|[o ob] tr IH]; intros v P R N Ca [Ip Is Ic Io] Ac.
  - cbn. rewrite !app_nil_r. exact Io.
  - cbn [pubs_of rx_of flat_map fst snd] in *. fold (pubs_of tr) in *. fold (rx_of tr) in *.
    cbn [causal accept12] in *. destruct Ca as [Ca0 Ca1]. destruct Ac as [Ck Ac].
    rewrite app_assoc in N. rewrite !app_assoc.
    set (P1 := P ++ msg_of o) in *.
    assert (N1 : NoDup (map m_uid P1)) by (rewrite map_app in N; exact (NoDup_app_l _ _ N)).
    (* the new message, if any, has not been received yet: all its pairs are fine *)
    assert (Io1 : pairs_ok P1 R).
    { unfold P1. destruct o; cbn [msg_of]; try (rewrite app_nil_r; exact Io).
      intros a b B Gr Qo. apply before_snoc in B. destruct B as [B|[Eb Ia]]; [apply (Io a b); assumption|].
      apply ord_nil_u2. intros X. apply Ic in X. subst b.
      unfold P1 in N1. cbn [msg_of] in N1. rewrite map_app in N1. cbn [map] in N1.
      apply (NoDup_app_disj N1 X). left. reflexivity. }
    unfold chk12 in Ck. rewrite view_op_pubs, view_op_seen, Ip in Ck.
    assert (Er : msg_of o ++ rev P = rev P1).
    { unfold P1. rewrite rev_app_distr. destruct o; cbn [msg_of rev app]; reflexivity. }
    rewrite Er in Ck.
    destruct (pkts_sound P1 N1 (ob_pkts ob) (v_seen v) R Is Ca0 Ck Io1) as [Io2 Is2].
    apply (IH (view_step c v o ob) P1 (R ++ txs (ob_pkts ob))); try assumption.
    constructor.
    + rewrite view_step_pubs, Ip. exact Er.
    + intros x. rewrite view_step_seen. apply Is2.
    + intros u I. apply in_app_or in I. destruct I as [I|I]; [|apply Ca0; exact I].
      unfold P1. rewrite map_app. apply in_or_app. left. apply Ic. exact I.
    + exact Io2.
Qed.

(* C12: if the monitor accepts every step of an observed history then the history satisfies the specification *)
Theorem chk12_sound c tr :
  uids_distinct tr -> causal [] tr -> accept12 c view0 tr -> Spec12 tr.
Proof.
  intros N Ca Ac. unfold Spec12.
  apply (accept12_sound c tr view0 [] [] N Ca); [|exact Ac].
  constructor; [reflexivity|cbn; tauto|intros u []|].
  intros a b (l1 & l2 & l3 & E). destruct l1; discriminate E.
Qed.

(* the engine's verdict "no violation" is this acceptance, as long as the client itself made no protocol error *)
Fixpoint never_err (c : cfg) (v : view) (tr : list (op * obs)) : Prop :=
  match tr with
  | [] => True
  | (o, ob) :: r => v_err (view_op c v o ob) = false /\ never_err c (view_step c v o ob) r
  end.

Lemma replay_accept12 c : forall tr s v t n ag,
  rs_viol (replay 12 c s v t tr n ag) = None -> never_err c v tr -> accept12 c v tr.
Proof.
  induction tr as [|[o ob] tr IH]; intros s v t n ag H NE; [exact Logic.I|].
  cbn [replay] in H. cbn [never_err] in NE. destruct NE as [E NE].
  destruct (stepx c s o ob (orc_for s o ob)) as [s' outs].
  destruct (chk 12 c v o ob) as [vi|] eqn:Ck; [cbn in H; discriminate H|].
  cbn [accept12]. split; [|eapply IH; [exact H|exact NE]].
  unfold chk in Ck. rewrite E in Ck. exact Ck.
Qed.

Theorem engine12_sound c tr :
  uids_distinct tr -> causal [] tr -> never_err c view0 tr ->
  rs_viol (replay 12 c init_st view0 taint0 tr 0 true) = None -> Spec12 tr.
Proof.
  intros N Ca NE H. apply (chk12_sound c tr N Ca). eapply replay_accept12; eassumption.
Qed.

(* C10 and C09: the step checks say what their specifications say (reflection).  "Unacknowledged outbound message"
   is the client-side bookkeeping of QosSpecs.view_step: v_pend = PUBLISH received and not yet PUBACKed /
   PUBCOMPed by the client's own packets *)
Lemma orelse_none {A} (a b : option A) : orelse a b = None -> a = None /\ b = None.
Proof. destruct a; cbn; [discriminate|tauto]. Qed.

Lemma first_some_none {A B} (f : A -> option B) l : first_some f l = None -> forall x, In x l -> f x = None.
Proof.
  induction l as [|y l IH]; intros H x I; [destruct I|]. cbn in H. destruct (f y) eqn:E; [discriminate|].
  destruct I as [->|I]; [exact E|apply IH; assumption].
Qed.

Definition snap_of (ob : obs) : list (N * srec) := match ob_snap ob with Some sv => sv_infl sv | None => [] end.

(* the record stored under k before the step is stored, equal, after it *)
Definition unchanged (k : N) (r : srec) (sn : list (N * srec)) : Prop :=
  exists r', snap_get k sn = Some r' /\ srec_eqb r r' = true.

(* identifiers: going through the packets of the step in order, every QoS 1/2 PUBLISH has an identifier in
   1..65535 and, if a message with this identifier is outstanding, it is that very message *)
Fixpoint ids_ok (pe : list pend) (l : list out) : Prop :=
  match l with
  | [] => True
  | OPkt t pid d q u rc :: r =>
      if (t =? T_PUBLISH) && (0 <? q) then
        1 <= pid <= 65535 /\
        match find_pend pid pe with
        | Some x => p_uid x = u /\ ids_ok pe r
        | None => ids_ok (pe ++ [{| p_pid := pid; p_uid := u; p_qos := q; p_rec := false |}]) r
        end
      else ids_ok pe r
  | _ :: r => ids_ok pe r
  end.

Record Spec10_step (c : cfg) (v : view) (o : op) (ob : obs) : Prop := {
  (* identifier allocation for one session is mutually exclusive (what a forced schedule observes) *)
  s10_mutex : ob_overlap ob = false;
  s10_ids : ids_ok (v_pend (view_op c v o ob)) (ob_pkts ob);
  (* the client's own PUBLISH / PUBREL identifier never completes, replaces or deletes an outbound record *)
  s10_own_pub : forall qos pid dup uid now r, o = InPublish qos pid dup uid now -> ob_closed ob = false ->
      snap_get pid (v_prev v) = Some r -> is_outbound_rec r = true -> unchanged pid r (snap_of ob);
  s10_own_rel : forall pid rc now r, o = InAck T_PUBREL pid rc now ->
      snap_get pid (v_prev v) = Some r -> is_outbound_rec r = true -> unchanged pid r (snap_of ob);
  (* ... and an acknowledgement of a broker identifier never touches the client's own exchange *)
  s10_ack : forall ty pid rc now r, o = InAck ty pid rc now -> ty <> T_PUBREL ->
      snap_get pid (v_prev v) = Some r -> is_inbound_rec r = true -> unchanged pid r (snap_of ob);
  (* ... nor does the delivery of another message (whatever identifier its publisher used) *)
  s10_deliver : forall pq sq uid grp now mei pv qf k r, o = OutPublish pq sq uid grp now mei pv qf ->
      In (k, r) (v_prev v) -> is_outbound_rec r = true -> unchanged k r (snap_of ob) }.

Lemma chk10_pkts_sound : forall l pe, chk10_pkts pe l = None -> ids_ok pe l.
Proof.
  induction l as [|p l IH]; intros pe H; [exact Logic.I|].
  destruct p as [t pid d q u rc|u|u]; cbn [chk10_pkts ids_ok] in *; try (apply IH; exact H).
  destruct ((t =? T_PUBLISH) && (0 <? q)); [|apply IH; exact H].
  destruct ((pid =? 0) || (65535 <? pid)) eqn:R; [discriminate H|]. split; [lia|].
  destruct (find_pend pid pe) as [x|]; [|apply IH; exact H].
  destruct (p_uid x =? u) eqn:E; [|discriminate H]. split; [lia|apply IH; exact H].
Qed.

Lemma unchanged_of_check k r sn (w : option viol) :
  match snap_get k sn with Some r' => if srec_eqb r r' then None else w | None => w end = None ->
  w <> None -> unchanged k r sn.
Proof.
  intros H NW. unfold unchanged. destruct (snap_get k sn) as [r'|]; [|contradiction].
  destruct (srec_eqb r r') eqn:E; [|contradiction]. exists r'. split; [reflexivity|exact E].
Qed.

Theorem chk10_sound c v o ob : chk10 c v o ob (view_op c v o ob) = None -> Spec10_step c v o ob.
Proof.
  unfold chk10. intros H. apply orelse_none in H. destruct H as [H0 H]. apply orelse_none in H.
  destruct H as [H1 H2]. fold (snap_of ob) in H2.
  constructor.
  - destruct (ob_overlap ob); [discriminate H0|reflexivity].
  - apply chk10_pkts_sound. exact H1.
  - intros qos pid dup uid now r -> Cl G Ob. rewrite G, Ob, Cl in H2. cbn [negb andb] in H2.
    eapply unchanged_of_check; [exact H2|discriminate].
  - intros pid rc now r -> G Ob. rewrite G in H2. cbn [N.eqb Pos.eqb T_PUBREL] in H2. rewrite Ob in H2.
    eapply unchanged_of_check; [exact H2|discriminate].
  - intros ty pid rc now r -> NT G Ib. rewrite G in H2. replace (ty =? T_PUBREL) with false in H2 by lia. rewrite Ib in H2.
    eapply unchanged_of_check; [exact H2|discriminate].
  - intros pq sq uid grp now mei pv qf k r -> I Ob.
    pose proof (first_some_none _ _ H2 (k, r) I) as F. cbn [fst snd] in F. rewrite Ob in F.
    eapply unchanged_of_check; [exact F|discriminate].
Qed.

Definition got (f : N -> N -> bool -> N -> N -> N -> bool) (ob : obs) : Prop := has_pkt f (ob_pkts ob) = true.

Record Spec09_step (c : cfg) (v : view) (o : op) (ob : obs) : Prop := {
  (* redelivered on every reconnection with the session present: same identifier and DUP; PUBREL after PUBREC *)
  s09_resend : is_resume o ob = true -> forall p, In p (v_pend v) ->
      if p_rec p then got (fun t pid _ _ _ _ => (t =? T_PUBREL) && (pid =? p_pid p)) ob
      else got (fun t pid d _ u _ => (t =? T_PUBLISH) && (pid =? p_pid p) && d && (u =? p_uid p)) ob;
  (* acknowledged messages are never sent again; an outstanding one only with its identifier and DUP, and not as
     PUBLISH once PUBREC was sent *)
  s09_norepeat : forall t pid d q u rc, In (OPkt t pid d q u rc) (ob_pkts ob) -> t = T_PUBLISH -> 0 < q ->
      ~ In u (v_done v) /\
      forall pe, find_pend_uid u (v_pend v) = Some pe -> p_rec pe = false /\ pid = p_pid pe /\ d = true;
  (* it stays in the session: after the step every outstanding and every queued message is stored *)
  s09_kept_pend : forall p, In p (v_pend (view_step c v o ob)) -> rec_for_pend p (snap_of ob) = true;
  s09_kept_owed : forall u, In u (v_owed (view_step c v o ob)) -> rec_for_uid u (snap_of ob) = true }.

Theorem chk09_sound c v o ob : chk09 c v o ob (view_step c v o ob) = None -> Spec09_step c v o ob.
Proof.
  unfold chk09. fold (snap_of ob). intros H.
  apply orelse_none in H. destruct H as [H1 H]. apply orelse_none in H. destruct H as [H2 H].
  apply orelse_none in H. destruct H as [H3 H4].
  constructor.
  - intros R p I. rewrite R in H1. pose proof (first_some_none _ _ H1 p I) as F. cbn beta in F. unfold got.
    destruct (p_rec p); match type of F with (if ?b then _ else _) = None => destruct b end; try reflexivity; discriminate F.
  - intros t pid d q u rc I -> Q. pose proof (first_some_none _ _ H2 _ I) as F. cbn beta iota in F.
    replace ((T_PUBLISH =? T_PUBLISH) && (0 <? q)) with true in F by (cbn; lia).
    destruct (inb u (v_done v)) eqn:D; [discriminate F|]. split.
    + intros X. apply inb_In in X. congruence.
    + intros pe Fp. rewrite Fp in F. destruct (p_rec pe); [discriminate F|].
      destruct (negb (pid =? p_pid pe) || negb d) eqn:E; [discriminate F|]. split; [reflexivity|]. split; [lia|].
      destruct d; [reflexivity|]. cbn in E. rewrite orb_true_r in E. discriminate E.
  - intros p I. pose proof (first_some_none _ _ H3 p I) as F. cbn beta in F.
    destruct (rec_for_pend p (snap_of ob)); [reflexivity|discriminate F].
  - intros u I. pose proof (first_some_none _ _ H4 u I) as F. cbn beta in F.
    destruct (rec_for_uid u (snap_of ob)); [reflexivity|discriminate F].
Qed.
