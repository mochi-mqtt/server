(* C08-C12: theorems about the session model of Inflight.v.  Every statement is about an arbitrary
   well-formed state (InflightProofs.run_wf: every state reached by any history under any oracle
   is one) or directly about all histories. *)
From MV Require Import Base.Val Base.ListMisc Session.Pkt Session.Inflight Session.InflightProofs.
From Coq Require Import Lia.
Open Scope N_scope.

Definition is_fwd (uid : N) (o : out) : bool := match o with OFwd u => u =? uid | _ => false end.
Definition count_fwd (uid : N) (outs : list out) : nat := length (filter (is_fwd uid) outs).

Definition retrans (s : st) (pid : N) : bool :=
  match get pid (s_infl s) with Some r => r_ty r =? T_PUBREC | None => false end.

Lemma count_fwd_app u a b : count_fwd u (a ++ b) = (count_fwd u a + count_fwd u b)%nat.
Proof. unfold count_fwd. rewrite filter_app, app_length. reflexivity. Qed.

Lemma count_fwd_pkt u t p d q x rc l : count_fwd u (OPkt t p d q x rc :: l) = count_fwd u l.
Proof. reflexivity. Qed.

Lemma count_fwd_rec u d p r l : count_fwd u (pkt_of_rec d p r :: l) = count_fwd u l.
Proof. unfold pkt_of_rec. destruct (r_ty r =? T_PUBLISH); reflexivity. Qed.

Lemma deferred_no_fwd s orc u : count_fwd u (snd (deferred s orc)) = 0%nat.
Proof.
  destruct (deferred_shape s orc) as [[-> _]|(p & r & _ & _ & ->)]; [reflexivity|].
  cbn [snd]. destruct (s_conn s); [apply count_fwd_rec|reflexivity].
Qed.

Lemma resend_no_fwd u l : count_fwd u (map (fun kv => pkt_of_rec true (fst kv) (snd kv)) l) = 0%nat.
Proof. induction l as [|[p r] l IH]; [reflexivity|]. cbn [map]. rewrite count_fwd_rec. exact IH. Qed.

Lemma step_count_fwd c s o orc u :
  count_fwd u (snd (step c s o orc)) =
  match o with
  | InPublish _ p _ uid _ =>
      if s_present s && s_conn s && negb (s_recvq s =? 0)%Z && negb (retrans s p) && (uid =? u) then 1%nat else 0%nat
  | _ => 0%nat
  end.
Proof.
  destruct o; cbn [step].
  - destruct (s_present s); [|reflexivity].
    destruct (out_publish_cases c s pubqos subqos uid now mei ppv5 qfull) as [o [->|[->|(-> & _)]]| | |]; try reflexivity.
    cbn [snd]. destruct (s_conn s); reflexivity.
  - destruct (s_present s && s_conn s); [|reflexivity]. cbn [andb]. unfold retrans.
    destruct (in_publish_cases c s qos pid uid now orc) as [(Q & ->)|[(Q & R & ->)|(Q & R & s0 & _ & _ & _ & ->)]];
      rewrite Q; try rewrite R; cbn [negb andb snd]; [reflexivity|rewrite count_fwd_pkt; apply deferred_no_fwd|].
    rewrite count_fwd_app. replace (count_fwd u (pub_ack qos pid)) with 0%nat
      by (unfold pub_ack; destruct (qos =? 0); reflexivity).
    change (OFwd uid :: ?l) with ([OFwd uid] ++ l). rewrite count_fwd_app, deferred_no_fwd.
    unfold count_fwd. cbn [filter is_fwd]. destruct (uid =? u); reflexivity.
  - destruct (s_present s && s_conn s); [|reflexivity].
    destruct (in_ack_handled c s ty pid rc now orc) as [->|(pre & P & s0 & _ & _ & _ & ->)]; [reflexivity|].
    cbn [snd]. rewrite count_fwd_app, deferred_no_fwd. destruct P as [->|(t & rc' & _ & ->)]; reflexivity.
  - destruct (s_present s && s_conn s); [apply deferred_no_fwd|reflexivity].
  - destruct (s_present s && s_conn s); [|reflexivity].
    destruct graceful; [rewrite let_pair|]; reflexivity.
  - destruct (reconnect_cases c s v5 clean sei rm orc) as [(_ & ->)|(_ & z & ->)]; [reflexivity|].
    cbn [snd]. rewrite count_fwd_pkt. apply resend_no_fwd.
  - destruct (s_present s); reflexivity.
Qed.

(* the session outlives its connections *)
Definition persistent (s : st) : Prop :=
  s_present s = true /\ s_exp s = false /\ (s_v5 s = false -> s_clean s = false).

(* operations after which the session still exists: no clean start, no expiry interval 0, no housekeeping expiry *)
Definition keeps_session (o : op) : bool :=
  match o with
  | Reconnect v5 clean sei _ => negb clean && (negb v5 || negb (sei =? 0))
  | Expire _ => false
  | _ => true
  end.
(* an acknowledgement packet carrying this identifier: PUBREL ends the exchange; PUBACK / PUBREC / PUBCOMP with
   the identifier of an own exchange is the cross-direction defect (KF_C08_cross_ack) *)
Definition acks (pid : N) (o : op) : bool := match o with InAck _ p _ _ => p =? pid | _ => false end.
Definition own_pub (k : N) (o : op) : bool := match o with InPublish _ p _ _ _ => p =? k | _ => false end.

Definition inrec (s : st) (pid : N) : Prop := exists r, get pid (s_infl s) = Some r /\ r_ty r = T_PUBREC /\ (0 <= r_expiry r)%Z.
Lemma inrec_frame s s' pid :
  inrec s pid ->
  (forall r, get pid (s_infl s) = Some r -> get pid (s_infl s') = Some r) -> inrec s' pid.
Proof. intros (r & G & T & E) F. exists r. split; [apply F; exact G|tauto]. Qed.

(* the session flags that no packet handler changes *)
Definition same_flags (s s' : st) : Prop :=
  s_present s' = s_present s /\ s_v5 s' = s_v5 s /\ s_clean s' = s_clean s /\ s_exp s' = s_exp s.

Lemma same_flags_refl s : same_flags s s.
Proof. unfold same_flags. tauto. Qed.

Lemma persistent_flags s s' : same_flags s s' -> persistent s -> persistent s'.
Proof. unfold same_flags, persistent. intros (A & B & C & D) (P & E & F). rewrite A, B, C, D. tauto. Qed.

Lemma frame_same_flags p s s0 : frame p s s0 -> same_flags s s0.
Proof. intros F. repeat split; apply F. Qed.
Arguments persistent_flags {s s'}.
Arguments frame_same_flags {p s s0}.

Definition holds (s : st) (k : N) (r : rec) : Prop := persistent s /\ get k (s_infl s) = Some r.

Lemma ack_rec_expiry c ty uid now : cfg_ok c -> (0 <= now)%Z -> (0 <= r_expiry (ack_rec ty uid c now))%Z.
Proof. intros [_ C] Nw. cbn. lia. Qed.

Lemma deferred_same_flags s orc : same_flags s (fst (deferred s orc)).
Proof. destruct (deferred_shape s orc) as [[-> _]|(p & r & _ & _ & ->)]; repeat split. Qed.

Lemma deferred_keeps s orc k r :
  imm_ok (s_infl s) -> holds s k r -> (0 <= r_expiry r)%Z -> holds (fst (deferred s orc)) k r.
Proof.
  intros I [P G] E. split; [exact (persistent_flags (deferred_same_flags s orc) P)|apply deferred_get; assumption].
Qed.

Lemma moves_keep c p lo s s0 orc k r :
  cfg_ok c -> (0 <= lo)%Z -> wf c s -> moves c p lo s s0 ->
  holds s k r -> (0 <= r_expiry r)%Z -> k <> p -> holds (fst (deferred s0 orc)) k r.
Proof.
  intros C Lo W M [P G] E Ne. pose proof (frame_moves M) as F.
  apply deferred_keeps; [apply (imm_ok_wf c), (wf_moves c p lo s s0); assumption| |exact E]. split.
  - exact (persistent_flags (frame_same_flags F) P).
  - rewrite (fr_other _ _ _ F k Ne). exact G.
Qed.

Lemma teardown_keeps s k r : holds s k r -> holds (teardown s) k r.
Proof. intros [P G]. destruct (teardown_cases s) as [[E' _]|[_ ->]]; [destruct P as (_ & E & _); congruence|split; assumption]. Qed.

Lemma persistent_resumes s v5 clean sei rm :
  persistent s -> keeps_session (Reconnect v5 clean sei rm) = true -> resumes s clean = true /\ clean = false.
Proof.
  intros (P & _ & F) K. cbn [keeps_session] in K. unfold resumes. rewrite P.
  destruct clean; [discriminate|]. split; [|reflexivity].
  destruct (s_v5 s); [rewrite andb_false_r; reflexivity|]. rewrite F; reflexivity.
Qed.

(* C10, and along a history C09 (run_keeps_record).  One step from any well-formed state: a record (k, r) without the
   held-back mark is unchanged unless the operation is an acknowledgement packet carrying k, or the client's own PUBLISH
   carrying k while r is an outbound record, or the session ends / housekeeping expiry runs. *)
Lemma step_keeps_record c s o orc k r :
  cfg_ok c -> op_ok o -> wf c s -> persistent s ->
  get k (s_infl s) = Some r -> (0 <= r_expiry r)%Z -> r_ty r <> T_PUBACK -> r_ty r <> T_PUBCOMP ->
  keeps_session o = true -> acks k o = false -> (own_pub k o = false \/ r_ty r = T_PUBREC) ->
  let s' := fst (step c s o orc) in
  persistent s' /\ get k (s_infl s') = Some r.
Proof.
  intros C O W P G E T1 T2 K A U. pose proof (imm_ok_wf c s W) as I.
  assert (H : holds s k r) by (split; assumption). change (holds (fst (step c s o orc)) k r).
  destruct o; cbn [step keeps_session acks own_pub op_ok] in *.
  - destruct (s_present s); [|exact H].
    destruct (out_publish_cases c s pubqos subqos uid now mei ppv5 qfull) as [o _|i e _ Gi _ _|i e _ Gi _ _ _|i _];
      try exact H; (split; [exact P|]); cbn [fst]; sproj; apply get_cons_fresh; assumption.
  - destruct (s_present s && s_conn s); [|exact H].
    destruct (in_publish_cases c s qos pid uid now orc) as [(_ & ->)|[(_ & _ & ->)|(_ & R & s0 & M & _ & _ & ->)]]; cbn [fst].
    + apply teardown_keeps; assumption.
    + apply deferred_keeps; assumption.
    + apply (moves_keep c pid now s s0); try assumption.
      (* under its own identifier a PUBREC record makes the PUBLISH a retransmission *)
      intros ->. rewrite G in R. destruct U as [U|U]; lia.
  - destruct (s_present s && s_conn s); [|exact H].
    destruct (in_ack_handled c s ty pid rc now orc) as [->|(pre & _ & s0 & M & _ & _ & ->)]; [exact H|]. cbn [fst].
    apply (moves_keep c pid now s s0); try assumption. lia.
  - destruct (s_present s && s_conn s); [apply deferred_keeps; assumption|exact H].
  - destruct (s_present s && s_conn s); [|exact H].
    destruct graceful; [rewrite let_pair|]; cbn [fst]; apply teardown_keeps; [|exact H].
    apply (deferred_keeps (with_conn s false)); assumption.
  - destruct (persistent_resumes s v5 clean sei rm P K) as [Rs ->].
    destruct (reconnect_cases c s v5 false sei rm orc) as [(Rs' & _)|(_ & z & ->)]; [congruence|]. cbn [fst]. split.
    + cbn [keeps_session negb andb] in K. split; [reflexivity|]. split; [sproj|reflexivity].
      destruct v5; [apply negb_true_iff in K; rewrite K|]; reflexivity.
    + sproj. apply resend_keeps; [unfold transient; lia| |exact G].
      intros x In. apply (get_all_spec orc _ (wf_nodup c s W)) in In. congruence.
  - discriminate.
Qed.

(* operations of a history that cannot touch the record under k *)
Definition leaves (k : N) (inbound : bool) (h : list (op * list N)) : Prop :=
  forall o orc, In (o, orc) h ->
    op_ok o /\ keeps_session o = true /\ acks k o = false /\ (inbound = true \/ own_pub k o = false).

Theorem run_keeps_record c k r : cfg_ok c -> forall h s,
  wf c s -> persistent s ->
  get k (s_infl s) = Some r -> (0 <= r_expiry r)%Z -> r_ty r <> T_PUBACK -> r_ty r <> T_PUBCOMP ->
  leaves k (r_ty r =? T_PUBREC) h ->
  get k (s_infl (fst (run c s h))) = Some r.
Proof.
  intros C h s W P G E T1 T2 L.
  refine (proj2 (proj2 (run_inv (fun s _ => wf c s /\ holds s k r) _ c _ h s [] (conj W (conj P G)) L))).
  intros s1 _ o orc (W1 & P1 & G1) (O & K & A & U). split; [apply step_wf; assumption|].
  apply step_keeps_record; try assumption. destruct U as [U|U]; [right; lia|left; exact U].
Qed.

Lemma deferred_none s orc k : get k (s_infl s) = None -> get k (s_infl (fst (deferred s orc))) = None.
Proof.
  intros G. destruct (get k (s_infl (fst (deferred s orc)))) eqn:G'; [|reflexivity]. apply deferred_sub in G'. congruence.
Qed.

Lemma puback_removes c s k rc now orc :
  get k (s_infl (fst (in_ack c s T_PUBACK k rc now orc))) = None.
Proof.
  unfold in_ack. cbn [N.eqb Pos.eqb T_PUBACK].
  destruct (get k (s_infl s)) eqn:G; apply deferred_none; [sproj; apply get_del_same|exact G].
Qed.

Lemma pubcomp_removes c s k rc now orc :
  get k (s_infl (fst (in_ack c s T_PUBCOMP k rc now orc))) = None.
Proof.
  unfold in_ack. cbn [N.eqb Pos.eqb T_PUBCOMP T_PUBACK T_PUBREC T_PUBREL].
  apply deferred_none. sproj. apply get_del_same.
Qed.

Lemma pubrec_turns_into_pubrel c s k rc now orc r :
  cfg_ok c -> (0 <= now)%Z -> wf c s -> get k (s_infl s) = Some r ->
  (128 <=? rc) || negb (pubrec_rc_valid rc) = false ->
  exists r', get k (s_infl (fst (in_ack c s T_PUBREC k rc now orc))) = Some r' /\ r_ty r' = T_PUBREL.
Proof.
  intros [_ C] Nw W G V. unfold in_ack. cbn [N.eqb Pos.eqb T_PUBACK T_PUBREC]. rewrite G, V, let_pair. cbn [fst].
  exists (ack_rec T_PUBREL (r_uid r) c now). split; [|reflexivity].
  apply deferred_get; sproj; [eauto with imap|apply get_set_same|cbn; lia].
Qed.

(* the message uid travels only under identifier pid *)
Definition uid_ok (pid uid : N) (o : op) : bool :=
  match o with InPublish _ p _ u _ => negb (u =? uid) || (p =? pid) | _ => true end.

Definition quiet (pid uid : N) (h : list (op * list N)) : Prop :=
  forall o orc, In (o, orc) h ->
    op_ok o /\ keeps_session o = true /\ acks pid o = false /\ uid_ok pid uid o = true.

(* while the PUBREC record r of the exchange is stored, the message is not forwarded again: it can only travel under
   pid, where the record makes every PUBLISH a retransmission *)
Lemma run_keeps_exchange c pid uid r : cfg_ok c -> r_ty r = T_PUBREC -> (0 <= r_expiry r)%Z -> forall h s,
  wf c s -> holds s pid r -> quiet pid uid h ->
  count_fwd uid (concat (snd (run c s h))) = 0%nat.
Proof.
  intros C T E h s W H Q.
  refine (proj2 (proj2 (run_inv (fun s O => wf c s /\ holds s pid r /\ count_fwd uid O = 0%nat) _ c _ h s []
                          (conj W (conj H eq_refl)) Q))).
  intros s1 O o orc (W1 & [P1 G1] & Z) (Oo & K & A & U). split; [apply step_wf; assumption|]. split.
  - apply step_keeps_record; try assumption; try (rewrite T; discriminate). right; exact T.
  - rewrite count_fwd_app, Z, step_count_fwd. destruct o; try reflexivity. cbn [uid_ok] in U.
    destruct (uid0 =? uid) eqn:Eu; [|rewrite !andb_false_r; reflexivity].
    replace pid0 with pid by lia. unfold retrans. rewrite G1. replace (r_ty r =? T_PUBREC) with true by lia.
    rewrite andb_false_r. reflexivity.
Qed.

(* C08: a QoS 2 message accepted from the client is forwarded exactly once, whatever follows that keeps
   the session and is not an acknowledgement packet with the same identifier: retransmissions (DUP or
   not) in any number, disconnections, reconnections with the session, other publishes in both
   directions, acknowledgements of other identifiers, for every oracle. *)
Theorem exactly_once c s pid uid dup now orc0 h :
  cfg_ok c -> (0 <= now)%Z -> wf c s -> persistent s -> s_conn s = true ->
  (s_recvq s =? 0)%Z = false -> retrans s pid = false ->
  quiet pid uid h ->
  count_fwd uid (concat (snd (run c s ((InPublish 2 pid dup uid now, orc0) :: h)))) = 1%nat.
Proof.
  intros C Nw W P Cn Q R Qh.
  rewrite run_cons. cbn [snd concat]. rewrite count_fwd_app, step_count_fwd.
  destruct P as (Pr & Px). rewrite Pr, Cn, Q, R, N.eqb_refl. cbn [negb andb].
  rewrite (run_keeps_exchange c pid uid (ack_rec T_PUBREC uid c now)); try assumption; try reflexivity.
  - apply ack_rec_expiry; assumption.
  - apply step_wf; assumption.
  - (* after the step the PUBREC record is stored *)
    cbn [step]. rewrite Pr, Cn. cbn [andb]. unfold retrans in R.
    destruct (in_publish_cases c s 2 pid uid now orc0) as [(Q' & _)|[(_ & R' & _)|(_ & _ & s0 & M & _ & G & ->)]];
      [congruence..|]. cbn [fst].
    pose proof (frame_moves M) as F.
    apply deferred_keeps; [apply (imm_ok_wf c), (wf_moves c pid now s s0); assumption| |apply ack_rec_expiry; assumption].
    split; [|exact (G eq_refl)]. apply (persistent_flags (frame_same_flags F)). split; assumption.
Qed.

Lemma retrans_answer c s qos pid uid now orc :
  (s_recvq s =? 0)%Z = false -> retrans s pid = true ->
  exists rest, snd (in_publish c s qos pid uid now orc) = OPkt T_PUBREC pid false 0 0 (wire_rc s 145) :: rest
               /\ count_fwd uid rest = 0%nat.
Proof.
  intros Q R. unfold retrans in R.
  destruct (in_publish_cases c s qos pid uid now orc) as [(Q' & _)|[(_ & _ & ->)|(_ & R' & _)]]; [congruence| |congruence].
  eexists. split; [reflexivity|apply deferred_no_fwd].
Qed.

Fixpoint sorted_keys (l : list Z) : Prop :=
  match l with
  | a :: ((b :: _) as r) => (a <= b)%Z /\ sorted_keys r
  | _ => True
  end.

Lemma sorted16_keys l : sorted16 l = true -> sorted_keys (map (fun kv => key16 (snd kv)) l).
Proof.
  induction l as [|a [|b l] IH]; cbn; intros S; try exact I.
  apply andb_prop in S. destruct S as [S1 S2]. split; [lia|]. apply IH. exact S2.
Qed.

(* C12: the records of a resumed session - all of them, nothing else - are written in an order that is sorted by
   uint16(Created), whatever the oracle; two messages whose stamps differ (mod 2^16) in publish order therefore keep
   their order *)
Theorem resend_sorted c s v5 clean sei rm orc :
  wf c s -> persistent s -> keeps_session (Reconnect v5 clean sei rm) = true ->
  exists lst, snd (reconnect c s v5 clean sei rm orc) =
                OPkt T_CONNACK 0 true 0 0 0 :: map (fun kv => pkt_of_rec true (fst kv) (snd kv)) lst
              /\ sorted_keys (map (fun kv => key16 (snd kv)) lst)
              /\ (forall k r, In (k, r) lst <-> get k (s_infl s) = Some r).
Proof.
  intros W P K. destruct (persistent_resumes s v5 clean sei rm P K) as [Rs ->].
  destruct (reconnect_cases c s v5 false sei rm orc) as [(Rs' & _)|(_ & z & ->)]; [congruence|].
  destruct (get_all_spec orc _ (wf_nodup c s W)) as [S I].
  exists (get_all orc (s_infl s)). split; [reflexivity|]. split; [apply sorted16_keys, S|exact I].
Qed.

(* C09: so every stored record is written again: a PUBLISH record as PUBLISH with the same identifier, QoS and message
   and with DUP set, a PUBREL record as PUBREL; and nothing is written that is not stored (so nothing acknowledged,
   whose record is gone, is repeated) *)
Theorem resume_resends c s v5 clean sei rm orc :
  wf c s -> persistent s -> keeps_session (Reconnect v5 clean sei rm) = true ->
  exists sent, snd (reconnect c s v5 clean sei rm orc) = OPkt T_CONNACK 0 true 0 0 0 :: sent /\
    (forall k r, get k (s_infl s) = Some r -> In (pkt_of_rec true k r) sent) /\
    (forall p, In p sent -> exists k r, get k (s_infl s) = Some r /\ p = pkt_of_rec true k r).
Proof.
  intros W P K. destruct (resend_sorted c s v5 clean sei rm orc W P K) as (lst & -> & _ & I).
  eexists. split; [reflexivity|]. split.
  - intros k r G. apply (in_map (fun kv => pkt_of_rec true (fst kv) (snd kv)) _ (k, r)), I, G.
  - intros p In. apply in_map_iff in In. destruct In as ([k r] & <- & In). exists k, r. split; [apply I, In|reflexivity].
Qed.

(* C10: a new outbound message gets an identifier in range under which nothing — of either direction — is stored
   (that every PUBLISH written, released or resent carries one in range is QosOrder.publish_ids_in_range) *)
Lemma out_publish_fresh c s pq sq uid now mei pv qf i d q u rc :
  In (OPkt T_PUBLISH i d q u rc) (snd (out_publish c s pq sq uid now mei pv qf)) -> 0 < q ->
  1 <= i <= c_maxpid c /\ get i (s_infl s) = None /\ d = false /\ u = uid.
Proof.
  destruct (out_publish_cases c s pq sq uid now mei pv qf) as [o [->|[->|(-> & _)]]|j e R G _ _|j e R G _ _ _|j _];
    cbn [snd]; try destruct (s_conn s); intros H Q;
    repeat (destruct H as [H|H]; [inversion H; subst; try lia; tauto|]); destruct H.
Qed.

(* C12 / C11: when the post-packet block runs with quota available and messages held back, it writes one of them,
   and one whose uint16(Created) is smallest among the held-back ones *)
Theorem deferred_progress c s orc k0 r0 :
  wf c s -> s_conn s = true -> (0 < s_sendq s)%Z -> get k0 (s_infl s) = Some r0 -> (r_expiry r0 < 0)%Z ->
  exists p r, snd (deferred s orc) = [OPkt T_PUBLISH p false (r_qos r) (r_uid r) 0] /\
              get p (s_infl s) = Some r /\ (r_expiry r < 0)%Z /\
              forall k' r', get k' (s_infl s) = Some r' -> (r_expiry r' < 0)%Z -> (key16 r <= key16 r')%Z.
Proof.
  intros W Cn Q G0 E0.
  destruct (deferred_cases s orc (imm_ok_wf c s W)) as [[_ N]|(p & r & G & E & _ & _ & Min & ->)].
  - specialize (N Q k0 r0 G0). lia.
  - exists p, r. rewrite Cn. auto.
Qed.

Definition out_ty (r : rec) : bool := (r_ty r =? T_PUBLISH) || (r_ty r =? T_PUBREL).
Definition marked (r : rec) : bool := (r_expiry r <? 0)%Z.
(* an outbound message that has consumed a unit of send quota: stored and not held back *)
Definition sent_out (r : rec) : bool := out_ty r && negb (marked r).

Definition n_f (f : rec -> bool) (m : imap) : Z := Z.of_nat (length (filter (fun kv => f (snd kv)) m)).
Definition cnt (f : rec -> bool) (o : option rec) : Z := match o with Some r => b2z (f r) | None => 0%Z end.

Lemma n_f_nonneg f m : (0 <= n_f f m)%Z.
Proof. unfold n_f. lia. Qed.

Lemma n_f_cons f k v m : n_f f ((k, v) :: m) = (b2z (f v) + n_f f m)%Z.
Proof. unfold n_f. cbn [filter snd]. destruct (f v); cbn [length b2z]; lia. Qed.

Lemma n_f_del f k m : NoDup (keys m) -> n_f f (del k m) = (n_f f m - cnt f (get k m))%Z.
Proof.
  induction m as [|[k' v] m IH]; intros N; [reflexivity|].
  inversion N as [|? ? Hn Hd]; subst. cbn [del get].
  destruct (k' =? k) eqn:E.
  - assert (k' = k) by lia. subst k'.
    rewrite del_absent by (apply notin_get_none; exact Hn). rewrite n_f_cons. cbn [cnt]. lia.
  - rewrite !n_f_cons. rewrite IH by exact Hd. lia.
Qed.

Lemma n_f_set f k v m : NoDup (keys m) -> n_f f (set k v m) = (n_f f m - cnt f (get k m) + b2z (f v))%Z.
Proof. intros N. unfold set. rewrite n_f_cons, n_f_del by exact N. lia. Qed.

(* the counts after a handler's updates: rewrite with these, then compare *)
#[export] Hint Rewrite n_f_del n_f_set using (auto with imap) : imap.

Lemma n_f_pos f k r m : get k m = Some r -> f r = true -> (1 <= n_f f m)%Z.
Proof.
  intros G F. apply get_in in G.
  assert (I : In (k, r) (filter (fun kv => f (snd kv)) m)) by (apply filter_In; split; [exact G|exact F]).
  unfold n_f. destruct (filter (fun kv => f (snd kv)) m); [destruct I|cbn [length]; lia].
Qed.

Lemma n_f_ex f m : NoDup (keys m) -> (0 < n_f f m)%Z -> exists k r, get k m = Some r /\ f r = true.
Proof.
  unfold n_f. intros N H. destruct (filter (fun kv => f (snd kv)) m) as [|[k r] l] eqn:F; [cbn in H; lia|].
  assert (I : In (k, r) (filter (fun kv => f (snd kv)) m)) by (rewrite F; left; reflexivity).
  apply filter_In in I. exists k, r. split; [apply in_get; tauto|tauto].
Qed.

Lemma n_f_zero_all f m : (forall k r, get k m = Some r -> f r = false) -> NoDup (keys m) -> n_f f m = 0%Z.
Proof.
  intros H N. pose proof (n_f_nonneg f m). destruct (Z.eq_dec (n_f f m) 0) as [E|E]; [exact E|].
  destruct (n_f_ex f m N) as (k & r & G & F); [lia|]. rewrite (H k r G) in F. discriminate.
Qed.

Lemma n_f_filter_le f g m : (n_f f (filter g m) <= n_f f m)%Z.
Proof.
  unfold n_f. induction m as [|kv m IH]; [cbn; lia|]. cbn [filter].
  destruct (g kv); cbn [filter]; destruct (f (snd kv)); cbn [length]; lia.
Qed.

Lemma n_f_filter_same f g m :
  (forall kv, In kv m -> g kv = false -> f (snd kv) = false) -> n_f f (filter g m) = n_f f m.
Proof.
  unfold n_f. induction m as [|kv m IH]; intros H; [reflexivity|]. cbn [filter].
  assert (IH' : Z.of_nat (length (filter (fun kv0 => f (snd kv0)) (filter g m))) =
                Z.of_nat (length (filter (fun kv0 => f (snd kv0)) m))).
  { apply IH. intros kv' I. apply H. right. exact I. }
  destruct (g kv) eqn:G; cbn [filter].
  - destruct (f (snd kv)); cbn [length]; lia.
  - rewrite (H kv (or_introl eq_refl) G). exact IH'.
Qed.

Lemma marked_iff r : marked r = true <-> (r_expiry r < 0)%Z.
Proof. unfold marked. lia. Qed.

Lemma sent_not_marked r : sent_out r = true -> marked r = false.
Proof. unfold sent_out. destruct (marked r); [rewrite andb_false_r; discriminate|reflexivity]. Qed.

Lemma ack_rec_counts ty uid c now : (0 <= c_maxexp c)%Z -> (0 <= now)%Z ->
  marked (ack_rec ty uid c now) = false /\ sent_out (ack_rec ty uid c now) = (ty =? T_PUBLISH) || (ty =? T_PUBREL).
Proof.
  intros C Nw. assert (M : marked (ack_rec ty uid c now) = false) by (unfold marked; cbn; lia).
  split; [exact M|]. unfold sent_out. rewrite M, andb_true_r. reflexivity.
Qed.

Lemma pub_rec_counts q uid now e pv :
  marked (pub_rec q uid now e pv) = (e <? 0)%Z /\ sent_out (pub_rec q uid now e pv) = negb (e <? 0)%Z.
Proof. split; reflexivity. Qed.

Definition sbal (s : st) : Prop :=
  ((0 < s_maxsend s)%Z -> (s_sendq s + n_f sent_out (s_infl s) = s_maxsend s)%Z) /\
  ((0 < n_f marked (s_infl s))%Z -> s_sendq s = 0%Z).

Definition nomark (s : st) : bool := match immediates (s_infl s) with [] => true | _ => false end.

Lemma nomark_zero s : nomark s = true -> n_f marked (s_infl s) = 0%Z.
Proof.
  unfold nomark, n_f, immediates, marked. destruct (filter _ (s_infl s)); [reflexivity|discriminate].
Qed.

(* with correct accounting the post-packet block has nothing to do: quota is available only if nothing is held back *)
Lemma deferred_noop s orc : sbal s -> deferred s orc = (s, []).
Proof.
  intros [_ B]. destruct (deferred_shape s orc) as [[E _]|(p & r & NI & Q & _)]; [exact E|]. exfalso.
  unfold next_immediate in NI. change (immediates (s_infl s)) with (filter (fun kv => marked (snd kv)) (s_infl s)) in NI.
  unfold n_f in B. destruct (filter (fun kv => marked (snd kv)) (s_infl s)); [discriminate NI|cbn [length] in B; lia].
Qed.

Lemma sbal_deferred s orc : sbal s -> sbal (fst (deferred s orc)).
Proof. intros B. rewrite deferred_noop by exact B. exact B. Qed.

(* the operations that keep the accounting exact; everything excluded here is one of the listed findings
   (own identifier hits an outbound record, acknowledgement while a message is held back, PUBREL / PUBCOMP /
   PUBACK raising the quota without an outbound flow ending, PUBREC >= 0x80 or expiry dropping a counted record,
   resuming a session with outbound records) or a protocol error of the client.  Row by row:
     InPublish p      the record under the client's own identifier p, if any, is not an outbound one (else the handler
                      deletes a counted or held-back record without touching the quota);
     PUBACK p         p is a counted record and nothing is held back (the unit returned is then free, as sbal says);
     PUBREC p         reason >= 0x80 / invalid: the record deleted is not a counted one; otherwise it is, and stays
                      counted as the PUBREL that replaces it;
     PUBREL, PUBCOMP p  either the record is counted and nothing is held back (unit returned, record gone), or it is
                      not counted and the quota is at its maximum, so that the unconditional increment changes nothing;
                      the same without a record (PUBCOMP);
     Reconnect        a new session, or the resumed one holds no outbound record (the quota restarts at its maximum);
     Expire           no counted record expires.
   Each branch of sbal_in_ack below is one row: count the records before and after (imap rewrite set), then compare. *)
Definition ok_send (c : cfg) (s : st) (o : op) : bool :=
  match o with
  | OutPublish _ _ _ _ _ _ _ _ => true
  | InPublish _ p _ _ _ => match get p (s_infl s) with Some r => negb (out_ty r) | None => true end
  | InAck ty p rc _ =>
      match get p (s_infl s) with
      | None => if ty =? T_PUBCOMP then (s_sendq s =? s_maxsend s)%Z else true
      | Some r =>
          if ty =? T_PUBACK then sent_out r && nomark s
          else if ty =? T_PUBREC then
            if (128 <=? rc) || negb (pubrec_rc_valid rc) then negb (sent_out r) else sent_out r
          else if ty =? T_PUBREL then
            if (128 <=? rc) || negb (pubrel_rc_valid rc) then negb (sent_out r)
            else (sent_out r && nomark s) || (negb (sent_out r) && (s_sendq s =? s_maxsend s)%Z)
          else if ty =? T_PUBCOMP then
            (sent_out r && nomark s) || (negb (sent_out r) && (s_sendq s =? s_maxsend s)%Z)
          else true
      end
  | InOther | Disconnect _ => true
  | Reconnect _ clean _ _ =>
      negb (s_present s) || clean || (s_clean s && negb (s_v5 s))
      || forallb (fun kv => negb (out_ty (snd kv))) (s_infl s)
  | Expire now => forallb (fun kv => negb (sent_out (snd kv) && expired c now (snd kv))) (s_infl s)
  end.

Lemma sbal_init : sbal init_st.
Proof. split; cbn; lia. Qed.

Lemma sbal_teardown s : sbal s -> sbal (teardown s).
Proof. intros B. destruct (teardown_cases s) as [[_ ->]|[_ ->]]; [apply sbal_init|exact B]. Qed.

Lemma sbal_in_ack c s ty p rc now orc :
  cfg_ok c -> (0 <= now)%Z -> wf c s -> sbal s -> ok_send c s (InAck ty p rc now) = true ->
  sbal (fst (in_ack c s ty p rc now orc)).
Proof.
  intros [_ C] Nw W B OK. pose proof (wf_sq c s W) as Q. pose proof (wf_nodup c s W) as N.
  assert (A := fun ty uid => ack_rec_counts ty uid c now C Nw).
  pose proof (n_f_nonneg sent_out (s_infl s)) as P1. pose proof (n_f_nonneg marked (s_infl s)) as P2.
  pose proof (inc_le (s_sendq s) (s_maxsend s)) as IL.
  (* a counted record returns its unit: the quota was not at its maximum *)
  assert (Ret : forall r, get p (s_infl s) = Some r -> sent_out r = true -> (0 < s_maxsend s)%Z ->
                inc (s_sendq s) (s_maxsend s) = (s_sendq s + 1)%Z).
  { intros r G S Mx. pose proof (n_f_pos sent_out p r _ G S). destruct B as [B1 _]. specialize (B1 Mx).
    apply inc_up. lia. }
  unfold in_ack. cbn [ok_send] in OK. destruct B as [B1 B2].
  destruct (ty =? T_PUBACK).
  { destruct (get p (s_infl s)) as [r|] eqn:G; [|apply sbal_deferred; split; assumption].
    apply andb_prop in OK. destruct OK as [S NM]. apply nomark_zero in NM. specialize (Ret r eq_refl S).
    apply sbal_deferred. unfold sbal. sproj. autorewrite with imap. rewrite G. cbn [cnt]. rewrite S, (sent_not_marked r S).
    cbn [b2z]. split; intros; lia. }
  destruct (ty =? T_PUBREC).
  { destruct (get p (s_infl s)) as [r|] eqn:G; [|rewrite fst_let; apply sbal_deferred; split; assumption].
    destruct ((128 <=? rc) || negb (pubrec_rc_valid rc)).
    - apply sbal_deferred. unfold sbal. sproj. autorewrite with imap. rewrite G. cbn [cnt].
      apply negb_true_iff in OK. rewrite OK. unfold b2z. destruct (marked r); split; intros; lia.
    - rewrite fst_let. apply sbal_deferred. unfold sbal. sproj. autorewrite with imap. rewrite G. cbn [cnt].
      destruct (A T_PUBREL (r_uid r)) as [-> ->]. rewrite OK, (sent_not_marked r OK). cbn. split; intros; lia. }
  destruct (ty =? T_PUBREL).
  { destruct (get p (s_infl s)) as [r|] eqn:G; [|rewrite fst_let; apply sbal_deferred; split; assumption].
    destruct ((128 <=? rc) || negb (pubrel_rc_valid rc)).
    - apply sbal_deferred. unfold sbal. sproj. autorewrite with imap. rewrite G. cbn [cnt].
      apply negb_true_iff in OK. rewrite OK. unfold b2z. destruct (marked r); split; intros; lia.
    - rewrite fst_let. apply sbal_deferred. unfold sbal. sproj. autorewrite with imap. rewrite G. cbn [cnt].
      destruct (A T_PUBCOMP (r_uid r)) as [-> ->]. cbn [N.eqb Pos.eqb T_PUBCOMP T_PUBLISH T_PUBREL orb b2z].
      apply orb_prop in OK. destruct OK as [OK|OK]; apply andb_prop in OK; destruct OK as [S X].
      + apply nomark_zero in X. specialize (Ret r eq_refl S). rewrite S, (sent_not_marked r S). cbn [b2z]. split; intros; lia.
      + apply negb_true_iff in S. rewrite S, inc_full by lia. unfold b2z. destruct (marked r); split; intros; lia. }
  destruct (ty =? T_PUBCOMP); [|split; assumption].
  apply sbal_deferred. unfold sbal. sproj. autorewrite with imap.
  destruct (get p (s_infl s)) as [r|] eqn:G; cbn [cnt].
  - apply orb_prop in OK. destruct OK as [OK|OK]; apply andb_prop in OK; destruct OK as [S X].
    + apply nomark_zero in X. specialize (Ret r eq_refl S). rewrite S, (sent_not_marked r S). cbn [b2z]. split; intros; lia.
    + apply negb_true_iff in S. rewrite S, inc_full by lia. unfold b2z. destruct (marked r); split; intros; lia.
  - rewrite inc_full by lia. split; intros; lia.
Qed.

Lemma sbal_in_publish c s qos p uid now orc :
  cfg_ok c -> (0 <= now)%Z -> wf c s -> sbal s -> ok_send c s (InPublish qos p false uid now) = true ->
  sbal (fst (in_publish c s qos p uid now orc)).
Proof.
  intros [_ C] Nw W B OK. cbn [ok_send] in OK. pose proof (wf_nodup c s W) as N. unfold in_publish.
  destruct (s_recvq s =? 0)%Z; [apply sbal_teardown; exact B|].
  destruct (match get p (s_infl s) with Some r => r_ty r =? T_PUBREC | None => false end).
  { rewrite fst_let. apply sbal_deferred, B. }
  (* whatever is stored under p is neither counted nor held back, and neither is what processPublish stores *)
  assert (Z1 : cnt sent_out (get p (s_infl s)) = 0%Z).
  { destruct (get p (s_infl s)) as [r|]; [|reflexivity]. apply negb_true_iff in OK. unfold cnt, sent_out. rewrite OK. reflexivity. }
  assert (Z2 : cnt marked (get p (s_infl s)) = 0%Z).
  { destruct (get p (s_infl s)) as [r|] eqn:G; [|reflexivity]. cbn [cnt]. destruct (marked r) eqn:E; [|reflexivity].
    apply marked_iff in E. apply negb_true_iff in OK. unfold out_ty in OK. rewrite (wf_imm c s W p r G E) in OK. discriminate. }
  assert (A : forall ty, ty <> T_PUBLISH -> ty <> T_PUBREL ->
              b2z (sent_out (ack_rec ty uid c now)) = 0%Z /\ b2z (marked (ack_rec ty uid c now)) = 0%Z).
  { intros ty T1 T2. destruct (ack_rec_counts ty uid c now C Nw) as [-> ->].
    replace (ty =? T_PUBLISH) with false by lia. replace (ty =? T_PUBREL) with false by lia. split; reflexivity. }
  destruct B as [B1 B2].
  destruct (qos =? 0).
  { rewrite fst_let. apply sbal_deferred. unfold sbal. sproj. autorewrite with imap. rewrite Z1, Z2, !Z.sub_0_r. split; assumption. }
  cbn zeta. rewrite fst_let. apply sbal_deferred.
  destruct (A (if qos =? 2 then T_PUBREC else T_PUBACK)) as [A1 A2]; [destruct (qos =? 2); discriminate..|].
  unfold sbal. destruct (qos =? 1); sproj; autorewrite with imap; cbn [cnt]; rewrite Z1, Z2, ?A1, ?A2, ?Z.sub_0_r, ?Z.add_0_r;
    split; assumption.
Qed.

Lemma sbal_out_publish c s pq sq uid now mei pv qf :
  (0 <= now)%Z -> wf c s -> sbal s -> sbal (fst (out_publish c s pq sq uid now mei pv qf)).
Proof.
  intros Nw W [B1 B2]. pose proof (wf_sq c s W) as Q.
  pose proof (n_f_nonneg sent_out (s_infl s)) as P1. pose proof (n_f_nonneg marked (s_infl s)) as P2.
  destruct (out_publish_cases c s pq sq uid now mei pv qf) as [o _|i e _ _ _ [Q0 Mx]|i e _ _ _ E H|i H];
    cbn [fst]; unfold sbal, stored, held in *; sproj; rewrite ?n_f_cons; [split; assumption|..].
  - (* held back: marked, not counted *)
    pose proof (hold_expiry_neg e). destruct (pub_rec_counts (if sq <? pq then sq else pq) uid now (hold_expiry e) pv) as [-> ->].
    replace (hold_expiry e <? 0)%Z with true by lia. cbn [negb b2z]. split; intros; lia.
  - (* handed to the connection: counted, one unit taken *)
    specialize (E Nw). destruct (pub_rec_counts (if sq <? pq then sq else pq) uid now e pv) as [-> ->].
    replace (e <? 0)%Z with false by lia. cbn [negb b2z]. unfold dec. destruct (0 <? s_sendq s)%Z eqn:P; split; intros; lia.
  - (* rolled back: the unit returns *)
    unfold inc, dec. destruct (0 <? s_sendq s)%Z eqn:P.
    + replace (s_sendq s - 1 <? s_maxsend s)%Z with true by lia. split; intros; lia.
    + replace (s_sendq s <? s_maxsend s)%Z with false by lia. split; intros; lia.
Qed.

Lemma sbal_reconnect c s v5 clean sei rm orc :
  cfg_ok c -> wf c s -> ok_send c s (Reconnect v5 clean sei rm) = true ->
  sbal (fst (reconnect c s v5 clean sei rm orc)).
Proof.
  intros [C _] W OK. cbn [ok_send] in OK.
  assert (F : forall m z, NoDup (keys m) -> (forall k r, get k m = Some r -> out_ty r = false /\ marked r = false) ->
              sbal (fresh c v5 clean sei rm m z)).
  { intros m z N H. unfold sbal. sproj. rewrite !n_f_zero_all; try assumption.
    - split; [intros _; apply Z.add_0_r|intros X; destruct (Z.lt_irrefl _ X)].
    - intros k r G. exact (proj2 (H k r G)).
    - intros k r G. unfold sent_out. rewrite (proj1 (H k r G)). reflexivity. }
  destruct (reconnect_cases c s v5 clean sei rm orc) as [(_ & ->)|(Rs & z & ->)]; cbn [fst]; apply F.
  - constructor.
  - intros k r G. discriminate G.
  - apply resend_nodup, W.
  - (* nothing outbound is stored, hence nothing held back either *)
    intros k r G. apply resend_sub in G. unfold resumes in Rs. apply andb_prop in Rs. destruct Rs as [Pr Rs].
    apply negb_true_iff, orb_false_elim in Rs. destruct Rs as [Cl Sc]. rewrite Pr, Cl, Sc in OK. cbn [negb orb] in OK.
    rewrite forallb_forall in OK. specialize (OK (k, r) (get_in _ _ _ G)). cbn in OK. apply negb_true_iff in OK.
    split; [exact OK|]. destruct (marked r) eqn:E; [|reflexivity]. apply marked_iff in E.
    unfold out_ty in OK. rewrite (wf_imm c s W k r G E) in OK. discriminate.
Qed.

Lemma sbal_expire c s now :
  sbal s -> ok_send c s (Expire now) = true ->
  sbal (with_infl s (filter (fun kv => negb (expired c now (snd kv))) (s_infl s))).
Proof.
  intros [B1 B2] OK. cbn [ok_send] in OK. unfold sbal. sproj.
  rewrite n_f_filter_same.
  - pose proof (n_f_filter_le marked (fun kv => negb (expired c now (snd kv))) (s_infl s)). split; intros; lia.
  - intros kv I G. rewrite forallb_forall in OK. specialize (OK kv I). apply negb_false_iff in G.
    rewrite G in OK. rewrite andb_true_r in OK. apply negb_true_iff in OK. exact OK.
Qed.

Theorem step_sbal c s o orc :
  cfg_ok c -> op_ok o -> wf c s -> sbal s -> ok_send c s o = true -> sbal (fst (step c s o orc)).
Proof.
  intros C O W B OK. destruct o; cbn [step op_ok] in *.
  - destruct (s_present s); [apply sbal_out_publish; assumption|exact B].
  - destruct (s_present s && s_conn s); [apply sbal_in_publish; assumption|exact B].
  - destruct (s_present s && s_conn s); [apply sbal_in_ack; assumption|exact B].
  - destruct (s_present s && s_conn s); [apply sbal_deferred; exact B|exact B].
  - destruct (s_present s && s_conn s); [|exact B].
    destruct graceful; [|apply sbal_teardown; exact B].
    rewrite let_pair. cbn [fst]. apply sbal_teardown. apply (sbal_deferred (with_conn s false)). exact B.
  - apply sbal_reconnect; assumption.
  - destruct (s_present s); [apply sbal_expire; assumption|exact B].
Qed.

(* histories in which every operation keeps the accounting exact (evaluated along the model's own run) *)
Fixpoint clean_send (c : cfg) (s : st) (h : list (op * list N)) : bool :=
  match h with
  | [] => true
  | (o, orc) :: r => ok_send c s o && clean_send c (fst (step c s o orc)) r
  end.

(* C11 (send side): along every such history, for every oracle, the send quota plus the number of stored outbound
   messages that have been handed to the connection equals the client's receive maximum; in particular there are
   never more of them than that maximum, and quota is available only when nothing is held back *)
Theorem run_sbal c : cfg_ok c -> forall h s,
  hist_ok h -> wf c s -> sbal s -> clean_send c s h = true ->
  let s' := fst (run c s h) in
  sbal s' /\ ((0 < s_maxsend s')%Z -> (n_f sent_out (s_infl s') <= s_maxsend s')%Z).
Proof.
  intros C h s H W B CL.
  destruct (run_checked sbal (ok_send c) (clean_send c) c C (fun _ _ _ _ => eq_refl)
              (fun s1 o orc O W1 B1 OK => step_sbal c s1 o orc C O W1 B1 OK) h s H W B CL) as [W' B'].
  split; [exact B'|]. intros M. destruct B' as [B1 _]. specialize (B1 M). pose proof (wf_sq c _ W'). lia.
Qed.

(* C11, receive side.  The accounting is one-sided: the quota is never lower than the stored own QoS 2 exchanges
   explain, so a client inside the advertised maximum is not refused *)
Definition inbound (r : rec) : bool := r_ty r =? T_PUBREC.

Definition rlow3 (q mx : Z) (m : imap) : Prop := (q + n_f inbound m >= mx)%Z.
Definition rlow (s : st) : Prop := rlow3 (s_recvq s) (s_maxrecv s) (s_infl s).

(* the operations that never lower the receive quota below what the stored own exchanges explain.  Row by row:
     InPublish        QoS at most 2 (QoS 1 takes and returns its unit, QoS 2 takes one and stores the PUBREC record);
     PUBACK p         p is not an own exchange (its record would be deleted with the unit still taken);
     PUBREC p         likewise; and with a reason < 0x80 the quota is already 0, so that the decrement processPubrec makes
                      for an OUTBOUND message (the finding KF_C11_pubrec_takes_receive_quota) has no effect;
     PUBREL p         reason >= 0x80 / invalid: the record deleted is not an own exchange; otherwise anything goes (the
                      quota only rises);
     PUBCOMP          anything (the quota only rises);
     Expire           no own exchange expires.
   Each branch of rlow_in_ack below is one row. *)
Definition ok_recv (c : cfg) (s : st) (o : op) : bool :=
  match o with
  | InPublish qos _ _ _ _ => qos <=? 2
  | InAck ty p rc _ =>
      match get p (s_infl s) with
      | None => true
      | Some r =>
          if ty =? T_PUBACK then negb (inbound r)
          else if ty =? T_PUBREC then
            if (128 <=? rc) || negb (pubrec_rc_valid rc) then negb (inbound r)
            else (s_recvq s =? 0)%Z && negb (inbound r)
          else if ty =? T_PUBREL then
            if (128 <=? rc) || negb (pubrel_rc_valid rc) then negb (inbound r) else true
          else true
      end
  | Expire now => forallb (fun kv => negb (inbound (snd kv) && expired c now (snd kv))) (s_infl s)
  | _ => true
  end.

Lemma rlow_init : rlow init_st.
Proof. unfold rlow, rlow3. cbn. lia. Qed.

Lemma rlow_teardown s : rlow s -> rlow (teardown s).
Proof. intros R. destruct (teardown_cases s) as [[_ ->]|[_ ->]]; [apply rlow_init|exact R]. Qed.

(* the post-packet block deletes an outbound record only *)
Lemma rlow_deferred s orc : imm_ok (s_infl s) -> rlow s -> rlow (fst (deferred s orc)).
Proof.
  intros I R. destruct (deferred_cases s orc I) as [[-> _]|(p & r & G & _ & T & _ & _ & ->)]; [exact R|].
  cbn [fst]. unfold rlow, rlow3 in *. sproj. rewrite n_f_del by apply I. rewrite G.
  replace (cnt inbound (Some r)) with 0%Z by (unfold cnt, inbound; rewrite T; reflexivity). rewrite Z.sub_0_r. exact R.
Qed.

Lemma rlow_in_publish c s qos p uid now orc :
  cfg_ok c -> (0 <= now)%Z -> wf c s -> rlow s -> qos <=? 2 = true ->
  rlow (fst (in_publish c s qos p uid now orc)).
Proof.
  intros [_ C] Nw W R Q2. pose proof (imm_ok_wf c s W) as I. pose proof (wf_rq c s W) as Q. pose proof (wf_nodup c s W) as N.
  unfold in_publish.
  destruct (s_recvq s =? 0)%Z eqn:Q0; [apply rlow_teardown, R|].
  destruct (match get p (s_infl s) with Some r => r_ty r =? T_PUBREC | None => false end) eqn:RT.
  { rewrite fst_let; apply rlow_deferred; assumption. }
  assert (Z1 : cnt inbound (get p (s_infl s)) = 0%Z).
  { destruct (get p (s_infl s)) as [r|]; [|reflexivity]. unfold cnt, inbound. rewrite RT. reflexivity. }
  unfold rlow, rlow3 in R.
  destruct (qos =? 0) eqn:Q00.
  { rewrite fst_let; apply rlow_deferred; [sproj; auto with imap|].
    unfold rlow, rlow3. sproj. autorewrite with imap. rewrite Z1. lia. }
  cbn zeta.
  rewrite fst_let; apply rlow_deferred; [destruct (qos =? 1); sproj; auto with imap|].
  unfold rlow, rlow3.
  destruct (qos =? 1) eqn:Q1; sproj; autorewrite with imap; cbn [cnt]; rewrite Z1; unfold inc, dec;
    replace (0 <? s_recvq s)%Z with true by lia.
  - replace (qos =? 2) with false by lia. replace (s_recvq s - 1 <? s_maxrecv s)%Z with true by lia. cbn. lia.
  - replace (qos =? 2) with true by lia. cbn. lia.
Qed.

Lemma rlow_in_ack c s ty p rc now orc :
  cfg_ok c -> (0 <= now)%Z -> wf c s -> rlow s -> ok_recv c s (InAck ty p rc now) = true ->
  rlow (fst (in_ack c s ty p rc now orc)).
Proof.
  intros [_ C] Nw W R OK. pose proof (imm_ok_wf c s W) as I. pose proof (wf_rq c s W) as Q. pose proof (wf_nodup c s W) as N.
  cbn [ok_recv] in OK. unfold in_ack. unfold rlow, rlow3 in R.
  pose proof (n_f_nonneg inbound (s_infl s)) as P1. pose proof (inc_le (s_recvq s) (s_maxrecv s)) as IL.
  (* the record under p, if it is an own exchange, is counted *)
  assert (Pos : forall r, get p (s_infl s) = Some r -> (b2z (inbound r) <= n_f inbound (s_infl s))%Z).
  { intros r G. destruct (inbound r) eqn:IB; [exact (n_f_pos inbound p r _ G IB)|exact P1]. }
  destruct (ty =? T_PUBACK).
  { destruct (get p (s_infl s)) as [r|] eqn:G; [|apply rlow_deferred; assumption].
    apply rlow_deferred; [sproj; auto with imap|].
    unfold rlow, rlow3. sproj. autorewrite with imap. rewrite G. apply negb_true_iff in OK. cbn [cnt]. rewrite OK. cbn [b2z]. lia. }
  destruct (ty =? T_PUBREC).
  { destruct (get p (s_infl s)) as [r|] eqn:G; [|rewrite fst_let; apply rlow_deferred; assumption].
    destruct ((128 <=? rc) || negb (pubrec_rc_valid rc)).
    - apply rlow_deferred; [sproj; auto with imap|].
      unfold rlow, rlow3. sproj. autorewrite with imap. rewrite G. apply negb_true_iff in OK. cbn [cnt]. rewrite OK. cbn [b2z]. lia.
    - apply andb_prop in OK. destruct OK as [Q0 NI]. apply negb_true_iff in NI.
      rewrite fst_let; apply rlow_deferred; [sproj; auto with imap|].
      unfold rlow, rlow3. sproj. autorewrite with imap. rewrite G. cbn [cnt]. rewrite NI. unfold dec.
      replace (0 <? s_recvq s)%Z with false by lia. cbn. lia. }
  destruct (ty =? T_PUBREL).
  { destruct (get p (s_infl s)) as [r|] eqn:G; [|rewrite fst_let; apply rlow_deferred; assumption].
    destruct ((128 <=? rc) || negb (pubrel_rc_valid rc)).
    - apply rlow_deferred; [sproj; auto with imap|].
      unfold rlow, rlow3. sproj. autorewrite with imap. rewrite G. apply negb_true_iff in OK. cbn [cnt]. rewrite OK. cbn [b2z]. lia.
    - rewrite fst_let; apply rlow_deferred; [sproj; auto with imap|].
      unfold rlow, rlow3. sproj. autorewrite with imap. rewrite G. cbn [cnt]. specialize (Pos r eq_refl).
      change (b2z (inbound (ack_rec T_PUBCOMP (r_uid r) c now))) with 0%Z.
      destruct (Z.lt_ge_cases (s_recvq s) (s_maxrecv s)) as [L|L]; [rewrite (inc_up _ _ L)|rewrite (inc_full _ _ L)]; unfold b2z in *;
        destruct (inbound r); lia. }
  destruct (ty =? T_PUBCOMP); [|exact R].
  apply rlow_deferred; [sproj; auto with imap|].
  unfold rlow, rlow3. sproj. autorewrite with imap.
  destruct (get p (s_infl s)) as [r|] eqn:G; cbn [cnt]; [specialize (Pos r eq_refl)|];
    (destruct (Z.lt_ge_cases (s_recvq s) (s_maxrecv s)) as [L|L]; [rewrite (inc_up _ _ L)|rewrite (inc_full _ _ L)]);
    try (unfold b2z in *; destruct (inbound r)); lia.
Qed.

Lemma rlow_out_publish c s pq sq uid now mei pv qf :
  rlow s -> rlow (fst (out_publish c s pq sq uid now mei pv qf)).
Proof.
  intros R.
  destruct (out_publish_cases c s pq sq uid now mei pv qf); cbn [fst]; unfold rlow, rlow3, stored in *; sproj;
    rewrite ?n_f_cons; exact R.
Qed.

Theorem step_rlow c s o orc :
  cfg_ok c -> op_ok o -> wf c s -> rlow s -> ok_recv c s o = true -> rlow (fst (step c s o orc)).
Proof.
  intros C O W R OK. pose proof (imm_ok_wf c s W) as I. destruct o; cbn [step op_ok ok_recv] in *.
  - destruct (s_present s); [apply rlow_out_publish; assumption|exact R].
  - destruct (s_present s && s_conn s); [apply rlow_in_publish; assumption|exact R].
  - destruct (s_present s && s_conn s); [apply rlow_in_ack; assumption|exact R].
  - destruct (s_present s && s_conn s); [apply rlow_deferred; assumption|exact R].
  - destruct (s_present s && s_conn s); [|exact R].
    destruct graceful; [rewrite let_pair|]; cbn [fst]; apply rlow_teardown; [|exact R].
    apply (rlow_deferred (with_conn s false)); assumption.
  - (* a new connection starts with the full quota *)
    destruct C as [C _].
    destruct (reconnect_cases c s v5 clean sei rm orc) as [(_ & ->)|(_ & z & ->)]; cbn [fst]; unfold rlow, rlow3; sproj;
      [|pose proof (n_f_nonneg inbound (fst (resend (get_all orc (s_infl s)) (s_infl s)))); destruct z]; cbn; lia.
  - destruct (s_present s); [|exact R]. cbn [fst]. unfold rlow, rlow3 in *. sproj.
    rewrite n_f_filter_same; [exact R|].
    intros kv In G. rewrite forallb_forall in OK. specialize (OK kv In). apply negb_false_iff in G.
    rewrite G in OK. rewrite andb_true_r in OK. apply negb_true_iff in OK. exact OK.
Qed.

Fixpoint clean_recv (c : cfg) (s : st) (h : list (op * list N)) : bool :=
  match h with
  | [] => true
  | (o, orc) :: r => ok_recv c s o && clean_recv c (fst (step c s o orc)) r
  end.

(* C11 (receive side): along every history without the listed receive-quota defects (PUBREC for an outbound
   message, an acknowledgement or expiry removing an own exchange), for every oracle: as long as fewer own QoS 2
   exchanges are stored than the advertised maximum, the next PUBLISH is not refused with 0x93 *)
Theorem run_rlow c : cfg_ok c -> forall h s,
  hist_ok h -> wf c s -> rlow s -> clean_recv c s h = true ->
  let s' := fst (run c s h) in
  rlow s' /\ ((n_f inbound (s_infl s') < s_maxrecv s')%Z -> (s_recvq s' =? 0)%Z = false).
Proof.
  intros C h s H W R CL.
  destruct (run_checked rlow (ok_recv c) (clean_recv c) c C (fun _ _ _ _ => eq_refl)
              (fun s1 o orc O W1 R1 OK => step_rlow c s1 o orc C O W1 R1 OK) h s H W R CL) as [_ R'].
  split; [exact R'|]. unfold rlow, rlow3 in R'. intros. lia.
Qed.

(* ... and a PUBLISH arriving with quota left is answered (acknowledged or, for QoS 0, forwarded), not refused *)
Lemma in_publish_accepts c s qos p uid now orc :
  (s_recvq s =? 0)%Z = false ->
  match snd (in_publish c s qos p uid now orc) with
  | OPkt t q _ _ _ _ :: _ => q = p /\ (t = T_PUBREC \/ t = T_PUBACK)
  | OFwd u :: _ => u = uid
  | _ => False
  end.
Proof.
  intros Q.
  destruct (in_publish_cases c s qos p uid now orc) as [(Q' & _)|[(_ & _ & ->)|(_ & _ & s0 & _ & _ & _ & ->)]];
    [congruence|cbn; tauto|].
  cbn [snd]. unfold pub_ack. destruct (qos =? 0); [reflexivity|]. destruct (qos =? 2); cbn; tauto.
Qed.

Lemma quota_bounds c : cfg_ok c -> forall h, hist_ok h ->
  let s := fst (run c init_st h) in
  (0 <= s_sendq s <= s_maxsend s)%Z /\ (0 <= s_recvq s <= s_maxrecv s)%Z.
Proof. intros C h H. pose proof (run_wf c C h init_st H (wf_init c)) as W. split; apply W. Qed.
