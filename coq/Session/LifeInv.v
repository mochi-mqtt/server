(* C14-C16 — the well-formedness invariant [inv] = [wf] /\ [ixinv] of the life-cycle model, kept by every operation:
   one lemma pair per case of LifeStep.stepR, [wf] on its own, [ixinv] given [wf].  The end of a handler and the
   expiry of a session are one argument ([closed_wf], [closed_ix]); a publication and a delayed will leave alone all
   that the invariant reads ([quiet_wf], [quiet_ix]). *)
From MV Require Import Base.Val Base.ListMisc Session.Lifecycle Session.LifeBase Session.LifeStep.
Open Scope N_scope.

Section Assoc.
  Context {V : Type}.
  Implicit Types l : list (bytes * V).

  Lemma aget_in k v l : aget k l = Some v -> In (k, v) l.
  Proof.
    induction l as [|[k' v'] r IH]; cbn; [discriminate|].
    destruct (beq_bytes k' k) eqn:E; [intro H; inversion H; subst; apply bb_eq in E; subst; left; reflexivity|].
    intro H. right. apply IH, H.
  Qed.
End Assoc.

(* an invariant at the granularity of the model, where every operation runs to quiescence: in the broker a teardown
   that interleaves with an attach can leave an open connection unregistered ([wf_open] fails: finding C14-1,
   Conc/Takeover.v) *)
Record wf (s : state) : Prop := {
  wf_used : objs_used s;
  wf_nodup : NoDup (map fst (st_clients s));
  wf_reg : forall id c, aget id (st_clients s) = Some c ->
             exists o, get_obj c (st_objs s) = Some o /\ o_id o = id /\ o_tko o = false;
  wf_open : forall c o, get_obj c (st_objs s) = Some o -> o_open o = true ->
             aget (o_id o) (st_clients s) = Some c /\ o_phase o = PhReading /\ o_disc o = 0%Z;
  wf_held : forall c o, get_obj c (st_objs s) = Some o -> o_phase o = PhHeld -> o_tko o = true /\ o_open o = false }.

Definition ixinv (s : state) : Prop :=
  forall id f q, In (id, f, q) (st_index s) ->
    exists c o, aget id (st_clients s) = Some c /\ get_obj c (st_objs s) = Some o /\ In f (map fst (o_subs o)).

Definition inv (s : state) : Prop := wf s /\ ixinv s.

Lemma inv_init : inv init.
Proof.
  split; [|intros id f q []].
  split; cbn; try discriminate; try constructor; apply objs_used_init.
Qed.

Lemma wf_init : wf init.
Proof. exact (proj1 inv_init). Qed.

Lemma reading_wf s c o : wf s -> reading s c = Some o ->
  get_obj c (st_objs s) = Some o /\ o_open o = true /\ aget (o_id o) (st_clients s) = Some c.
Proof.
  intros W R. apply reading_obj in R. destruct R as [G OO]. destruct (wf_open s W c o G OO) as (A & _). auto.
Qed.

Lemma wf_reg_obj s id c o : wf s -> aget id (st_clients s) = Some c -> get_obj c (st_objs s) = Some o -> o_id o = id /\ o_tko o = false.
Proof. intros W A G. destruct (wf_reg s W id c A) as (x & Gx & I & T). rewrite G in Gx. inversion Gx; subst x. auto. Qed.

Lemma ixinv_obj s id c o f q : ixinv s -> aget id (st_clients s) = Some c -> get_obj c (st_objs s) = Some o ->
  In (id, f, q) (st_index s) -> In f (map fst (o_subs o)).
Proof. intros X A G IN. destruct (X id f q IN) as (c2 & o2 & A2 & G2 & F). congruence. Qed.

Lemma client_of_wf s id : wf s ->
  match client_of s id with
  | Some o => aget id (st_clients s) = Some (o_conn o) /\ get_obj (o_conn o) (st_objs s) = Some o /\ o_id o = id /\ o_tko o = false
  | None => aget id (st_clients s) = None
  end.
Proof.
  intro W. unfold client_of. destruct (aget id (st_clients s)) as [c|] eqn:A; [|reflexivity].
  destruct (wf_reg s W id c A) as (o & G & I & T). rewrite G, (get_obj_conn G). auto.
Qed.

Lemma wf_keys e s s' : st_used s' = st_used s -> st_clients s' = st_clients s -> changes e s s' -> (forall o, okey (e o) = okey o) -> wf s -> wf s'.
Proof.
  intros EU EC CH K [U ND R O H]. split.
  - intros c Hc. rewrite EU. apply U. rewrite <- (changes_hasobj _ _ _ c CH). exact Hc.
  - rewrite EC. exact ND.
  - intros id c A. rewrite EC in A. destruct (R id c A) as (o & G & I & T). exists (e o). rewrite (CH c), G. pose proof (K o) as E. inversion E. repeat split; congruence.
  - intros c o' G OO. destruct (changes_back _ _ _ _ _ CH G) as (o & G0 & ->). pose proof (K o) as E. inversion E.
    rewrite EC. destruct (O c o G0) as (A & B & D); [congruence|]. repeat split; congruence.
  - intros c o' G PH. destruct (changes_back _ _ _ _ _ CH G) as (o & G0 & ->). pose proof (K o) as E. inversion E.
    destruct (H c o G0) as (A & B); [congruence|]. split; congruence.
Qed.

Lemma quiet_wf e s s' : reg_eq s s' -> changes e s s' -> (forall o, skey (e o) = skey o) -> wf s -> wf s'.
Proof. intros (EU & EC & _) CH K. apply (wf_keys e s s' EU EC CH). intro o. exact (f_equal fst (K o)). Qed.

Lemma quiet_ix e s s' : reg_eq s s' -> changes e s s' -> (forall o, skey (e o) = skey o) -> ixinv s -> ixinv s'.
Proof.
  intros (_ & EC & EI) CH K X id f q IN. rewrite EI in IN. destruct (X id f q IN) as (c & o & A & G & F).
  exists c, (e o). rewrite EC, (CH c), G. change (o_subs (e o)) with (snd (skey (e o))). rewrite K. auto.
Qed.

Lemma fired_skey (old : option cobj) (dl : N -> list msg) o :
  skey (match old with Some eo => at_conn (o_conn eo) (fun y => with_will y no_will) (deliv dl o) | None => deliv dl o end) = skey o.
Proof. destruct old; [unfold at_conn; destruct (_ =? _)|]; reflexivity. Qed.

(* The object [ob] of connection [c] is closed by an edit that keeps identifiers and taken-over flags everywhere and
   the key fields of the other objects; with [ex] its session ends: its identifier leaves Clients (and, for the index,
   its subscriptions go and its entries leave the index).  The end of a handler, the expiry of a session. *)
Lemma closed_wf s s' c ob (ex : bool) e :
  wf s -> get_obj c (st_objs s) = Some ob -> (ex = true -> aget (o_id ob) (st_clients s) = Some c) ->
  st_used s' = st_used s -> changes e s s' ->
  (forall c' x, get_obj c' (st_objs s) = Some x -> o_id (e x) = o_id x /\ o_tko (e x) = o_tko x /\ (c' <> c -> okey (e x) = okey x)) ->
  o_open (e ob) = false -> (o_phase (e ob) = PhHeld -> o_tko ob = true) ->
  st_clients s' = (if ex then adel (o_id ob) (st_clients s) else st_clients s) -> wf s'.
Proof.
  intros W G REG EU CH KEEPS CL PH EC.
  assert (STAY : forall id c', aget id (st_clients s) = Some c' -> (ex = true -> id <> o_id ob) -> aget id (st_clients s') = Some c').
  { intros id c' A N. rewrite EC. destruct ex; [rewrite aget_adel_other by auto|]; exact A. }
  split.
  - intros c' H. rewrite EU. apply (wf_used s W). rewrite <- H. symmetry. apply (changes_hasobj _ _ _ c' CH).
  - rewrite EC. destruct ex; [apply nodup_adel|]; apply (wf_nodup s W).
  - intros id c' A. assert (A0 : aget id (st_clients s) = Some c').
    { rewrite EC in A. destruct ex; [apply adel_le in A|]; exact A. }
    destruct (wf_reg s W id c' A0) as (x & Gx & I & T). destruct (KEEPS c' x Gx) as (KI & KT & _).
    exists (e x). rewrite (CH c'), Gx. repeat split; congruence.
  - intros c' x' G' OO. destruct (changes_back _ _ _ _ _ CH G') as (x & Gx & ->). destruct (KEEPS c' x Gx) as (_ & _ & OTH).
    destruct (N.eq_dec c' c) as [->|N]; [rewrite G in Gx; inversion Gx; subst x; congruence|].
    specialize (OTH N). inversion OTH as [[K1 K2 K3 K4 K5]]. destruct (wf_open s W c' x Gx) as (A & B & D); [congruence|].
    split; [|split; congruence]. rewrite K1. apply (STAY _ _ A). intros H E. rewrite E, (REG H) in A. congruence.
  - intros c' x' G' P. destruct (changes_back _ _ _ _ _ CH G') as (x & Gx & ->). destruct (KEEPS c' x Gx) as (_ & KT & OTH).
    destruct (N.eq_dec c' c) as [->|N]; [rewrite G in Gx; inversion Gx; subst x; split; [rewrite KT; apply PH, P|exact CL]|].
    specialize (OTH N). inversion OTH as [[K1 K2 K3 K4 K5]]. destruct (wf_held s W c' x Gx) as [A B]; [congruence|]. split; congruence.
Qed.

Lemma closed_ix s s' c ob (ex : bool) e :
  wf s -> ixinv s -> get_obj c (st_objs s) = Some ob -> (ex = true -> aget (o_id ob) (st_clients s) = Some c) -> changes e s s' ->
  (forall c' x, get_obj c' (st_objs s) = Some x -> c' <> c -> o_subs (e x) = o_subs x) -> (ex = false -> o_subs (e ob) = o_subs ob) ->
  st_clients s' = (if ex then adel (o_id ob) (st_clients s) else st_clients s) ->
  st_index s' = (if ex then ix_del_all (o_id ob) (map fst (o_subs ob)) (st_index s) else st_index s) -> ixinv s'.
Proof.
  intros W X G REG CH OTHER SU EC EI id f q IN. rewrite EI in IN.
  assert (IN0 : In (id, f, q) (st_index s) /\ (ex = true -> id <> o_id ob \/ ~ In f (map fst (o_subs ob)))).
  { destruct ex; [apply in_ix_del_all in IN; tauto|split; [exact IN|discriminate]]. }
  destruct IN0 as [IN0 NX]. destruct (X id f q IN0) as (c2 & o2 & A2 & G2 & F2).
  assert (NE : ex = true -> id <> o_id ob).
  { intros H E. subst id. rewrite (REG H) in A2. inversion A2; subst c2. rewrite G in G2. inversion G2; subst o2. destruct (NX H); auto. }
  exists c2, (e o2). split; [rewrite EC; destruct ex; [rewrite aget_adel_other by auto|]; exact A2|]. split; [rewrite (CH c2), G2; reflexivity|].
  destruct (N.eq_dec c2 c) as [->|N]; [|rewrite (OTHER c2 o2 G2 N); exact F2].
  rewrite G in G2. inversion G2; subst o2. rewrite SU; [exact F2|]. destruct ex; [|reflexivity].
  destruct (wf_reg_obj s id c ob W A2 G) as [Iy _]. destruct (NE eq_refl). auto.
Qed.

(* a handler that ends is that of a registered open connection, or the parked one of a connection taken over *)
Lemma ending_wf s o c now ob : wf s -> ending s o = Some (c, now, ob) ->
  get_obj c (st_objs s) = Some ob /\ (o_tko ob = false -> aget (o_id ob) (st_clients s) = Some c).
Proof.
  intros W EN. destruct (ending_obj s o c now ob EN) as [G SH]. split; [exact G|].
  destruct SH as [(RD & _)|[_ PH]]; [intros _; apply (reading_wf s c ob W RD)|].
  intro T. destruct (wf_held s W c ob G PH). congruence.
Qed.

Lemma ends_session_tko k o ob : ends_session (end_sei k o ob ob) = true -> o_tko ob = false.
Proof. unfold ends_session. cbn. intro H. apply andb_true_iff in H. apply negb_true_iff, H. Qed.

Lemma ended_wf k s o c now ob s' outs : ending s o = Some (c, now, ob) -> ended k o c now ob s s' outs -> wf s -> wf s'.
Proof.
  intros EN [EU EC _ _ (dl & pubs & _ & CH & _)] W. destruct (ending_wf s o c now ob W EN) as [G REG].
  refine (closed_wf s s' c ob _ _ W G (fun H => REG (ends_session_tko k o ob H)) EU CH _ _ _ EC).
  - intros c' x Gx. unfold at_conn. cbn [deliv add_infl with_session o_conn]. rewrite (get_obj_conn Gx).
    destruct (c' =? c) eqn:E; cbn; repeat split; auto. intro N. apply N.eqb_neq in N. congruence.
  - rewrite at_conn_same by apply (get_obj_conn G). reflexivity.
  - rewrite at_conn_same by apply (get_obj_conn G). discriminate.
Qed.

Lemma ended_ix k s o c now ob s' outs : ending s o = Some (c, now, ob) -> ended k o c now ob s s' outs -> wf s -> ixinv s -> ixinv s'.
Proof.
  intros EN [_ EC EI _ (dl & pubs & _ & CH & _)] W X. destruct (ending_wf s o c now ob W EN) as [G REG].
  refine (closed_ix s s' c ob _ _ W X G (fun H => REG (ends_session_tko k o ob H)) CH _ _ EC EI).
  - intros c' x Gx N. rewrite at_conn_other; [reflexivity|]. cbn. rewrite (get_obj_conn Gx). exact N.
  - rewrite at_conn_same by apply (get_obj_conn G). cbn. intros ->. reflexivity.
Qed.

(* an entry of Clients that clearExpiredClients finds expired: its object is disconnected, and past its interval *)
Lemma expired_entry_wf k now s id c : wf s -> In (id, c) (st_clients s) -> expired_entry k now s (id, c) = true ->
  aget id (st_clients s) = Some c /\ exists o, get_obj c (st_objs s) = Some o /\ o_open o = false /\
    (o_disc o + Z.of_N (if (o_ver o =? 5)%N && o_seiflag o then o_sei o else k_maxsei k) <? now)%Z = true.
Proof.
  intros W I EX. unfold expired_entry in EX. cbn [snd] in EX. destruct (get_obj c (st_objs s)) as [o|] eqn:G; [|discriminate].
  apply andb_true_iff in EX. destruct EX as [DZ LT]. apply negb_true_iff, Z.eqb_neq in DZ.
  split; [exact (in_aget_nodup id c _ (wf_nodup s W) I)|]. exists o. split; [reflexivity|]. split; [|exact LT].
  destruct (o_open o) eqn:OO; [|reflexivity]. destruct (wf_open s W c o G OO) as (_ & _ & D0). contradiction.
Qed.

(* clearExpiredClients: the entry is registered and its object disconnected *)
Lemma dropped_wf id c s s' outs o :
  dropped (id, c) s s' outs -> wf s -> aget id (st_clients s) = Some c -> get_obj c (st_objs s) = Some o -> o_open o = false -> wf s'.
Proof.
  intros [EU CH EC _ _ _] W A G OO. cbn [fst snd] in *. destruct (wf_reg_obj s id c o W A G) as [<- T].
  refine (closed_wf s s' c o true _ W G (fun _ => A) EU CH _ _ _ EC).
  - intros c' x Gx'. unfold at_conn. destruct (_ =? c); repeat split.
  - rewrite at_conn_same by apply (get_obj_conn G). exact OO.
  - rewrite at_conn_same by apply (get_obj_conn G). intro P. apply (wf_held s W c o G P).
Qed.

Lemma dropped_ix id c s s' outs o :
  dropped (id, c) s s' outs -> wf s -> ixinv s -> aget id (st_clients s) = Some c -> get_obj c (st_objs s) = Some o -> ixinv s'.
Proof.
  intros [_ CH EC EI _ _] W X A G. cbn [fst snd] in *. destruct (wf_reg_obj s id c o W A G) as [<- T].
  rewrite G, T in EI. refine (closed_ix s s' c o true _ W X G (fun _ => A) CH _ _ EC EI); [|discriminate].
  intros c' x Gx' N. rewrite at_conn_other; [reflexivity|]. rewrite (get_obj_conn Gx'). exact N.
Qed.

(* the entries the tick drops are registered and disconnected when their turn comes *)
Lemma expired_inv k now l : forall s s' outs, ran dropped l s s' outs -> wf s -> NoDup (map fst l) ->
  (forall e, In e l -> In e (st_clients s) /\ expired_entry k now s e = true) -> wf s' /\ (ixinv s -> ixinv s').
Proof.
  induction l as [|[id c] r IH]; intros s s' outs R W ND IN; inversion R; subst; [auto|].
  inversion ND as [|? ? NI ND']; subst. destruct (IN (id, c) (or_introl eq_refl)) as [I EX].
  destruct (expired_entry_wf k now s id c W I EX) as (A & o & G & OO & _).
  match goal with H : dropped _ s ?s1 _, R' : ran dropped r ?s1 s' _ |- _ => rename H into D; destruct (IH s1 s' _ R' (dropped_wf id c s s1 _ o D W A G OO) ND') as [W' X'] end.
  - intros [id' c'] I'. destruct (IN _ (or_intror I')) as [I0 EX']. destruct D as [_ CH EC _ _ _]. cbn [fst snd] in *. split.
    + rewrite EC. unfold adel. apply filter_In. split; [exact I0|]. cbn. destruct (beq_bytes id' id) eqn:E; [|reflexivity].
      apply bb_eq in E. subst id'. destruct NI. apply (in_map fst) in I'. exact I'.
    + unfold expired_entry in *. cbn [snd] in *. rewrite (CH c'). destruct (get_obj c' (st_objs s)) as [x|]; [|discriminate]. cbn. unfold at_conn. destruct (_ =? c); exact EX'.
  - split; [exact W'|]. intro X. apply X', (dropped_ix id c s _ _ o D W X A G).
Qed.

Lemma subscribed_ix c f q ob s s' : reading s c = Some ob -> subscribed c f q ob s s' -> wf s -> ixinv s -> ixinv s'.
Proof.
  intros RD [(_ & EC & _) CH EI] W X. destruct (reading_wf s c ob W RD) as (G & OO & A).
  assert (SUBS : forall c2 o2 f', get_obj c2 (st_objs s) = Some o2 -> In f' (map fst (o_subs o2)) \/ (c2 = c /\ f' = f) ->
             exists o2', get_obj c2 (st_objs s') = Some o2' /\ In f' (map fst (o_subs o2'))).
  { intros c2 o2 f' G2 H. rewrite (CH c2), G2. eexists. split; [reflexivity|]. unfold at_conn. rewrite (get_obj_conn G2).
    destruct (c2 =? c) eqn:E; [|destruct H as [H|[H _]]; [exact H|apply N.eqb_neq in E; contradiction]]. cbn.
    destruct H as [H|[_ ->]]; [apply aset_keys, H|]. unfold aset. rewrite map_app. apply in_or_app. right. left. reflexivity. }
  intros id f' q' IN. rewrite EI in IN. unfold ix_add in IN. apply in_app_or in IN. rewrite EC. destruct IN as [IN|[IN|[]]].
  - apply in_ix_del in IN. destruct (X id f' q' IN) as (c2 & o2 & A2 & G2 & F2). destruct (SUBS c2 o2 f' G2 (or_introl F2)) as (o2' & G' & F').
    exists c2, o2'. auto.
  - inversion IN; subst id f' q'. destruct (SUBS c ob f G (or_intror (conj eq_refl eq_refl))) as (o2' & G' & F'). exists c, o2'. auto.
Qed.

Section Accepted.
  Variables (k : caps) (c : N) (now : Z) (p : cparams) (e : bytes) (s s' : state).
  Hypothesis M : memN c (st_used s) = false.
  Hypothesis AC : accepted k c now p e s s'.
  Hypothesis W : wf s.

  Let n := new_obj k c p e (client_of s e).

  Lemma accepted_keep id c' o : id <> e -> aget id (st_clients s) = Some c' -> get_obj c' (st_objs s) = Some o ->
    aget id (st_clients s') = Some c' /\ get_obj c' (st_objs s') = Some o.
  Proof.
    intros NE A G. rewrite (ac_clients _ _ _ _ _ _ _ AC), aget_aset_other by exact NE. split; [exact A|].
    (* [c'] is not the new connection, which had no object, nor the holder of [e], which is registered under [e] alone *)
    rewrite (ac_others _ _ _ _ _ _ _ AC c'); [exact G| |].
    - intros ->. assert (H : hasobj s c = true) by (unfold hasobj; rewrite G; reflexivity). apply (wf_used s W) in H. congruence.
    - intros eo CO E. pose proof (client_of_wf s e W) as OLD. rewrite CO in OLD. destruct OLD as (AE & _). rewrite <- E in AE.
      destruct (wf_reg_obj s e c' o W AE G) as [I3 _]. destruct (wf_reg_obj s id c' o W A G) as [I4 _]. congruence.
  Qed.

  Lemma accepted_wf : wf s'.
  Proof.
    destruct AC as [EU GN _ _ EC _ _]. destruct (new_obj_fields k c p e (client_of s e)) as (NC & NK & _). fold n in GN, NC, NK.
    injection NK as NI NT NO NP ND. split.
    - intros c' H. rewrite EU, memN_cons. rewrite (accepted_objs _ _ _ _ _ _ _ AC) in H. apply orb_true_iff in H.
      destruct H as [H|H]; [rewrite (wf_used s W c' H), orb_true_r|rewrite H]; reflexivity.
    - rewrite EC. apply nodup_aset, (wf_nodup s W).
    - intros id c' A. destruct (bb_dec id e) as [->|NE].
      + rewrite EC, aget_aset_same in A. inversion A; subst c'. exists n. auto.
      + rewrite EC, aget_aset_other in A by exact NE. destruct (wf_reg s W id c' A) as (o & G & I & T). exists o. destruct (accepted_keep id c' o NE A G). auto.
    - intros c' o' G' OO. destruct (N.eq_dec c' c) as [->|N].
      + rewrite GN in G'. inversion G'; subst o'. rewrite EC, NI, aget_aset_same. auto.
      + destruct (accepted_old _ _ _ _ _ _ _ c' o' AC N G') as (o & G & [[-> NH]| ->]); [|rewrite taken_over_spec in OO; discriminate].
        destruct (wf_open s W c' o G OO) as (A & B & D). split; [|auto]. rewrite EC, aget_aset_other; [exact A|].
        (* an object registered under the identifier would be its holder, which is not as it was *)
        intro E. apply NH. unfold client_of. rewrite <- E, A. exact G.
    - intros c' o' G' PH. destruct (N.eq_dec c' c) as [->|N]; [rewrite GN in G'; inversion G'; subst o'; congruence|].
      destruct (accepted_old _ _ _ _ _ _ _ c' o' AC N G') as (o & G & [[-> _]| ->]); [apply (wf_held s W c' o G PH)|]. rewrite taken_over_spec. auto.
  Qed.

  (* the index entries of the identifier are subscriptions of the new object; the others are as they were *)
  Lemma accepted_ix : ixinv s -> ixinv s'.
  Proof.
    intro X. destruct (new_obj_fields k c p e (client_of s e)) as (_ & _ & _ & _ & _ & NS & _). fold n in NS.
    assert (MINE : forall f, In f (map fst (o_subs n)) -> exists c2 o2, aget e (st_clients s') = Some c2 /\ get_obj c2 (st_objs s') = Some o2 /\ In f (map fst (o_subs o2))).
    { intros f F. exists c, n. rewrite (ac_clients _ _ _ _ _ _ _ AC), aget_aset_same, (ac_new _ _ _ _ _ _ _ AC). auto. }
    assert (THEIRS : forall id f q, id <> e -> In (id, f, q) (st_index s) ->
              exists c2 o2, aget id (st_clients s') = Some c2 /\ get_obj c2 (st_objs s') = Some o2 /\ In f (map fst (o_subs o2))).
    { intros id f q NE I. destruct (X id f q I) as (c2 & o2 & A2 & G2 & F2). exists c2, o2. destruct (accepted_keep id c2 o2 NE A2 G2). auto. }
    intros id f q IN. rewrite (ac_index _ _ _ _ _ _ _ AC) in IN. pose proof (client_of_wf s e W) as OLD. destruct (client_of s e) as [eo|] eqn:CO.
    - destruct OLD as (A & G & IE & TE). rewrite TE, IE in IN.
      pose proof (fun f q => ixinv_obj s e _ eo f q X A G) as OWN.
      destruct (resumes p eo).
      + apply in_fold_ix_add in IN. destruct IN as [IN|(fq & IFQ & E)].
        * destruct (bb_dec id e) as [->|NE]; [apply MINE; rewrite NS; exact (OWN f q IN)|exact (THEIRS id f q NE IN)].
        * inversion E; subst. apply MINE. rewrite NS. apply in_map, IFQ.
      + apply in_ix_del_all in IN. destruct IN as [IN C']. cbn in C'. apply (THEIRS id f q); [|exact IN].
        intro E. subst id. destruct C' as [C'|C']; [congruence|exact (C' (OWN f q IN))].
    - apply (THEIRS id f q); [|exact IN]. intro E. subst id. destruct (X e f q IN) as (c2 & _ & A2 & _). congruence.
  Qed.
End Accepted.

Lemma wf_set_used s c : wf s -> wf (set_used s (c :: st_used s)).
Proof. intros [U ND R O H]. split; auto. intros c' Hc. cbn. rewrite memN_cons, (U c' Hc). apply orb_true_r. Qed.

Lemma ixinv_set_used s x : ixinv s -> ixinv (set_used s x).
Proof. intro X. exact X. Qed.

Lemma step_wf_ix k s o : wf s -> wf (fst (step k s o)) /\ (ixinv s -> ixinv (fst (step k s o))).
Proof.
  intro W. destruct (step_cases k s o) as [o ID|o c outs NEW R|c now p e s' M T VV A|o c now ob s' outs EN E|now s' outs R|now s' outs R|c f q ob s' RD S|c m ob s' pubs RD P].
  - auto.
  - split; [apply wf_set_used, W|auto].
  - split; [exact (accepted_wf k c now p e s s' M A W)|exact (accepted_ix k c now p e s s' M A W)].
  - split; [exact (ended_wf k s o c now ob s' outs EN E W)|exact (ended_ix k s o c now ob s' outs EN E W)].
  - apply (expired_inv k now _ s s' outs R W); [apply NoDup_map_filter, (wf_nodup s W)|]. intros e I. apply filter_In in I. exact I.
  - revert W. induction R as [|a l s0 s1 s2 o1 o2 [RG _ (dl & pubs & _ & CH & _)] _ IH]; intro W; [auto|].
    destruct (IH (quiet_wf _ s0 s1 RG CH (fired_skey _ dl) W)) as [W2 X2].
    split; [exact W2|]. intro X. apply X2, (quiet_ix _ s0 s1 RG CH (fired_skey _ dl) X).
  - split; [|exact (subscribed_ix c f q ob s s' RD S W)]. destruct S as [(EU & EC & _) CH _]. apply (wf_keys _ s s' EU EC CH); [|exact W].
    intro x. unfold at_conn. destruct (_ =? c); reflexivity.
  - destruct P as [RG _ (dl & _ & CH) _]. split; [exact (quiet_wf _ s s' RG CH (fun _ => eq_refl) W)|exact (quiet_ix _ s s' RG CH (fun _ => eq_refl))].
Qed.

Theorem step_wf k s o : wf s -> wf (fst (step k s o)).
Proof. intro W. apply (step_wf_ix k s o W). Qed.

Theorem step_ix k s o : wf s -> ixinv s -> ixinv (fst (step k s o)).
Proof. intro W. apply (step_wf_ix k s o W). Qed.

Theorem step_inv k s o : inv s -> inv (fst (step k s o)).
Proof. intros [W X]. split; [apply step_wf, W|apply step_ix; assumption]. Qed.

Lemma do_disconnect_wf k c now rc sei s : wf s -> wf (fst (do_disconnect k c now rc sei s)).
Proof. exact (step_wf k s (ODisconnect c now rc sei)). Qed.
Lemma do_disconnect_ix k c now rc sei s : wf s -> ixinv s -> ixinv (fst (do_disconnect k c now rc sei s)).
Proof. exact (step_ix k s (ODisconnect c now rc sei)). Qed.
Lemma do_netclose_wf k c now s : wf s -> wf (fst (do_netclose k c now s)).
Proof. exact (step_wf k s (ONetClose c now)). Qed.
Lemma do_netclose_ix k c now s : wf s -> ixinv s -> ixinv (fst (do_netclose k c now s)).
Proof. exact (step_ix k s (ONetClose c now)). Qed.
Lemma do_teardown_wf k c now s : wf s -> wf (fst (do_teardown k c now s)).
Proof. exact (step_wf k s (OTeardown c now)). Qed.
Lemma do_teardown_ix k c now s : wf s -> ixinv s -> ixinv (fst (do_teardown k c now s)).
Proof. exact (step_ix k s (OTeardown c now)). Qed.
Lemma do_second_connect_wf k c now s : wf s -> wf (fst (do_second_connect k c now s)).
Proof. exact (step_wf k s (OSecondConnect c now)). Qed.
Lemma do_second_connect_ix k c now s : wf s -> ixinv s -> ixinv (fst (do_second_connect k c now s)).
Proof. exact (step_ix k s (OSecondConnect c now)). Qed.
Lemma do_subscribe_wf c f q s : wf s -> wf (fst (do_subscribe c f q s)).
Proof. exact (step_wf {| k_maxsei := 0; k_minver := 0; k_maxqos := 0; k_retain := false |} s (OSubscribe c f q)). Qed.
Lemma do_subscribe_ix c f q s : wf s -> ixinv s -> ixinv (fst (do_subscribe c f q s)).
Proof. exact (step_ix {| k_maxsei := 0; k_minver := 0; k_maxqos := 0; k_retain := false |} s (OSubscribe c f q)). Qed.
Lemma do_publish_wf k c m s : wf s -> wf (fst (do_publish k c m s)).
Proof. exact (step_wf k s (OPublish c m)). Qed.

Lemma tick_clients_wf_ix k now l s : wf s -> NoDup (map fst l) -> (forall id c, In (id, c) l -> In (id, c) (st_clients s)) ->
  wf (fst (tick_clients k now l s)) /\ (ixinv s -> ixinv (fst (tick_clients k now l s))).
Proof.
  intros W ND IN. apply (expired_inv k now _ s _ _ (tick_clients_ran k now l s) W); [apply NoDup_map_filter, ND|].
  intros [id c] I. apply filter_In in I. destruct I as [I E]. auto.
Qed.
Lemma tick_clients_wf k now l : forall s, wf s -> NoDup (map fst l) -> (forall id c, In (id, c) l -> In (id, c) (st_clients s)) ->
  wf (fst (tick_clients k now l s)).
Proof. intros s W ND IN. apply (tick_clients_wf_ix k now l s W ND IN). Qed.
Lemma tick_clients_ix k now l : forall s, wf s -> ixinv s -> NoDup (map fst l) ->
  (forall id c, In (id, c) l -> In (id, c) (st_clients s)) -> ixinv (fst (tick_clients k now l s)).
Proof. intros s W X ND IN. apply (tick_clients_wf_ix k now l s W ND IN), X. Qed.

Lemma ixinv_remove_session s id c o :
  wf s -> ixinv s -> aget id (st_clients s) = Some c -> get_obj c (st_objs s) = Some o ->
  ixinv (set_clients (unsubscribe_client c (clear_inflights c s))
                     (adel id (st_clients (unsubscribe_client c (clear_inflights c s))))).
Proof.
  intros W X A G. rewrite unsubscribe_client_clients, (proj1 (proj2 (clear_inflights_reg c s))).
  exact (dropped_ix id c s _ _ o (drop_session_dropped c id s) W X A G).
Qed.

Lemma wf_upd_closed s o o' :
  wf s -> get_obj (o_conn o') (st_objs s) = Some o -> o_id o' = o_id o -> o_tko o' = o_tko o -> o_open o' = false ->
  (o_phase o' = PhHeld -> o_tko o = true) -> wf (upd_obj s o').
Proof.
  intros W G EI ET EO EP. pose proof (get_obj_conn G) as EC.
  refine (closed_wf s (upd_obj s o') (o_conn o') o false (at_conn (o_conn o') (fun _ => o')) W G _ eq_refl _ _ _ _ eq_refl); rewrite ?at_conn_same by exact EC; auto; try discriminate.
  - apply (changes_upd _ (fun _ => o') s o G eq_refl).
  - intros c' x Gx. unfold at_conn. rewrite (get_obj_conn Gx). destruct (c' =? o_conn o') eqn:E; [|auto].
    apply N.eqb_eq in E. subst c'. rewrite G in Gx. inversion Gx; subst x. repeat split; auto. congruence.
Qed.

Lemma stopped_fields o now : o_id (stopped o now) = o_id o /\ o_tko (stopped o now) = o_tko o /\ o_phase (stopped o now) = o_phase o.
Proof. rewrite stopped_spec. auto. Qed.

Lemma stopped_subs o now : o_subs (stopped o now) = o_subs o.
Proof. rewrite stopped_spec. reflexivity. Qed.

Lemma wf_stop s c o now : wf s -> get_obj c (st_objs s) = Some o -> wf (upd_obj s (stopped o now)).
Proof.
  intros W G. apply (wf_upd_closed s o); try (rewrite stopped_spec; reflexivity); [exact W| |].
  - rewrite stopped_conn, (get_obj_conn G). exact G.
  - rewrite stopped_spec. intro PH. exact (proj1 (wf_held s W c o G PH)).
Qed.

Lemma disconnect_client_wf now c code s : wf s -> wf (fst (disconnect_client now c code s)).
Proof.
  intro W. unfold disconnect_client. destruct (get_obj c (st_objs s)) as [o|] eqn:G; [|exact W].
  destruct (o_open o); [|exact W]. apply (wf_stop s c o now W G).
Qed.

Lemma disconnect_client_keeps now c code s :
  st_clients (fst (disconnect_client now c code s)) = st_clients s /\
  forall c' o, get_obj c' (st_objs s) = Some o ->
    exists o', get_obj c' (st_objs (fst (disconnect_client now c code s))) = Some o' /\
               o_id o' = o_id o /\ o_tko o' = o_tko o /\ o_phase o' = o_phase o /\ (o_open o' = true -> o_open o = true) /\
               (c' <> c -> o' = o) /\ (c' = c -> o_open o' = false) /\
               o_subs o' = o_subs o /\ o_infl o' = o_infl o /\ o_will o' = o_will o /\ o_ver o' = o_ver o /\ o_clean o' = o_clean o /\
               o_sei o' = o_sei o /\ o_seiflag o' = o_seiflag o.
Proof.
  split; [apply disconnect_client_reg|]. intros c' o G. pose proof (disconnect_client_upd now c code s) as U.
  destruct (N.eq_dec c' c) as [->|NE]; [|rewrite (changes_other _ _ _ _ c' U NE); exists o; repeat split; auto; congruence].
  rewrite (changes_here _ _ _ _ U), G. eexists. split; [reflexivity|]. rewrite stopped_spec. cbn. repeat split; auto; congruence.
Qed.

Lemma other_upd s o c' : c' <> o_conn o -> get_obj c' (st_objs (upd_obj s o)) = get_obj c' (st_objs s).
Proof. apply get_upd_other. Qed.

Lemma other_disconnect now e code s c' : c' <> e -> get_obj c' (st_objs (fst (disconnect_client now e code s))) = get_obj c' (st_objs s).
Proof. apply (changes_other _ _ _ _ c' (disconnect_client_upd now e code s)). Qed.

Lemma other_unsubscribe e s c' : c' <> e -> get_obj c' (st_objs (unsubscribe_client e s)) = get_obj c' (st_objs s).
Proof. apply (changes_other _ _ _ _ c' (unsubscribe_client_upd e s)). Qed.

Lemma other_clear e s c' : c' <> e -> get_obj c' (st_objs (clear_inflights e s)) = get_obj c' (st_objs s).
Proof. apply (changes_other _ _ _ _ c' (clear_inflights_upd e s)). Qed.

Lemma ix_clear e s : st_index (clear_inflights e s) = st_index s.
Proof. apply clear_inflights_reg. Qed.

Lemma ix_tko_upd e (z : state) : st_index (match get_obj e (st_objs z) with Some x => upd_obj z (with_tko x) | None => z end) = st_index z.
Proof. apply (modify_reg e with_tko z). Qed.

Lemma ix_unsubscribe e s o : get_obj e (st_objs s) = Some o ->
  st_index (unsubscribe_client e s) = if o_tko o then st_index s else ix_del_all (o_id o) (map fst (o_subs o)) (st_index s).
Proof. intro G. rewrite unsubscribe_client_index, G. reflexivity. Qed.
