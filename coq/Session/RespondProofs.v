(* The response model (Session/Respond.v), for C07: every well-formed request is answered as the
   protocol requires, or the connection is closed, outside the two listed findings. *)
From MV Require Import Base.Val Session.Pkt Session.Respond.
From Coq Require Import Lia ZifyBool.
Open Scope N_scope.

Lemma zip_with_length {A B C} (f : A -> B -> C) (a : list A) (b : list B) :
  length a = length b -> length (zip_with f a b) = length b.
Proof.
  revert b; induction a as [|x a IH]; intros [|y b] H; cbn in *; try lia.
  f_equal. apply IH. lia.
Qed.

(* the answers the protocol accepts for a PUBLISH: the connection is closed, or the publish has QoS 0
   (nothing is required), or it is acknowledged with the packet type of its QoS, whatever the reason code *)
Definition publish_answer (p : pkt) (r : resp) : Prop :=
  r = RClose \/ k_qos p = 0 \/
  ((k_qos p = 1 \/ k_qos p = 2) /\ exists rc, r = RAck (ack_type_for_qos (k_qos p)) (k_pid p) rc).

Lemma publish_answer_ok p r : k_type p = T_PUBLISH -> publish_answer p r -> resp_ok p r = true.
Proof.
  intros T [-> | [Q | [Q [rc ->]]]]; [reflexivity| |]; unfold resp_ok, required; rewrite T; cbn [N.eqb Pos.eqb].
  - rewrite Q. destruct r; reflexivity.
  - destruct Q as [-> | ->]; cbn; rewrite N.eqb_refl; reflexivity.
Qed.

(* processPublish answers every QoS 1 / 2 publish it does not downgrade with the acknowledgement of its QoS:
   the error paths use [ack_type_for_qos], the retransmission path is taken by QoS 2 publishes only (a QoS 1
   publish on the identifier of an unreleased QoS 2 publish is not well formed), the last path tests the QoS *)
Lemma model_publish_answer c p :
  k_qos p = 0 \/ k_qos p = 1 \/ k_qos p = 2 ->
  (k_qos p =? 1) && is_pubrec_rec (x_infl c) = false ->
  (x_maxqos c <? k_qos p) = false ->
  publish_answer p (model_publish c p).
Proof.
  intros [Q | Q] R D; [right; left; exact Q|].
  assert (A : forall rc, publish_answer p (RAck (ack_type_for_qos (k_qos p)) (k_pid p) rc)).
  { intro rc. right. right. split; [exact Q|]. exists rc. reflexivity. }
  unfold model_publish. rewrite D.
  replace (k_qos p =? 0) with false by (destruct Q as [-> | ->]; reflexivity).
  destruct (negb (x_topic_valid c)); [apply A|].
  destruct (x_recvq c =? 0)%Z; [left; reflexivity|].
  destruct (negb (x_acl_write c)); [destruct (negb (x_ver c =? 5)); [left; reflexivity|apply A]|].
  destruct Q as [Q | Q]; rewrite Q in R, A |- *; cbn in R |- *.
  - rewrite R. apply A.
  - destruct (is_pubrec_rec (x_infl c)); apply A.
Qed.

Theorem respond_sound (c : ctx) (p : pkt) :
  wf_request c p = true ->
  KF_C07_pubrel_error c p = false ->
  KF_C07_qos_downgrade c p = false ->
  resp_ok p (model_response c p) = true.
Proof.
  unfold wf_request, KF_C07_pubrel_error, KF_C07_qos_downgrade, model_response.
  intros W K1 K2.
  destruct (k_type p =? T_PUBLISH) eqn:T; [apply N.eqb_eq in T|clear K2].
  { apply publish_answer_ok; [exact T|]. apply andb_true_iff in W. destruct W as [W1 W2].
    apply model_publish_answer; [lia|apply negb_true_iff; exact W2|exact K2]. }
  destruct (k_type p =? T_PUBREL) eqn:T6; [apply N.eqb_eq in T6|clear K1].
  { (* the record is known or not; a known one is released unless the reason code is an error (the finding) *)
    apply andb_true_iff in W. destruct W as [_ W]. cbn [andb] in K1.
    unfold resp_ok, required, model_pubrel, inuse in *. rewrite T6. cbn [N.eqb Pos.eqb].
    destruct (x_infl c); [rewrite andb_true_r in K1; rewrite K1, W|]; cbn; rewrite N.eqb_refl; reflexivity. }
  destruct (k_type p =? T_SUBSCRIBE) eqn:T8; [apply N.eqb_eq in T8|].
  { (* one code per filter *)
    unfold resp_ok, required, model_subscribe. rewrite T8. cbn. rewrite N.eqb_refl, zip_with_length; [apply Nat.eqb_refl|].
    cbn [orb] in W. lia. }
  destruct (k_type p =? T_UNSUBSCRIBE) eqn:T10; [apply N.eqb_eq in T10|].
  { unfold resp_ok, required, model_unsubscribe. rewrite T10. cbn. rewrite N.eqb_refl, map_length.
    cbn [orb] in W. apply Nat.eqb_eq. lia. }
  cbn [orb] in W. rewrite W. apply N.eqb_eq in W. unfold resp_ok, required. rewrite W. reflexivity.
Qed.

(* with the Maximum Packet Size refusal: an over-size response becomes the end of the connection *)
Theorem respond_sized_sound (c : ctx) (p : pkt) :
  wf_request c p = true ->
  KF_C07_pubrel_error c p = false ->
  KF_C07_qos_downgrade c p = false ->
  resp_ok p (model_response_sized c p) = true.
Proof.
  intros Hwf K1 K2. pose proof (respond_sound c p Hwf K1 K2) as H.
  unfold model_response_sized. destruct (x_too_large c); [|exact H].
  destruct (model_response c p); try reflexivity. exact H.
Qed.
