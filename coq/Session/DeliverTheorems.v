(* The routing theorems in the form the property files state them: about the outputs of [step] in every
   state reachable by a history (and, more generally, every well-formed state). *)
From MV Require Import Base.Val Base.BytesEq Topics.Levels Topics.Match Topics.Alist Topics.AlistProofs
  Session.Deliver Session.DeliverProofs.
From Coq Require Import Lia Permutation.
Open Scope N_scope.

(* routing does not look at the retained store *)
Lemma deliver_to_ext s s' orc drops m c cl :
  st_maxqos s = st_maxqos s' -> st_deny s = st_deny s' ->
  deliver_to s orc drops m c cl = deliver_to s' orc drops m c cl.
Proof.
  intros E1 E2. unfold deliver_to, publish_to_client, denied. rewrite E1, E2. reflexivity.
Qed.

Definition with_origin (c : cid) (m : msg) : msg := mkMsg (m_topic m) (m_payload m) (m_qos m) (m_retain m) (m_props m) c.

(* the outputs of a publish, computed in the state BEFORE the retained store is updated *)
Lemma publish_out orc drops s m0 :
  o_deliv (snd (publish orc drops s m0))
  = route_inline s (accepted (st_maxqos s) m0) ++ sends (route s orc drops (accepted (st_maxqos s) m0)).
Proof.
  set (m := accepted (st_maxqos s) m0).
  change (o_deliv (snd (publish orc drops s m0)))
    with (route_inline (routed_state s m) m ++ sends (route (routed_state s m) orc drops m)).
  destruct (routed_state_same s m) as (E1 & E2 & E3 & _ & E5).
  unfold route_inline, inline_ids, route. rewrite E1, E2. do 2 f_equal.
  apply map_ext. intros [c cl]. cbn. f_equal. apply deliver_to_ext; assumption.
Qed.

Lemma step_publish {orc drops s pub m0} :
  valid_pub_topic (m_topic m0) = true ->
  step orc drops s (OPublish pub m0) = publish orc drops s (with_origin pub m0).
Proof. intro V. cbn [step]. rewrite V. reflexivity. Qed.

Lemma filter_to_client_inline c s m : filter (to_client c) (route_inline s m) = [].
Proof. unfold route_inline. induction (inline_ids s (m_topic m)) as [|x l IH]; cbn; [reflexivity|exact IH]. Qed.

Lemma filter_to_inline_sends id r : filter (to_inline id) (sends r) = [] ->
  True.
Proof. trivial. Qed.

Lemma filter_to_inline_route id s orc drops m : filter (to_inline id) (sends (route s orc drops m)) = [].
Proof.
  unfold route, sends. induction (st_clients s) as [|[c cl] l IH]; [reflexivity|]. cbn [map flat_map fst snd].
  rewrite filter_app, IH, app_nil_r. destruct (deliver_to s orc drops m c cl) as [|d| |] eqn:ED; try reflexivity.
  cbn. unfold to_inline. rewrite (deliver_target ED). reflexivity.
Qed.

Lemma publish_to_client_copies orc drops s m0 c :
  NoDup (map fst (st_clients s)) ->
  filter (to_client c) (o_deliv (snd (publish orc drops s m0)))
  = match get_client s c with
    | Some cl => match deliver_to s orc drops (accepted (st_maxqos s) m0) c cl with PSend d => [d] | _ => [] end
    | None => []
    end.
Proof. intro ND. rewrite publish_out, filter_app, filter_to_client_inline. apply route_to_client, ND. Qed.

Lemma publish_count orc drops s m0 c :
  NoDup (map fst (st_clients s)) ->
  length (filter (to_client c) (o_deliv (snd (publish orc drops s m0))))
  = match get_client s c with
    | Some cl => if is_send (deliver_to s orc drops (accepted (st_maxqos s) m0) c cl) then 1%nat else 0%nat
    | None => 0%nat
    end.
Proof.
  intro ND. rewrite publish_to_client_copies by exact ND. destruct (get_client s c) as [cl|]; [|reflexivity].
  destruct (deliver_to _ _ _ _ c cl); reflexivity.
Qed.

(* what one accepted publish delivers, per client *)
Definition expected_copies (s : state) (orc : oracle) (drops : list cid) (m : msg) (c : cid) : nat :=
  match get_client s c with
  | Some cl => if spec_entitled s c cl m (ent_subs c cl (m_topic m) orc) && negb (existsb (beq_bytes c) drops)
               then 1%nat else 0%nat
  | None => 0%nat
  end.

Definition no_nolocal_finding (s : state) (orc : oracle) (m : msg) (c : cid) : Prop :=
  forall cl, get_client s c = Some cl -> KF_C03_nolocal_merge c m (ent_subs c cl (m_topic m) orc) = false.

(* C03, every state whose client ids are distinct, every oracle *)
Theorem publish_copies s orc drops m0 c :
  NoDup (map fst (st_clients s)) ->
  let m := accepted (st_maxqos s) m0 in
  no_nolocal_finding s orc m c ->
  length (filter (to_client c) (o_deliv (snd (publish orc drops s m0)))) = expected_copies s orc drops m c.
Proof.
  intros NDc m KF. rewrite publish_count by exact NDc. fold m.
  unfold expected_copies. destruct (get_client s c) as [cl|] eqn:G; [|reflexivity].
  rewrite deliver_send_iff; [reflexivity|]. apply KF. exact G.
Qed.

(* a copy on c's connection is what [deliver_to] hands over for c's session: every statement about the copies
   of a publish is one about [deliver_to] (DeliverProofs.deliver_fields) *)
Lemma publish_copy_inv {s orc drops m0 c d} :
  wf_state s -> In d (filter (to_client c) (o_deliv (snd (publish orc drops s m0)))) ->
  exists cl, get_client s c = Some cl /\ NoDup (map fst (cl_subs cl)) /\ cl_ver cl <= 5 /\
             deliver_to s orc drops (accepted (st_maxqos s) m0) c cl = PSend d.
Proof.
  intros [[NDc HC] _]. rewrite publish_to_client_copies by exact NDc. unfold get_client.
  destruct (al_get beq_bytes c (st_clients s)) as [cl|] eqn:G; [|intros []].
  destruct (deliver_to _ _ _ _ c cl) as [|d0| |] eqn:ED; [intros []| |intros []..]. intros [<-|[]].
  exists cl. destruct (HC c cl (al_get_In beq_bytes_eq _ _ _ G)). auto.
Qed.

(* the QoS the server accepted is already capped at the server maximum *)
Lemma spec_qos_accepted mq m L : spec_qos mq (m_qos (accepted mq m)) L = spec_qos mq (m_qos m) L.
Proof. unfold spec_qos, accepted. cbn [m_qos]. rewrite ltb_min. lia. Qed.

Lemma reached mq ra deny (h : hist) :
  forallb op_ok (ops_of h) = true -> wf_state (run (init mq ra deny) h) /\ st_maxqos (run (init mq ra deny) h) = mq.
Proof. intro OK. split; [apply reachable_wf, OK|apply run_maxqos]. Qed.

(* [publish_copy_inv] for a PUBLISH packet in a state reached by a history *)
Lemma history_copy_inv {mq ra deny} {h : hist} {orc drops pub m0 c d} :
  forallb op_ok (ops_of h) = true -> valid_pub_topic (m_topic m0) = true ->
  let s := run (init mq ra deny) h in
  In d (filter (to_client c) (o_deliv (snd (step orc drops s (OPublish pub m0))))) ->
  exists cl, get_client s c = Some cl /\ NoDup (map fst (cl_subs cl)) /\ cl_ver cl <= 5 /\
             deliver_to s orc drops (accepted mq (with_origin pub m0)) c cl = PSend d.
Proof.
  intros OK V s. rewrite (step_publish V). destruct (reached mq ra deny h OK) as [W E]. fold s in W, E.
  rewrite <- E. apply publish_copy_inv, W.
Qed.

Theorem C03_history_modulo mq ra deny (h : hist) orc drops pub m0 c :
  forallb op_ok (ops_of h) = true -> NoDup (map fst orc) -> valid_pub_topic (m_topic m0) = true ->
  let s := run (init mq ra deny) h in
  let m := accepted mq (with_origin pub m0) in
  let out := o_deliv (snd (step orc drops s (OPublish pub m0))) in
  no_nolocal_finding s orc m c ->
  length (filter (to_client c) out) = expected_copies s orc drops m c.
Proof.
  intros OK _ V s m out. unfold out, m. rewrite (step_publish V).
  destruct (reached mq ra deny h OK) as [[[ND _] _] E]. fold s in ND, E. rewrite <- E. apply publish_copies, ND.
Qed.

(* C04 on reachable states *)
Theorem C04_history mq ra deny (h : hist) orc drops pub m0 c d :
  forallb op_ok (ops_of h) = true -> NoDup (map fst orc) -> valid_pub_topic (m_topic m0) = true ->
  let s := run (init mq ra deny) h in
  In d (filter (to_client c) (o_deliv (snd (step orc drops s (OPublish pub m0))))) ->
  exists cl, get_client s c = Some cl /\
    let L := ent_subs c cl (m_topic m0) orc in
    d_qos d = spec_qos mq (m_qos m0) L /\
    d_retain d = spec_retain (cl_ver cl) (m_retain m0) L /\
    (cl_ver cl = 5 -> Permutation (d_ids d) (spec_ids L)) /\
    (cl_ver cl <> 5 -> d_ids d = []).
Proof.
  intros OK NO V s HI. destruct (history_copy_inv OK V HI) as (cl & G & NS & V5 & ED).
  destruct (deliver_fields _ _ _ _ _ _ _ NS NO V5 ED) as (_ & _ & H3 & H4 & H5 & H6).
  rewrite (proj2 (reached mq ra deny h OK)) in H3.
  exists cl. cbv zeta. rewrite <- (spec_qos_accepted mq (with_origin pub m0)).
  split; [exact G|]. split; [exact H3|]. split; [exact H4|]. split; intro E; [apply H5, E|apply H6, E].
Qed.
