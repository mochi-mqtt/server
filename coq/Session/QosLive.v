(* C11 (liveness) and C08 (whole histories): statements over runs. *)
From MV Require Import Base.Val Session.Pkt Session.Inflight Session.InflightProofs Session.QosProofs.
From Coq Require Import Lia.
Open Scope N_scope.

(* the situation flow control creates: connected, a maximum in force, the quota used up *)
Record waiting (c : cfg) (s : st) : Prop := {
  w_wf : wf c s;
  w_live : s_present s = true /\ s_conn s = true;
  w_quota : s_sendq s = 0%Z /\ (0 < s_maxsend s)%Z }.

(* an acknowledgement that ends an outbound flow whose message had been handed to the connection *)
Definition ends_flow (s : st) (o : op) : Prop :=
  match o with
  | InAck ty p _ _ => (ty = T_PUBACK \/ ty = T_PUBCOMP) /\ exists r, get p (s_infl s) = Some r /\ sent_out r = true
  | _ => False
  end.

Definition ack_pid (o : op) : N := match o with InAck _ q _ _ => q | _ => 0 end.
Definition pkt_of_held (kv : N * rec) : out := OPkt T_PUBLISH (fst kv) false (r_qos (snd kv)) (r_uid (snd kv)) 0.

(* such an acknowledgement returns one unit, which the post-packet block spends at once on a waiting message *)
Lemma release_step c s o orc k0 r0 :
  cfg_ok c -> op_ok o -> waiting c s -> ends_flow s o ->
  get k0 (s_infl s) = Some r0 -> (r_expiry r0 < 0)%Z ->
  exists p r,
    get p (s_infl s) = Some r /\ (r_expiry r < 0)%Z /\
    (forall k' r', get k' (s_infl s) = Some r' -> (r_expiry r' < 0)%Z -> (key16 r <= key16 r')%Z) /\
    snd (step c s o orc) = [pkt_of_held (p, r)] /\
    waiting c (fst (step c s o orc)) /\
    s_infl (fst (step c s o orc)) = del p (del (ack_pid o) (s_infl s)) /\ p <> ack_pid o.
Proof.
  intros C O [W [Pr Cn] [Q0 Mx]] EF G0 E0.
  destruct o; cbn [ends_flow] in EF; try contradiction. destruct EF as [Ty (ra & Ga & Sa)].
  assert (W' : wf c (fst (step c s (InAck ty pid rc now) orc))) by (apply step_wf; assumption).
  cbn [step ack_pid] in *. rewrite Pr, Cn in *. cbn [andb] in *.
  (* the acknowledged record is not one of the waiting ones *)
  assert (Ma : forall k r, get k (s_infl s) = Some r -> (r_expiry r < 0)%Z -> k <> pid).
  { intros k r G E ->. rewrite Ga in G. inversion G; subst. apply sent_not_marked in Sa. apply marked_iff in E. congruence. }
  (* the state the handler leaves for the post-packet block *)
  assert (Shape : exists s0, in_ack c s ty pid rc now orc = deferred s0 orc /\
                  s_infl s0 = del pid (s_infl s) /\ s_sendq s0 = 1%Z /\ s_conn s0 = true /\ s_present s0 = true /\
                  s_maxsend s0 = s_maxsend s).
  { assert (I1 : inc (s_sendq s) (s_maxsend s) = 1%Z) by (rewrite inc_up, Q0 by lia; reflexivity).
    unfold in_ack. destruct Ty as [-> | ->]; [cbn [N.eqb Pos.eqb T_PUBACK]; rewrite Ga|cbn [N.eqb Pos.eqb T_PUBACK T_PUBREC T_PUBREL T_PUBCOMP]];
      (eexists; split; [reflexivity|]); sproj; auto. }
  destruct Shape as (s0 & Es & Ei & Eq & Ec & Ep & Em). rewrite Es in *.
  assert (I0 : imm_ok (s_infl s0)) by (rewrite Ei; apply imm_ok_del, (imm_ok_wf c), W).
  destruct (deferred_cases s0 orc I0) as [[_ N]|(p & r & Gp & Epx & _ & _ & Min & Ed)].
  { rewrite Eq, Ei in N. specialize (N Z.lt_0_1 k0 r0). rewrite get_del_other in N by exact (Ma k0 r0 G0 E0).
    destruct (Z.lt_irrefl _ (Z.lt_le_trans _ _ _ E0 (N G0))). }
  rewrite Ed in *. cbn [fst snd] in *. rewrite Ec. rewrite Ei in Gp. apply get_del_some in Gp. destruct Gp as [Gp Npp].
  exists p, r. split; [exact Gp|]. split; [exact Epx|]. split.
  { intros k' r' G' E'. apply (Min k' r'); [|exact E']. rewrite Ei, get_del_other; [exact G'|exact (Ma k' r' G' E')]. }
  split; [reflexivity|]. split.
  { constructor; [exact W'|sproj; tauto|sproj]. rewrite Eq, Em. cbn. tauto. }
  sproj. rewrite Ei. split; [reflexivity|exact Npp].
Qed.

(* C11, liveness over histories.  The client acknowledges promptly: a run of acknowledgements (PUBACK / PUBCOMP), each
   ending an outbound flow whose message was handed to the connection, no more of them than messages are waiting.
   Then every acknowledgement releases exactly one held-back message in the same step, the released messages come in
   non-decreasing uint16(Created) order (oldest first, modulo KF_C12_created_order), and afterwards exactly that many
   fewer are waiting.  What this does NOT give - the finding KF_C11_send_quota_lost - is a release for the
   acknowledgements of the released messages themselves: their records are gone (KF_C09_deferred). *)
Theorem release_run c : cfg_ok c -> forall acks s,
  waiting c s ->
  (forall o orc, In (o, orc) acks -> op_ok o /\ ends_flow s o) ->
  NoDup (map (fun x => ack_pid (fst x)) acks) ->
  (Z.of_nat (length acks) <= n_f marked (s_infl s))%Z ->
  exists rel,
    concat (snd (run c s acks)) = map pkt_of_held rel /\
    length rel = length acks /\
    (forall k r, In (k, r) rel -> get k (s_infl s) = Some r /\ (r_expiry r < 0)%Z) /\
    sorted_keys (map (fun kv => key16 (snd kv)) rel) /\
    waiting c (fst (run c s acks)) /\
    n_f marked (s_infl (fst (run c s acks))) = (n_f marked (s_infl s) - Z.of_nat (length acks))%Z /\
    (forall k r, get k (s_infl s) = Some r -> (r_expiry r < 0)%Z ->
                 In (k, r) rel \/ get k (s_infl (fst (run c s acks))) = Some r).
Proof.
  intros C. induction acks as [|[o orc] acks IH]; intros s Wt Ok Nd Le.
  - exists []. cbn [run fst snd concat map length].
    split; [reflexivity|]. split; [reflexivity|]. split; [intros k r []|]. split; [exact Logic.I|].
    split; [exact Wt|]. split; [cbn; lia|]. intros k r G E. right. exact G.
  - destruct (Ok o orc (or_introl eq_refl)) as [Oo Ef]. pose proof (wf_nodup c s (w_wf c s Wt)) as Nds.
    (* some message is waiting *)
    destruct (n_f_ex marked (s_infl s) Nds) as (k0 & r0 & G0 & E0); [cbn [length] in Le; lia|]. apply marked_iff in E0.
    destruct (release_step c s o orc k0 r0 C Oo Wt Ef G0 E0) as (p & r & Gp & Ep & Min & Out & Wt1 & Inf & Npq).
    set (s1 := fst (step c s o orc)) in *.
    assert (Ack : exists ra, get (ack_pid o) (s_infl s) = Some ra /\ marked ra = false).
    { destruct o; cbn [ends_flow ack_pid] in *; try contradiction. destruct Ef as [_ (ra & Ga & Sa)].
      exists ra. split; [exact Ga|exact (sent_not_marked ra Sa)]. }
    destruct Ack as (ra & Ga & Ma).
    assert (Cnt : n_f marked (s_infl s1) = (n_f marked (s_infl s) - 1)%Z).
    { rewrite Inf. rewrite n_f_del by (apply nodup_del; exact Nds). rewrite n_f_del by exact Nds.
      rewrite get_del_other by exact Npq. rewrite Gp, Ga. cbn [cnt]. rewrite Ma, (proj2 (marked_iff r) Ep). cbn. lia. }
    assert (Sub : submap (s_infl s1) (s_infl s)) by (rewrite Inf; eapply sub_trans; apply sub_del).
    assert (Rest : forall k x, get k (s_infl s) = Some x -> k <> p -> k <> ack_pid o -> get k (s_infl s1) = Some x)
      by (intros k x G N1 N2; rewrite Inf, !get_del_other by assumption; exact G).
    (* the remaining acknowledgements still end flows *)
    assert (Ok1 : forall o' orc', In (o', orc') acks -> op_ok o' /\ ends_flow s1 o').
    { intros o' orc' I. destruct (Ok o' orc' (or_intror I)) as [A B]. split; [exact A|].
      destruct o'; cbn [ends_flow] in *; try contradiction. destruct B as [Ty (rb & Gb & Sb)].
      split; [exact Ty|]. exists rb. split; [|exact Sb]. inversion Nd as [|? ? NI _]; subst. apply Rest; [exact Gb| |].
      - intros ->. rewrite Gp in Gb. inversion Gb; subst. apply sent_not_marked in Sb. apply marked_iff in Ep. congruence.
      - intros E. apply NI. apply in_map_iff. exists (InAck ty pid rc now, orc'). split; [cbn; exact E|exact I]. }
    assert (Nd1 : NoDup (map (fun x => ack_pid (fst x)) acks)) by (inversion Nd; assumption).
    assert (Le1 : (Z.of_nat (length acks) <= n_f marked (s_infl s1))%Z) by (cbn [length] in Le; lia).
    destruct (IH s1 Wt1 Ok1 Nd1 Le1) as (rel & Ec & El & Er & Es & Ew & En & Ea).
    exists ((p, r) :: rel). rewrite run_cons. cbn [fst snd concat]. fold s1. rewrite Out, Ec.
    split; [reflexivity|]. split; [cbn [length]; lia|]. split.
    { intros k r1 [E|I]; [inversion E; subst; tauto|]. destruct (Er k r1 I) as [A B]. split; [apply Sub; exact A|exact B]. }
    split.
    { cbn [map snd]. destruct rel as [|[k1 r1] rel']; [exact Logic.I|]. cbn [map snd]. split; [|exact Es].
      destruct (Er k1 r1 (or_introl eq_refl)) as [A B]. apply (Min k1 r1); [apply Sub; exact A|exact B]. }
    split; [exact Ew|]. split; [rewrite En, Cnt; cbn [length]; lia|].
    intros k r1 G E. destruct (N.eq_dec k p) as [->|Ne].
    { left. left. rewrite Gp in G. inversion G; subst. reflexivity. }
    destruct (Ea k r1) as [I|Gf]; [apply Rest; [exact G|exact Ne|]|exact E|left; right; exact I|right; exact Gf].
    intros ->. rewrite Ga in G. inversion G; subst. apply marked_iff in E. congruence.
Qed.

(* ... so if as many acknowledgements arrive as messages are waiting, every one of them has been transmitted *)
Corollary all_released c : cfg_ok c -> forall acks s,
  waiting c s ->
  (forall o orc, In (o, orc) acks -> op_ok o /\ ends_flow s o) ->
  NoDup (map (fun x => ack_pid (fst x)) acks) ->
  Z.of_nat (length acks) = n_f marked (s_infl s) ->
  forall k r, get k (s_infl s) = Some r -> (r_expiry r < 0)%Z ->
  In (OPkt T_PUBLISH k false (r_qos r) (r_uid r) 0) (concat (snd (run c s acks))).
Proof.
  intros C acks s Wt Ok Nd Le k r G E.
  destruct (release_run c C acks s Wt Ok Nd ltac:(lia)) as (rel & Ec & _ & _ & _ & _ & En & Ea).
  rewrite Ec. destruct (Ea k r G E) as [I|Gf].
  - apply (in_map pkt_of_held) in I. exact I.
  - exfalso. assert (P : (1 <= n_f marked (s_infl (fst (run c s acks))))%Z).
    { apply (n_f_pos marked k r); [exact Gf|unfold marked; lia]. }
    lia.
Qed.

(* C11, sending side, in the property's words: along every history from the start that avoids the listed
   accounting defects, the stored outbound messages that have been handed to the connection and are not yet
   acknowledged never outnumber the receive maximum in force *)
Corollary in_transit_bounded c : cfg_ok c -> forall h,
  hist_ok h -> clean_send c init_st h = true ->
  let s := fst (run c init_st h) in
  (0 < s_maxsend s)%Z -> (n_f sent_out (s_infl s) <= s_maxsend s)%Z.
Proof.
  intros C h H Cl. apply (run_sbal c C h init_st H (wf_init c) sbal_init Cl).
Qed.

Definition no_uid (uid : N) (o : op) : Prop := match o with InPublish _ _ _ u _ => u <> uid | _ => True end.

Lemma run_no_fwd c uid : forall h s,
  (forall o orc, In (o, orc) h -> no_uid uid o) -> count_fwd uid (concat (snd (run c s h))) = 0%nat.
Proof.
  intros h s H.
  refine (run_inv (fun _ O => count_fwd uid O = 0%nat) (no_uid uid) c _ h s [] eq_refl H).
  intros s1 O o orc Z NU. rewrite count_fwd_app, Z, step_count_fwd. destruct o; try reflexivity.
  cbn [no_uid] in NU. replace (uid0 =? uid) with false by lia. rewrite andb_false_r. reflexivity.
Qed.

(* C08: the whole history.  [pre] is anything that does not publish message uid; then the client's first PUBLISH of
   it (QoS 2, identifier pid) arrives at a connected, persistent session with receive quota left and no open exchange
   under pid; [h1] is the open exchange - retransmissions in any number, disconnections, reconnections with the
   session, other traffic, for every oracle - without an acknowledgement packet carrying pid (KF_C08_cross_ack), expiry
   or session end; [tail] starts when the exchange is over (the client's PUBREL pid, or anything else) and never publishes
   uid again.  The message is forwarded exactly once in the whole output. *)
Theorem once_whole c pid uid dup now orc0 pre h1 tail :
  cfg_ok c -> (0 <= now)%Z -> hist_ok pre ->
  (forall o orc, In (o, orc) pre -> no_uid uid o) ->
  (forall o orc, In (o, orc) tail -> no_uid uid o) ->
  let s := fst (run c init_st pre) in
  persistent s -> s_conn s = true -> (s_recvq s =? 0)%Z = false -> retrans s pid = false ->
  quiet pid uid h1 ->
  count_fwd uid (concat (snd (run c init_st (pre ++ ((InPublish 2 pid dup uid now, orc0) :: h1) ++ tail)))) = 1%nat.
Proof.
  intros C Nw Hp NUp NUt s P Cn Q R Qh.
  rewrite run_app. cbn [snd]. rewrite concat_app, count_fwd_app.
  rewrite (run_no_fwd c uid pre init_st NUp). cbn [Nat.add]. fold s.
  rewrite run_app. cbn [snd]. rewrite concat_app, count_fwd_app.
  rewrite (run_no_fwd c uid tail _ NUt). rewrite Nat.add_0_r.
  apply exactly_once; try assumption.
  apply run_wf; [exact C|exact Hp|apply wf_init].
Qed.
