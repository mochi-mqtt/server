(* C13 at the connected-client limit.  The sequential life-cycle model assumes MaximumClients is not
   reached; the refusal at the limit (server.go attachClient: the early check and reserveClientSlot,
   both answered by refuseClientLimit = a failure CONNACK) is modelled with its interleavings in
   Conc/Limit.v (C35).  This file reads the forced schedules of that engine
   (harness/cmd/hx/eng_limit.go: every interleaving of the atomic steps of concurrent attempts at
   limits 1-3) with the C13 clause:

     the first packet a connection receives is a CONNACK; an attempt refused at the limit receives
     the failure CONNACK of its protocol version (0x89 Server busy for MQTT 5, 0x03 Server
     unavailable for MQTT 3.x) - never a DISCONNECT or nothing at all.

   Observation (per case): the schedule entries and, for every attempt, the reason code of the
   CONNACK at the START of what it received (255 = its first packet is not a CONNACK / nothing
   received).  Which attempts have been decided by the end of the schedule is read off the model
   replay of the observed schedule (an undecided attempt has received nothing). *)
From MV Require Import Base.Val Base.Sched Conc.Limit Conc.LimitProofs.
Open Scope Z_scope.

Definition decided (st : status) : bool := match st with Idle => false | _ => true end.

(* the specification clause, on what attempt (sp) received first *)
Definition first_ok (sp : tspec) (st : status) (code : N) : bool :=
  negb (decided st) || (negb (code =? 255)%N && obs_code_ok sp code).

Definition end_cfg (es : list entry) (c : cfg lstate instr) : cfg lstate instr :=
  fold_left (fun c e => fst (step_thread exec (e_tid e) c)) es c.

Fixpoint zip3 {A B C} (a : list A) (b : list B) (c : list C) : option (list (A * B * C)) :=
  match a, b, c with
  | [], [], [] => Some []
  | x :: a', y :: b', z :: c' => match zip3 a' b' c' with Some r => Some ((x, y, z) :: r) | None => None end
  | _, _, _ => None
  end.

(* ENGINE life13limit Session.LifeLimit.life13limit_engine *)
Definition life13limit_engine (v : val) : val :=
  match v with
  | VL [VN max; VL specs; VL entries; VL finals] =>
      match map_opt as_spec specs, map_opt as_entry entries, map_opt as_N finals with
      | Some sps, Some es, Some fs =>
          let c := end_cfg es (limit_threads (Z.of_N max) sps) in
          match zip3 sps (l_stats (shared c)) fs with
          | Some rows =>
              let bad := existsb (fun r => match r with (sp, st, f) => negb (first_ok sp st f) end) rows in
              let mismatch := existsb (fun r => match r with (_, st, f) => negb (f =? expected_code st)%N end) rows in
              let refused := existsb (fun r => match r with (_, st, _) => match st with Refused _ => true | _ => false end end) rows in
              verdict (if bad then 1 else if mismatch then 2 else 0)%N
                      (if refused then tag "limit-refusal" else tag "limit-no-refusal")
                      (existsb (fun r => match r with (_, st, _) => decided st end) rows) []
          | None => bad_case
          end
      | _, _, _ => bad_case
      end
  | _ => bad_case
  end.

(* In the model, for every schedule: a refused attempt was answered by the failure CONNACK of its
   protocol version (the status [Refused k] stands for "failure CONNACK with reason k sent,
   connection closed"). *)
Theorem refusal_is_connack max specs sched t k :
  stat t (run exec sched (limit_threads max specs)) = Some (Refused k) ->
  exists sp, nth_error specs t = Some sp /\ k = refusal_code (ts_ver sp).
Proof. exact (refused_code max specs sched t k). Qed.
