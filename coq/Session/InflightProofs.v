(* What all of C08-C12 rest on.  The invariant wf is kept by every operation from every state, hence along
   every history, for every oracle.  Each handler of Inflight.v gets one normal form for the later files to
   reason with: publishToClient either leaves the state alone or stores one record under a fresh identifier
   (out_publish_cases); a packet handler is a few updates of the record under the packet's OWN identifier
   and of the quotas (moves), then the post-packet block (handled); a reconnection yields a fresh
   connection state over a sub-map of the stored records and resends GetAll's order (reconnect_cases). *)
From MV Require Import Base.Val Base.ListMisc Topics.Alist Topics.AlistProofs Session.Pkt Session.Inflight.
From Coq Require Import Lia ZifyBool.
Open Scope N_scope.

Definition keys (m : imap) : list N := map fst m.

(* [get], [del] and [mem] are al_get, al_del and al_mem of Topics/Alist.v at N.eqb, by conversion, and take their lemmas
   from Topics/AlistProofs.v; [set] is not al_set (it puts the new binding in front) *)
Lemma get_del_same k m : get k (del k m) = None.
Proof. exact (al_get_del_same k m). Qed.

Lemma get_del_other k k' m : k <> k' -> get k (del k' m) = get k m.
Proof. exact (al_get_del_other N.eqb_eq k' k m). Qed.

Lemma get_set_same k v m : get k (set k v m) = Some v.
Proof. unfold set. cbn. rewrite N.eqb_refl. reflexivity. Qed.

Lemma get_set_other k k' v m : k <> k' -> get k (set k' v m) = get k m.
Proof.
  intros N. unfold set. cbn. destruct (k' =? k) eqn:E; [lia|]. apply get_del_other. exact N.
Qed.

Lemma get_in k r m : get k m = Some r -> In (k, r) m.
Proof. exact (al_get_In N.eqb_eq k r m). Qed.

Lemma get_in_keys k m r : get k m = Some r -> In k (keys m).
Proof. intros G. apply get_in in G. exact (in_map fst _ _ G). Qed.

Lemma notin_get_none k m : ~ In k (keys m) -> get k m = None.
Proof. apply (al_get_None_notin N.eqb_eq k m). Qed.

Lemma get_none_notin k m : get k m = None -> ~ In k (keys m).
Proof. apply (al_get_None_notin N.eqb_eq k m). Qed.

Lemma in_get k r m : NoDup (keys m) -> In (k, r) m -> get k m = Some r.
Proof. exact (In_al_get N.eqb_eq k r m). Qed.

Lemma get_del_some k k' m r : get k (del k' m) = Some r -> get k m = Some r /\ k <> k'.
Proof.
  intros H. destruct (N.eq_dec k k') as [->|N].
  - rewrite get_del_same in H. discriminate.
  - rewrite get_del_other in H by exact N. tauto.
Qed.

Lemma del_absent k m : get k m = None -> del k m = m.
Proof. exact (al_del_absent k m). Qed.

Lemma set_fresh k v m : get k m = None -> set k v m = (k, v) :: m.
Proof. intros G. unfold set. rewrite del_absent by exact G. reflexivity. Qed.

Lemma get_cons_fresh i v k r m : get i m = None -> get k m = Some r -> get k ((i, v) :: m) = Some r.
Proof. intros Gi G. cbn [get]. destruct (i =? k) eqn:E; [|exact G]. replace i with k in Gi by lia. congruence. Qed.

Lemma nodup_del k m : NoDup (keys m) -> NoDup (keys (del k m)).
Proof. exact (NoDup_al_del k m). Qed.

Lemma nodup_set k v m : NoDup (keys m) -> NoDup (keys (set k v m)).
Proof.
  intros H. unfold set. cbn. constructor; [|apply nodup_del; exact H].
  apply get_none_notin, get_del_same.
Qed.

Lemma mem_true_iff k m : mem k m = true <-> exists r, get k m = Some r.
Proof. unfold mem. destruct (get k m); split; intros H; eauto; try discriminate. destruct H; discriminate. Qed.

Lemma mem_false_iff k m : mem k m = false <-> get k m = None.
Proof. unfold mem. destruct (get k m); split; intros H; congruence. Qed.

Lemma nodup_filter (f : N * rec -> bool) m : NoDup (keys m) -> NoDup (keys (filter f m)).
Proof. exact (NoDup_map_filter fst f m). Qed.

Lemma get_filter (f : N * rec -> bool) k r m :
  NoDup (keys m) -> get k (filter f m) = Some r -> get k m = Some r /\ f (k, r) = true.
Proof.
  intros N G. apply get_in in G. apply filter_In in G. destruct G as [I F].
  split; [apply in_get; assumption|exact F].
Qed.

Definition submap (m' m : imap) : Prop := forall k r, get k m' = Some r -> get k m = Some r.

Lemma sub_refl m : submap m m.
Proof. intros k r G. exact G. Qed.
Lemma sub_trans a b d : submap a b -> submap b d -> submap a d.
Proof. intros H1 H2 k r G. apply H2, H1, G. Qed.
Lemma sub_del k m : submap (del k m) m.
Proof. intros k0 r G. apply get_del_some in G. tauto. Qed.
Lemma sub_filter f m : NoDup (keys m) -> submap (filter f m) m.
Proof. intros N k r G. eapply get_filter; eassumption. Qed.

Lemma len_pos k r m : get k m = Some r -> (0 <? len m) = true.
Proof. unfold len. destruct m; [discriminate|]. cbn [length]. lia. Qed.

Lemma dec_range q m : (0 <= q <= m)%Z -> (0 <= dec q <= m)%Z.
Proof. unfold dec. destruct (0 <? q)%Z eqn:E; lia. Qed.
Lemma inc_range q m : (0 <= q <= m)%Z -> (0 <= inc q m <= m)%Z.
Proof. unfold inc. destruct (q <? m)%Z eqn:E; lia. Qed.
Lemma inc_le q m : (q <= inc q m <= q + 1)%Z.
Proof. unfold inc. destruct (q <? m)%Z; lia. Qed.
Lemma inc_up q m : (q < m)%Z -> inc q m = (q + 1)%Z.
Proof. unfold inc. destruct (q <? m)%Z eqn:E; lia. Qed.
Lemma inc_full q m : (m <= q)%Z -> inc q m = q.
Proof. unfold inc. destruct (q <? m)%Z eqn:E; lia. Qed.

Lemma teardown_cases s :
  (s_exp s = true /\ teardown s = init_st) \/ (s_exp s = false /\ teardown s = with_conn s false).
Proof. unfold teardown. destruct (s_exp s); auto. Qed.

Lemma pkt_of_rec_publish d p r :
  r_ty r = T_PUBLISH -> pkt_of_rec d p r = OPkt T_PUBLISH p d (r_qos r) (r_uid r) 0.
Proof. intros T. unfold pkt_of_rec. rewrite T. reflexivity. Qed.

Lemma pkt_of_rec_inv d k r p d' q u rc :
  pkt_of_rec d k r = OPkt T_PUBLISH p d' q u rc -> r_ty r = T_PUBLISH /\ p = k /\ d' = d /\ q = r_qos r /\ u = r_uid r.
Proof.
  unfold pkt_of_rec. destruct (r_ty r =? T_PUBLISH) eqn:E; intros H; inversion H; subst; [|lia]. repeat split. lia.
Qed.

Lemma next_pid_loop_sound fuel maxpid m started i ov p :
  next_pid_loop fuel maxpid m started i ov = Some p -> 1 <= p <= maxpid /\ mem p m = false.
Proof.
  revert i ov. induction fuel as [|f IH]; cbn; intros i ov H; [discriminate|].
  destruct (ov && (i =? started)); [discriminate|].
  destruct (maxpid <=? i) eqn:E; [eapply IH; exact H|].
  destruct (mem (i + 1) m) eqn:M; [eapply IH; exact H|].
  inversion H; subst. split; [lia|exact M].
Qed.

Lemma next_pid_sound c s p :
  next_pid c s = Some p -> 1 <= p <= c_maxpid c /\ get p (s_infl s) = None.
Proof.
  unfold next_pid. intros H. apply next_pid_loop_sound in H. destruct H as [A B].
  split; [exact A|]. apply mem_false_iff. exact B.
Qed.

Lemma in_insert16 x kv l : In x (insert16 kv l) <-> x = kv \/ In x l.
Proof.
  induction l as [|y l IH]; cbn; [intuition congruence|].
  destruct (key16 (snd y) <=? key16 (snd kv))%Z; cbn; [rewrite IH|]; intuition congruence.
Qed.

Lemma in_sort16 x m : In x (sort16 m) <-> In x m.
Proof.
  unfold sort16. rewrite (in_rev m). induction (rev m) as [|y l IH]; cbn; [tauto|].
  rewrite in_insert16, IH. intuition congruence.
Qed.

Lemma sorted16_insert kv l : sorted16 l = true -> sorted16 (insert16 kv l) = true.
Proof.
  induction l as [|y l IH]; intros S; [reflexivity|].
  cbn [insert16]. destruct (key16 (snd y) <=? key16 (snd kv))%Z eqn:E.
  - destruct l as [|z l].
    + cbn. rewrite E. reflexivity.
    + cbn [sorted16] in S. apply andb_prop in S. destruct S as [S1 S2].
      specialize (IH S2). cbn [insert16] in IH |- *.
      destruct (key16 (snd z) <=? key16 (snd kv))%Z eqn:E2.
      * cbn [sorted16]. rewrite S1. exact IH.
      * cbn [sorted16]. rewrite E. cbn [sorted16] in IH. exact IH.
  - cbn [sorted16]. destruct l; cbn [sorted16] in *; rewrite ?S; apply andb_true_intro; split; try lia; exact S.
Qed.

Lemma sorted16_sort m : sorted16 (sort16 m) = true.
Proof.
  unfold sort16. induction (rev m) as [|y l IH]; [reflexivity|]. cbn [fold_right]. apply sorted16_insert. exact IH.
Qed.

Lemma sorted16_head_min l kv : sorted16 (kv :: l) = true -> forall x, In x l -> (key16 (snd kv) <= key16 (snd x))%Z.
Proof.
  revert kv. induction l as [|y l IH]; intros kv S x I; [destruct I|].
  cbn [sorted16] in S. apply andb_prop in S. destruct S as [S1 S2].
  destruct I as [->|I]; [lia|]. specialize (IH y S2 x I). lia.
Qed.

Lemma in_lookup_all orc m k r : In (k, r) (lookup_all orc m) -> get k m = Some r.
Proof.
  induction orc as [|p orc IH]; cbn; [tauto|].
  destruct (get p m) eqn:G; [|exact IH]. intros [E|I]; [inversion E; subst; exact G|apply IH; exact I].
Qed.

Lemma in_lookup_all_complete orc m k r : In k orc -> get k m = Some r -> In (k, r) (lookup_all orc m).
Proof.
  induction orc as [|p orc IH]; cbn; [tauto|].
  intros [->|I] G; [rewrite G; left; reflexivity|].
  destruct (get p m); [right|]; apply IH; assumption.
Qed.

Lemma nodupb_NoDup l : nodupb l = true -> NoDup l.
Proof.
  induction l as [|x l IH]; cbn; intros H; [constructor|].
  apply andb_prop in H. destruct H as [A B]. constructor; [|apply IH; exact B].
  intros I. apply (existsb_eqb_In N.eqb N.eqb_eq) in I. rewrite I in A. discriminate.
Qed.

Lemma get_all_spec orc m : NoDup (keys m) ->
  sorted16 (get_all orc m) = true /\ forall k r, In (k, r) (get_all orc m) <-> get k m = Some r.
Proof.
  intros N. unfold get_all. destruct (valid_order orc m) eqn:V.
  - unfold valid_order in V. apply andb_prop in V. destruct V as [V S]. split; [exact S|].
    apply andb_prop in V. destruct V as [V F]. apply andb_prop in V. destruct V as [L D].
    intros k r. split; [apply in_lookup_all|]. intros G. apply in_lookup_all_complete; [|exact G].
    (* orc has no duplicates, lists only keys of m and is as long as m: it lists every key *)
    apply (NoDup_length_incl (l' := keys m) (nodupb_NoDup orc D));
      [unfold keys; rewrite map_length; apply Nat.eqb_eq in L; lia| |eapply get_in_keys; exact G].
    intros p I. rewrite forallb_forall in F. specialize (F p I). apply mem_true_iff in F. destruct F as [x Gx].
    eapply get_in_keys; exact Gx.
  - split; [apply sorted16_sort|]. intros k r. rewrite in_sort16. split; [apply in_get; exact N|apply get_in].
Qed.

Lemma get_all_nil orc : get_all orc [] = [].
Proof.
  unfold get_all, valid_order. destruct orc; [reflexivity|]. reflexivity.
Qed.

Lemma next_immediate_spec orc m p r :
  NoDup (keys m) -> next_immediate orc m = Some (p, r) ->
  get p m = Some r /\ (r_expiry r < 0)%Z /\
  forall k' r', get k' m = Some r' -> (r_expiry r' < 0)%Z -> (key16 r <= key16 r')%Z.
Proof.
  intros N H. unfold next_immediate in H.
  destruct (sort16 (immediates m)) as [|[p0 r0] rest] eqn:S; [discriminate|].
  assert (Fin : forall q x, get q (immediates m) = Some x -> get q m = Some x /\ (r_expiry x < 0)%Z).
  { intros q x G. apply get_filter in G; [|exact N]. cbn in G. split; [tauto|lia]. }
  assert (H0 : get p0 (immediates m) = Some r0).
  { apply in_get; [apply nodup_filter; exact N|]. apply in_sort16. rewrite S. left. reflexivity. }
  assert (Min : forall k' r', get k' m = Some r' -> (r_expiry r' < 0)%Z -> (key16 r0 <= key16 r')%Z).
  { intros k' r' G E.
    assert (I : In (k', r') (sort16 (immediates m))).
    { apply in_sort16. apply filter_In. split; [apply get_in; exact G|cbn; lia]. }
    rewrite S in I. destruct I as [Eq|I]; [inversion Eq; lia|].
    pose proof (sorted16_sort (immediates m)) as So. rewrite S in So.
    apply (sorted16_head_min rest (p0, r0) So (k', r') I). }
  (* the oracle's candidate is taken only if its key equals the smallest one *)
  assert (Alt : forall q x, get q (immediates m) = Some x -> (key16 x =? key16 r0)%Z = true -> (p, r) = (q, x) ->
                get p m = Some r /\ (r_expiry r < 0)%Z /\
                forall k' r', get k' m = Some r' -> (r_expiry r' < 0)%Z -> (key16 r <= key16 r')%Z).
  { intros q x G E Eq. inversion Eq; subst. destruct (Fin _ _ G). repeat split; try assumption.
    intros k' r' G' E'. specialize (Min k' r' G' E'). lia. }
  pose proof (Alt p0 r0 H0 (Z.eqb_refl _)) as A0.
  destruct orc as [|q orc]; [apply A0; congruence|].
  destruct (get q (immediates m)) as [x|] eqn:G; [|apply A0; congruence].
  destruct (key16 x =? key16 r0)%Z eqn:E; [apply (Alt q x G E)|apply A0]; congruence.
Qed.

Lemma next_immediate_some orc m k r :
  get k m = Some r -> (r_expiry r < 0)%Z -> next_immediate orc m <> None.
Proof.
  intros G E. unfold next_immediate.
  destruct (sort16 (immediates m)) as [|[p1 r1] rest] eqn:S.
  - assert (I : In (k, r) (sort16 (immediates m))).
    { apply in_sort16. apply filter_In. split; [apply get_in; exact G|cbn; lia]. }
    rewrite S in I. destruct I.
  - destruct orc as [|q orc]; [discriminate|].
    destruct (get q (immediates m)) as [x|]; [destruct (key16 x =? key16 r1)%Z|]; discriminate.
Qed.

Ltac sproj := cbn [s_infl s_sendq s_recvq s_maxsend s_maxrecv s_present s_conn s_v5 s_clean s_exp s_pid
                      with_infl with_sendq with_recvq with_pid with_conn fresh init_st].
Ltac sproj_in H := cbn [s_infl s_sendq s_recvq s_maxsend s_maxrecv s_present s_conn s_v5 s_clean s_exp s_pid
                      with_infl with_sendq with_recvq with_pid with_conn fresh init_st] in H.

Definition cfg_ok (c : cfg) : Prop := (0 <= c_srvrm c)%Z /\ (0 <= c_maxexp c)%Z.

(* wall-clock readings are not negative *)
Definition op_ok (o : op) : Prop :=
  match o with
  | OutPublish _ _ _ _ now _ _ _ | InPublish _ _ _ _ now | InAck _ _ _ now | Expire now => (0 <= now)%Z
  | _ => True
  end.

Record wf (c : cfg) (s : st) : Prop := {
  wf_nodup : NoDup (keys (s_infl s));
  wf_sq : (0 <= s_sendq s <= s_maxsend s)%Z;
  wf_rq : (0 <= s_recvq s <= s_maxrecv s)%Z;
  (* outbound PUBLISH records sit under identifiers handed out by NextPacketID *)
  wf_pub : forall k r, get k (s_infl s) = Some r -> r_ty r = T_PUBLISH -> 1 <= k <= c_maxpid c;
  (* only outbound PUBLISH records carry the "send when quota frees" mark *)
  wf_imm : forall k r, get k (s_infl s) = Some r -> (r_expiry r < 0)%Z -> r_ty r = T_PUBLISH }.

Lemma wf_init c : wf c init_st.
Proof. constructor; cbn; try lia; [constructor|discriminate|discriminate]. Qed.

Lemma wf_sub c s s' :
  wf c s -> NoDup (keys (s_infl s')) -> submap (s_infl s') (s_infl s) ->
  (0 <= s_sendq s' <= s_maxsend s')%Z -> (0 <= s_recvq s' <= s_maxrecv s')%Z ->
  wf c s'.
Proof.
  intros W N S Q R. constructor; try assumption; intros k r G T.
  - eapply (wf_pub c s W). apply S; eassumption. exact T.
  - eapply (wf_imm c s W). apply S; eassumption. exact T.
Qed.

Lemma wf_del c s k : wf c s -> wf c (with_infl s (del k (s_infl s))).
Proof. intros W. apply (wf_sub c s _ W); sproj; try apply W; [apply nodup_del, W|apply sub_del]. Qed.

Lemma wf_sendq c s q : wf c s -> (0 <= q <= s_maxsend s)%Z -> wf c (with_sendq s q).
Proof. intros W Q. apply (wf_sub c s _ W); sproj; try apply W; [apply sub_refl|exact Q]. Qed.
Lemma wf_recvq c s q : wf c s -> (0 <= q <= s_maxrecv s)%Z -> wf c (with_recvq s q).
Proof. intros W Q. apply (wf_sub c s _ W); sproj; try apply W; [apply sub_refl|exact Q]. Qed.
Lemma wf_conn c s b : wf c s -> wf c (with_conn s b).
Proof. intros W. apply (wf_sub c s _ W); sproj; try apply W. apply sub_refl. Qed.

Lemma wf_set c s k r :
  wf c s -> (r_ty r = T_PUBLISH -> 1 <= k <= c_maxpid c) -> ((r_expiry r < 0)%Z -> r_ty r = T_PUBLISH) ->
  wf c (with_infl s (set k r (s_infl s))).
Proof.
  intros W P I. constructor; sproj; try apply W; [apply nodup_set, W| |]; intros k0 r0 G;
    (destruct (N.eq_dec k0 k) as [->|Ne];
     [rewrite get_set_same in G; inversion G; subst; assumption|rewrite get_set_other in G by exact Ne]).
  - eapply (wf_pub c s W); eassumption.
  - eapply (wf_imm c s W); eassumption.
Qed.

Lemma wf_teardown c s : wf c s -> wf c (teardown s).
Proof. intros W. destruct (teardown_cases s) as [[_ ->]|[_ ->]]; [apply wf_init|apply wf_conn; exact W]. Qed.

Lemma let_pair {A B C} (p : A * B) (f : A -> B -> C) : (let '(a, b) := p in f a b) = f (fst p) (snd p).
Proof. destruct p; reflexivity. Qed.

Lemma fst_let {A B C} (p : A * B) (f : B -> C) : fst (let '(a, b) := p in (a, f b)) = fst p.
Proof. destruct p; reflexivity. Qed.

Lemma deferred_shape s orc :
  (deferred s orc = (s, []) /\
   ((0 < s_sendq s)%Z -> forall k r, get k (s_infl s) = Some r -> next_immediate orc (s_infl s) = None)) \/
  exists p r, next_immediate orc (s_infl s) = Some (p, r) /\ (0 < s_sendq s)%Z /\
    deferred s orc = (with_sendq (with_infl s (del p (s_infl s))) (dec (s_sendq s)),
                      if s_conn s then [pkt_of_rec false p r] else []).
Proof.
  unfold deferred. destruct ((0 <? len (s_infl s)) && (0 <? s_sendq s)%Z) eqn:E.
  - destruct (next_immediate orc (s_infl s)) as [[p r]|]; [right|left; auto].
    exists p, r. split; [reflexivity|]. split; [lia|reflexivity].
  - left. split; [reflexivity|]. intros Q k r G. rewrite (len_pos k r _ G) in E. lia.
Qed.

Definition imm_ok (m : imap) : Prop :=
  NoDup (keys m) /\ forall k r, get k m = Some r -> (r_expiry r < 0)%Z -> r_ty r = T_PUBLISH.

Lemma imm_ok_del k m : imm_ok m -> imm_ok (del k m).
Proof. intros [N I]. split; [apply nodup_del, N|]. intros k0 r G. apply sub_del in G. eauto. Qed.

Lemma imm_ok_set_ack c k ty uid now m :
  (0 <= c_maxexp c)%Z -> (0 <= now)%Z -> imm_ok m -> imm_ok (set k (ack_rec ty uid c now) m).
Proof.
  intros C Nw [N I]. split; [apply nodup_set, N|]. intros k0 r G E.
  destruct (N.eq_dec k0 k) as [->|Ne].
  - rewrite get_set_same in G. inversion G; subst. cbn in E. lia.
  - rewrite get_set_other in G by exact Ne. eauto.
Qed.

Lemma deferred_cases s orc : imm_ok (s_infl s) ->
  (deferred s orc = (s, []) /\
   ((0 < s_sendq s)%Z -> forall k r, get k (s_infl s) = Some r -> (0 <= r_expiry r)%Z)) \/
  (exists p r, get p (s_infl s) = Some r /\ (r_expiry r < 0)%Z /\ r_ty r = T_PUBLISH /\ (0 < s_sendq s)%Z /\
     (forall k' r', get k' (s_infl s) = Some r' -> (r_expiry r' < 0)%Z -> (key16 r <= key16 r')%Z) /\
     deferred s orc = (with_sendq (with_infl s (del p (s_infl s))) (dec (s_sendq s)),
                       if s_conn s then [OPkt T_PUBLISH p false (r_qos r) (r_uid r) 0] else [])).
Proof.
  intros [N I]. destruct (deferred_shape s orc) as [[E NN]|(p & r & NI & Q & E)].
  - left. split; [exact E|]. intros Q k r G.
    destruct (Z.ltb_spec (r_expiry r) 0) as [Ex|Ex]; [|exact Ex].
    destruct (next_immediate_some orc _ k r G Ex (NN Q k r G)).
  - right. destruct (next_immediate_spec _ _ _ _ N NI) as (G & Ex & Min). exists p, r.
    rewrite (pkt_of_rec_publish false p r (I p r G Ex)) in E. repeat split; eauto.
Qed.

Lemma imm_ok_wf c s : wf c s -> imm_ok (s_infl s).
Proof. intros W. split; apply W. Qed.
(* [imap]: what keeps NoDup and imm_ok across the map updates, and what the updates do to [get]; QosProofs adds the
   two counting equations n_f_del / n_f_set to the rewrite set *)
#[export] Hint Resolve nodup_del nodup_set imm_ok_del imm_ok_set_ack imm_ok_wf : imap.
#[export] Hint Rewrite get_set_same get_del_same : imap.

Lemma deferred_sub s orc : submap (s_infl (fst (deferred s orc))) (s_infl s).
Proof. destruct (deferred_shape s orc) as [[-> _]|(p & r & _ & _ & ->)]; [apply sub_refl|apply sub_del]. Qed.

Lemma deferred_get s orc k r :
  imm_ok (s_infl s) -> get k (s_infl s) = Some r -> (0 <= r_expiry r)%Z ->
  get k (s_infl (fst (deferred s orc))) = Some r.
Proof.
  intros I G E. destruct (deferred_cases s orc I) as [[-> _]|(p & r' & G' & E' & _ & _ & _ & ->)]; [exact G|].
  cbn [fst]. sproj. rewrite get_del_other; [exact G|]. intros ->. rewrite G in G'. inversion G'; subst. lia.
Qed.

Lemma wf_deferred c s orc : wf c s -> wf c (fst (deferred s orc)).
Proof.
  intros W. destruct (deferred_shape s orc) as [[-> _]|(p & r & _ & _ & ->)]; [exact W|].
  apply wf_sendq; [apply wf_del; exact W|]. sproj. apply dec_range. apply W.
Qed.

(* [lo]: a lower bound of the time stamps of the records the updates store: the handlers instantiate it with the
   packet's own time, so that their normal forms need no hypothesis about the clock, and wf_moves asks for 0 <= lo *)
Inductive move (c : cfg) (p : N) (lo : Z) (s : st) : st -> Prop :=
| mv_del : move c p lo s (with_infl s (del p (s_infl s)))
| mv_set ty uid now : ty <> T_PUBLISH -> (lo <= now)%Z -> move c p lo s (with_infl s (set p (ack_rec ty uid c now) (s_infl s)))
| mv_sendq : move c p lo s (with_sendq s (inc (s_sendq s) (s_maxsend s)))
| mv_recvq_inc : move c p lo s (with_recvq s (inc (s_recvq s) (s_maxrecv s)))
| mv_recvq_dec : move c p lo s (with_recvq s (dec (s_recvq s))).

Inductive moves (c : cfg) (p : N) (lo : Z) (s : st) : st -> Prop :=
| mvs_nil : moves c p lo s s
| mvs_snoc s1 s2 : moves c p lo s s1 -> move c p lo s1 s2 -> moves c p lo s s2.

Lemma wf_moves c p lo s s0 : cfg_ok c -> (0 <= lo)%Z -> moves c p lo s s0 -> wf c s -> wf c s0.
Proof.
  intros [_ C] Lo M W. induction M as [|s1 s2 _ IH [|ty uid now T Nw| | |]]; [exact W| | | | |].
  - apply wf_del, IH.
  - apply wf_set; [exact IH|intros T'; destruct (T T')|cbn; lia].
  - apply wf_sendq; [exact IH|apply inc_range, IH].
  - apply wf_recvq; [exact IH|apply inc_range, IH].
  - apply wf_recvq; [exact IH|apply dec_range, IH].
Qed.

Record frame (p : N) (s s0 : st) : Prop := {
  fr_other : forall k, k <> p -> get k (s_infl s0) = get k (s_infl s);
  fr_pub : forall r, get p (s_infl s0) = Some r -> r_ty r = T_PUBLISH -> get p (s_infl s) = Some r;
  fr_present : s_present s0 = s_present s; fr_conn : s_conn s0 = s_conn s; fr_v5 : s_v5 s0 = s_v5 s;
  fr_clean : s_clean s0 = s_clean s; fr_exp : s_exp s0 = s_exp s;
  fr_maxsend : s_maxsend s0 = s_maxsend s }.

Lemma frame_moves {c p lo s s0} : moves c p lo s s0 -> frame p s s0.
Proof.
  intros M. induction M as [|s1 s2 _ [F1 F2 F3 F4 F5 F6 F7 F8] [|ty uid now T Nw| | |]];
    [constructor; auto|constructor; sproj; try assumption..].
  - intros k Ne. rewrite get_del_other by exact Ne. auto.
  - intros r G. rewrite get_del_same in G. discriminate.
  - intros k Ne. rewrite get_set_other by exact Ne. auto.
  - intros r G Ty. rewrite get_set_same in G. inversion G; subst. destruct (T Ty).
Qed.

Definition is_publish (o : out) : bool := match o with OPkt t _ _ _ _ _ => t =? T_PUBLISH | _ => false end.
Definition pubs (l : list out) : list out := filter is_publish l.

Definition raised (s s0 : st) : Prop := s_sendq s0 = s_sendq s \/ s_sendq s0 = inc (s_sendq s) (s_maxsend s).

Definition handled (c : cfg) (p : N) (lo : Z) (s : st) (orc : list N) (pre : list out) (res : st * list out) : Prop :=
  exists s0, moves c p lo s s0 /\ raised s s0 /\ pubs pre = [] /\
    res = (fst (deferred s0 orc), pre ++ snd (deferred s0 orc)).

(* decomposes a handler's state, read off its definition as nested with_* terms, into the updates that lead to it:
   peels the outermost update (mvs_snoc with the matching constructor of [move]) until the initial state is left *)
Ltac moves_solve := repeat (first [apply mvs_nil | eapply mvs_snoc; [|constructor; (discriminate || apply Z.le_refl)]]).

Lemma handled_deferred c p lo s orc s0 :
  moves c p lo s s0 -> raised s s0 ->
  handled c p lo s orc [] (deferred s0 orc).
Proof. intros M Q. exists s0. destruct (deferred s0 orc). auto. Qed.

Lemma handled_idle c s orc : handled c 0 0 s orc [] (deferred s orc).
Proof. apply handled_deferred; [apply mvs_nil|left; reflexivity]. Qed.

(* what processPublish answers to an accepted PUBLISH *)
Definition pub_ack (qos pid : N) : list out :=
  if qos =? 0 then [] else [OPkt (if qos =? 2 then T_PUBREC else T_PUBACK) pid false 0 0 0].

Lemma in_publish_cases c s qos pid uid now orc :
  let rt := match get pid (s_infl s) with Some r => r_ty r =? T_PUBREC | None => false end in
  ((s_recvq s =? 0)%Z = true /\
   in_publish c s qos pid uid now orc = (teardown s, [OPkt T_DISCONNECT 0 false 0 0 (wire_rc s 147)])) \/
  ((s_recvq s =? 0)%Z = false /\ rt = true /\
   in_publish c s qos pid uid now orc =
     (fst (deferred s orc), OPkt T_PUBREC pid false 0 0 (wire_rc s 145) :: snd (deferred s orc))) \/
  ((s_recvq s =? 0)%Z = false /\ rt = false /\
   exists s0, moves c pid now s s0 /\ s_sendq s0 = s_sendq s /\
     (qos = 2 -> get pid (s_infl s0) = Some (ack_rec T_PUBREC uid c now)) /\
     in_publish c s qos pid uid now orc =
       (fst (deferred s0 orc), pub_ack qos pid ++ OFwd uid :: snd (deferred s0 orc))).
Proof.
  intros rt. unfold in_publish. fold rt.
  destruct (s_recvq s =? 0)%Z; [left; auto|right].
  destruct rt; [left; rewrite let_pair; auto|right]. split; [reflexivity|]. split; [reflexivity|].
  unfold pub_ack. destruct (qos =? 0) eqn:Q0.
  { exists (with_infl s (del pid (s_infl s))). rewrite let_pair. split; [moves_solve|]. split; [reflexivity|]. split; [lia|reflexivity]. }
  cbn zeta. match goal with |- context [deferred ?x orc] => exists x end.
  rewrite let_pair. split; [|split; [|split; [|reflexivity]]].
  - destruct (qos =? 1), (qos =? 2); moves_solve.
  - destruct (qos =? 1); reflexivity.
  - intros ->. sproj. apply get_set_same.
Qed.

Lemma in_publish_handled c s qos pid uid now orc :
  in_publish c s qos pid uid now orc = (teardown s, [OPkt T_DISCONNECT 0 false 0 0 (wire_rc s 147)]) \/
  exists pre, handled c pid now s orc pre (in_publish c s qos pid uid now orc).
Proof.
  destruct (in_publish_cases c s qos pid uid now orc) as [[_ E]|[(_ & _ & E)|(_ & _ & s0 & M & Sq & _ & E)]];
    [left; exact E|right..]; rewrite E.
  - exists [OPkt T_PUBREC pid false 0 0 (wire_rc s 145)], s.
    split; [apply mvs_nil|]. split; [left; reflexivity|]. split; reflexivity.
  - exists (pub_ack qos pid ++ [OFwd uid]), s0. rewrite <- app_assoc.
    split; [exact M|]. split; [left; exact Sq|]. split; [|reflexivity].
    unfold pub_ack. destruct (qos =? 0); [|destruct (qos =? 2)]; reflexivity.
Qed.

Definition ack_out (pid : N) (pre : list out) : Prop :=
  pre = [] \/ exists t rc, t <> T_PUBLISH /\ pre = [OPkt t pid false 0 0 rc].

Lemma in_ack_handled c s ty pid rc now orc :
  in_ack c s ty pid rc now orc = (s, []) \/
  exists pre, ack_out pid pre /\ handled c pid now s orc pre (in_ack c s ty pid rc now orc).
Proof.
  unfold in_ack.
  assert (H0 : forall s0, moves c pid now s s0 -> raised s s0 ->
               exists pre, ack_out pid pre /\ handled c pid now s orc pre (deferred s0 orc)).
  { intros s0 M Q. exists []. split; [left; reflexivity|apply handled_deferred; assumption]. }
  assert (H1 : forall s0 t rc', t <> T_PUBLISH -> moves c pid now s s0 -> raised s s0 ->
               exists pre, ack_out pid pre /\
                 handled c pid now s orc pre (let '(s', o) := deferred s0 orc in (s', OPkt t pid false 0 0 rc' :: o))).
  { intros s0 t rc' T M Q. exists [OPkt t pid false 0 0 rc']. split; [right; eauto|]. exists s0. rewrite let_pair.
    split; [exact M|]. split; [exact Q|]. split; [|reflexivity].
    cbn. destruct (t =? T_PUBLISH) eqn:E; [lia|reflexivity]. }
  destruct (ty =? T_PUBACK).
  { right. destruct (get pid (s_infl s)); (apply H0; [moves_solve|unfold raised; sproj; auto]). }
  destruct (ty =? T_PUBREC).
  { right. destruct (get pid (s_infl s)); [destruct ((128 <=? rc) || negb (pubrec_rc_valid rc))|];
      [apply H0|apply H1..]; try discriminate; (moves_solve || (unfold raised; sproj; auto)). }
  destruct (ty =? T_PUBREL).
  { right. destruct (get pid (s_infl s)); [destruct ((128 <=? rc) || negb (pubrel_rc_valid rc))|];
      [apply H0|apply H1..]; try discriminate; (moves_solve || (unfold raised; sproj; auto)). }
  destruct (ty =? T_PUBCOMP); [right|left; reflexivity].
  apply H0; [moves_solve|unfold raised; sproj; auto].
Qed.

Definition pub_rec (q uid : N) (now e : Z) (pv : bool) : rec :=
  {| r_ty := T_PUBLISH; r_qos := q; r_uid := uid; r_created := now; r_expiry := e; r_pv5 := pv |}.
Definition stored (s : st) (i : N) (r : rec) (sq : Z) : st :=
  with_sendq (with_infl (with_pid s i) ((i, r) :: s_infl s)) sq.

Lemma hold_expiry_neg e : (hold_expiry e < 0)%Z.
Proof. unfold hold_expiry. destruct (e <? 0)%Z eqn:E; lia. Qed.

(* no send quota although a maximum is in force: the message is held back *)
Definition held (s : st) : Prop := s_sendq s = 0%Z /\ (0 < s_maxsend s)%Z.

Inductive publish_res (c : cfg) (s : st) (q uid : N) (now : Z) (pv qf : bool) : st * list out -> Prop :=
| pr_same o :
    o = [] \/ o = [ODrop uid] \/ (o = [OPkt T_PUBLISH 0 false 0 uid 0] /\ q = 0 /\ s_conn s = true) ->
    publish_res c s q uid now pv qf (s, o)
| pr_held i e :
    1 <= i <= c_maxpid c -> get i (s_infl s) = None -> 0 < q -> held s ->
    publish_res c s q uid now pv qf (stored s i (pub_rec q uid now (hold_expiry e) pv) (s_sendq s), [])
| pr_sent i e :
    1 <= i <= c_maxpid c -> get i (s_infl s) = None -> 0 < q -> ((0 <= now)%Z -> (0 <= e)%Z) -> ~ held s ->
    publish_res c s q uid now pv qf
      (stored s i (pub_rec q uid now e pv) (dec (s_sendq s)), if s_conn s then [OPkt T_PUBLISH i false q uid 0] else [])
| pr_back i :
    ~ held s ->
    publish_res c s q uid now pv qf (with_sendq (with_pid s i) (inc (dec (s_sendq s)) (s_maxsend s)), [ODrop uid]).

Lemma out_publish_cases c s pq sq uid now mei pv qf :
  publish_res c s (if sq <? pq then sq else pq) uid now pv qf (out_publish c s pq sq uid now mei pv qf).
Proof.
  unfold out_publish. set (q := if sq <? pq then sq else pq).
  destruct (q =? 0) eqn:Q0.
  { destruct (s_conn s) eqn:Cn; [destruct qf|]; apply pr_same; auto. right; right. split; [reflexivity|]. split; [lia|exact Cn]. }
  destruct (c_maxinfl c <=? len (s_infl s)); [apply pr_same; auto|].
  destruct (next_pid c s) as [i|] eqn:NP; [|apply pr_same; auto].
  apply next_pid_sound in NP. destruct NP as [R G]. cbn zeta.
  set (e0 := zmin (c_maxexp c) (Z.of_N mei)). set (e := if (0 <? e0)%Z then (now + e0)%Z else 0%Z).
  (* nothing is stored under the identifier NextPacketID hands out: publishToClient's "new identifier" test always
     succeeds, and Set is a cons *)
  sproj. rewrite (proj2 (mem_false_iff i (s_infl s)) G). cbn [negb]. sproj.
  unfold set. cbn [del]. rewrite N.eqb_refl, !del_absent by exact G. fold (pub_rec q uid now e pv).
  fold (pub_rec q uid now (hold_expiry e) pv).
  destruct ((s_sendq s =? 0)%Z && (0 <? s_maxsend s)%Z) eqn:H.
  { assert (Hd : held s) by (unfold held; lia).
    replace (with_infl _ _) with (stored s i (pub_rec q uid now (hold_expiry e) pv) (s_sendq s)).
    - apply pr_held; [exact R|exact G|lia|exact Hd].
    - unfold stored, with_infl, with_sendq. cbn. rewrite (proj1 Hd). reflexivity. }
  assert (NH : ~ held s) by (unfold held; lia).
  assert (E : (0 <= now)%Z -> (0 <= e)%Z) by (unfold e; destruct (0 <? e0)%Z eqn:E; lia).
  destruct (s_conn s) eqn:Cn; cbn [negb]; [destruct qf|].
  - apply (pr_back c s q uid now pv true i). exact NH.
  - pose proof (pr_sent c s q uid now pv false i e R G ltac:(lia) E NH) as P. rewrite Cn in P. exact P.
  - pose proof (pr_sent c s q uid now pv qf i e R G ltac:(lia) E NH) as P. rewrite Cn in P. exact P.
Qed.

Lemma wf_stored c s i r sq :
  wf c s -> 1 <= i <= c_maxpid c -> get i (s_infl s) = None -> r_ty r = T_PUBLISH -> (0 <= sq <= s_maxsend s)%Z ->
  wf c (stored s i r sq).
Proof.
  intros W R G T Q. unfold stored. rewrite <- (set_fresh i r _ G).
  apply wf_sendq; [|exact Q]. apply (wf_set c (with_pid s i)); [|intros _; exact R|intros _; exact T].
  apply (wf_sub c s _ W); sproj; try apply W. apply sub_refl.
Qed.

Lemma wf_out_publish c s pq sq uid now mei pv qf :
  wf c s -> wf c (fst (out_publish c s pq sq uid now mei pv qf)).
Proof.
  intros W. pose proof (wf_sq c s W) as Q.
  destruct (out_publish_cases c s pq sq uid now mei pv qf) as [o _|i e R G _ _|i e R G _ _ _|i _]; cbn [fst].
  - exact W.
  - apply wf_stored; auto.
  - apply wf_stored; auto. apply dec_range, Q.
  - apply wf_sendq; [apply (wf_sub c s _ W); sproj; try apply W; apply sub_refl|]. sproj. apply inc_range, dec_range, Q.
Qed.

Definition transient (r : rec) : bool := (r_ty r =? T_PUBACK) || (r_ty r =? T_PUBCOMP).

Lemma resend_cons p r l m :
  resend ((p, r) :: l) m =
  (fst (resend l (if transient r then del p m else m)),
   pkt_of_rec true p r :: snd (resend l (if transient r then del p m else m))).
Proof. cbn [resend]. fold (transient r). destruct (resend l _); reflexivity. Qed.

Lemma resend_out l : forall m, snd (resend l m) = map (fun kv => pkt_of_rec true (fst kv) (snd kv)) l.
Proof.
  induction l as [|[p r] l IH]; intros m; [reflexivity|]. rewrite resend_cons. cbn [snd map fst]. rewrite IH. reflexivity.
Qed.

Lemma resend_sub l : forall m, submap (fst (resend l m)) m.
Proof.
  induction l as [|[p r] l IH]; intros m; [apply sub_refl|]. rewrite resend_cons. cbn [fst].
  eapply sub_trans; [apply IH|]. destruct (transient r); [apply sub_del|apply sub_refl].
Qed.

Lemma resend_nodup l : forall m, NoDup (keys m) -> NoDup (keys (fst (resend l m))).
Proof.
  induction l as [|[p r] l IH]; intros m N; [exact N|]. rewrite resend_cons. cbn [fst].
  apply IH. destruct (transient r); [apply nodup_del|]; exact N.
Qed.

Lemma resend_keeps l k r : transient r = false -> (forall x, In (k, x) l -> x = r) ->
  forall m, get k m = Some r -> get k (fst (resend l m)) = Some r.
Proof.
  intros T. induction l as [|[p x] l IH]; intros L m G; [exact G|]. rewrite resend_cons. cbn [fst].
  apply IH; [intros y I; apply L; right; exact I|].
  destruct (transient x) eqn:Tx; [|exact G]. rewrite get_del_other; [exact G|].
  intros ->. rewrite (L x (or_introl eq_refl)) in Tx. congruence.
Qed.

Definition resumes (s : st) (clean : bool) : bool :=
  s_present s && negb (clean || (s_clean s && negb (s_v5 s))).

Lemma reconnect_cases c s v5 clean sei rm orc :
  (resumes s clean = false /\
   reconnect c s v5 clean sei rm orc = (fresh c v5 clean sei rm [] false, [OPkt T_CONNACK 0 false 0 0 0])) \/
  (resumes s clean = true /\ exists z,
   reconnect c s v5 clean sei rm orc =
     (fresh c v5 clean sei rm (fst (resend (get_all orc (s_infl s)) (s_infl s))) z,
      OPkt T_CONNACK 0 true 0 0 0 :: map (fun kv => pkt_of_rec true (fst kv) (snd kv)) (get_all orc (s_infl s)))).
Proof.
  unfold reconnect, resumes. destruct (s_present s); [|left; split; reflexivity].
  destruct (clean || (s_clean s && negb (s_v5 s))); [left; split; reflexivity|right].
  split; [reflexivity|]. cbn zeta. rewrite let_pair, resend_out.
  destruct (0 <? len (s_infl s)) eqn:L; [eexists; reflexivity|].
  assert (E : s_infl s = []) by (unfold len in L; destruct (s_infl s); [reflexivity|cbn [length] in L; lia]).
  exists false. rewrite E. sproj. rewrite get_all_nil. reflexivity.
Qed.

Lemma wf_fresh c s v5 clean sei rm m z :
  cfg_ok c -> wf c s -> NoDup (keys m) -> submap m (s_infl s) -> wf c (fresh c v5 clean sei rm m z).
Proof. intros [C _] W N S. apply (wf_sub c s _ W); sproj; try assumption; destruct z; lia. Qed.

Lemma wf_reconnect c s v5 clean sei rm orc :
  cfg_ok c -> wf c s -> wf c (fst (reconnect c s v5 clean sei rm orc)).
Proof.
  intros C W. destruct (reconnect_cases c s v5 clean sei rm orc) as [(_ & ->)|(_ & z & ->)]; cbn [fst];
    apply (wf_fresh c s); try assumption.
  - constructor.
  - intros k r G. discriminate G.
  - apply resend_nodup, W.
  - apply resend_sub.
Qed.

Theorem step_wf c s o orc : cfg_ok c -> op_ok o -> wf c s -> wf c (fst (step c s o orc)).
Proof.
  intros C O W. destruct o; cbn [step]; cbn [op_ok] in O.
  - destruct (s_present s); [apply wf_out_publish; exact W|exact W].
  - destruct (s_present s && s_conn s); [|exact W].
    destruct (in_publish_handled c s qos pid uid now orc) as [->|(pre & s0 & M & _ & _ & ->)]; cbn [fst].
    + apply wf_teardown, W.
    + apply wf_deferred. exact (wf_moves c pid now s s0 C O M W).
  - destruct (s_present s && s_conn s); [|exact W].
    destruct (in_ack_handled c s ty pid rc now orc) as [->|(pre & _ & s0 & M & _ & _ & ->)]; cbn [fst]; [exact W|].
    apply wf_deferred. exact (wf_moves c pid now s s0 C O M W).
  - destruct (s_present s && s_conn s); [apply wf_deferred; exact W|exact W].
  - destruct (s_present s && s_conn s); [|exact W].
    destruct graceful; [|apply wf_teardown; exact W].
    rewrite let_pair. cbn [fst]. apply wf_teardown, wf_deferred, wf_conn, W.
  - apply wf_reconnect; assumption.
  - destruct (s_present s); [|exact W]. cbn [fst].
    apply (wf_sub c s _ W); sproj; try apply W; [apply nodup_filter, W|apply sub_filter, W].
Qed.

Lemma run_cons c s o orc h :
  run c s ((o, orc) :: h) =
  (fst (run c (fst (step c s o orc)) h), snd (step c s o orc) :: snd (run c (fst (step c s o orc)) h)).
Proof. cbn [run]. rewrite (let_pair (step c s o orc)), let_pair. reflexivity. Qed.

Lemma run_app c : forall h1 h2 s,
  run c s (h1 ++ h2) =
  (fst (run c (fst (run c s h1)) h2), snd (run c s h1) ++ snd (run c (fst (run c s h1)) h2)).
Proof.
  induction h1 as [|[o orc] h1 IH]; intros h2 s.
  - cbn [app run fst snd]. destruct (run c s h2); reflexivity.
  - cbn [app]. rewrite !run_cons. rewrite IH. cbn [fst snd]. reflexivity.
Qed.

Lemma run_inv (I : st -> list out -> Prop) (P : op -> Prop) c :
  (forall s T o orc, I s T -> P o -> I (fst (step c s o orc)) (T ++ snd (step c s o orc))) ->
  forall h s T, I s T -> (forall o orc, In (o, orc) h -> P o) -> I (fst (run c s h)) (T ++ concat (snd (run c s h))).
Proof.
  intros St. induction h as [|[o orc] h IH]; intros s T H Gd.
  - cbn. rewrite app_nil_r. exact H.
  - rewrite run_cons. cbn [fst snd concat]. rewrite app_assoc.
    apply IH; [apply St; [exact H|apply (Gd o orc); left; reflexivity]|].
    intros o' orc' In'. apply (Gd o' orc'). right. exact In'.
Qed.

Definition hist_ok (h : list (op * list N)) : Prop := forall o orc, In (o, orc) h -> op_ok o.

Theorem run_wf c : cfg_ok c -> forall h s, hist_ok h -> wf c s -> wf c (fst (run c s h)).
Proof.
  intros C h s H W.
  refine (run_inv (fun s _ => wf c s) op_ok c _ h s [] W H).
  intros s1 _ o orc W1 O. apply step_wf; assumption.
Qed.

(* an invariant that every step passing the check [ok] keeps, along a history on which the running check [cl]
   ([ok] evaluated along the model's own run) holds *)
Lemma run_checked (I : st -> Prop) (ok : st -> op -> bool) (cl : st -> list (op * list N) -> bool) c :
  cfg_ok c ->
  (forall s o orc r, cl s ((o, orc) :: r) = ok s o && cl (fst (step c s o orc)) r) ->
  (forall s o orc, op_ok o -> wf c s -> I s -> ok s o = true -> I (fst (step c s o orc))) ->
  forall h s, hist_ok h -> wf c s -> I s -> cl s h = true -> wf c (fst (run c s h)) /\ I (fst (run c s h)).
Proof.
  intros C Ecl St. induction h as [|[o orc] h IH]; intros s H W B CL; [split; assumption|].
  rewrite Ecl in CL. apply andb_prop in CL. destruct CL as [OK CL].
  assert (O : op_ok o) by (apply (H o orc); left; reflexivity).
  rewrite run_cons. cbn [fst]. apply IH; [|apply step_wf; assumption|apply St; assumption|exact CL].
  intros o' orc' In'. apply (H o' orc'). right. exact In'.
Qed.
