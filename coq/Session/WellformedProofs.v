(* C23: the stream monitor is sound — a stream it accepts really is a concatenation of complete,
   valid, server-sendable packets within the client's limits, with nothing after a DISCONNECT. *)
From MV Require Import Base.Val Codec.Vbi Codec.VbiProofs Codec.SpecCodec Session.Wellformed.
From Coq Require Import Lia ZifyBool.
Open Scope N_scope.
#[local] Arguments N.sub : simpl never.
#[local] Arguments N.of_nat : simpl never.
#[local] Arguments N.add : simpl never.

(* the reference decoder consumes a prefix and does not look beyond it *)

Lemma take_split n bs b rest : take n bs = Some (b, rest) ->
  bs = b ++ rest /\ len b = n /\ forall y, take n (b ++ y) = Some (b, y).
Proof.
  unfold take, len. destruct (N.of_nat (length bs) <? n) eqn:E; [discriminate|].
  intro H. injection H as <- <-.
  assert (L : (N.to_nat n <= length bs)%nat) by lia.
  split; [symmetry; apply firstn_skipn|].
  assert (Lf : length (firstn (N.to_nat n) bs) = N.to_nat n) by (rewrite firstn_length; lia).
  split; [lia|].
  intro y. rewrite app_length, Lf.
  replace (N.of_nat (N.to_nat n + length y) <? n) with false by lia.
  f_equal. f_equal.
  - rewrite firstn_app, Lf, Nat.sub_diag. cbn [firstn]. rewrite app_nil_r.
    rewrite <- Lf at 1. apply firstn_all.
  - rewrite skipn_app, Lf, Nat.sub_diag. cbn [skipn].
    rewrite <- Lf at 1. rewrite skipn_all. reflexivity.
Qed.

Lemma get_vbi_split bs n rest : get_vbi bs = Some (n, rest) ->
  exists pre, bs = pre ++ rest /\ forall y, get_vbi (pre ++ y) = Some (n, y).
Proof.
  unfold get_vbi, obind, guard, Vbi.spec_decode.
  destruct (spec_value 4 bs) as [[v r]|] eqn:S; [|discriminate].
  destruct (N.of_nat (length bs - length r) =? vbi_min_len v) eqn:G; [|discriminate].
  intro H. injection H as <- <-.
  destruct (spec_value_prefix _ _ _ _ S) as (pre & -> & L & P & _).
  exists pre. split; [reflexivity|]. intro y. rewrite P.
  rewrite app_length in G. rewrite app_length.
  replace (N.of_nat (length pre + length y - length y) =? vbi_min_len v) with true by lia.
  reflexivity.
Qed.

Lemma lenient_split ver bs p size rest : lenient_decode ver bs = Some (p, size, rest) ->
  exists seg, bs = seg ++ rest /\ len seg = size /\ lenient_decode ver seg = Some (p, size, []).
Proof.
  unfold lenient_decode, obind, get_u8, guard.
  destruct bs as [|b0 r]; [discriminate|].
  destruct (flags_ok (b0 / 16) (b0 mod 16)) eqn:F; [|discriminate].
  destruct (get_vbi r) as [[n r1]|] eqn:V; [|discriminate].
  destruct (take n r1) as [[body rest']|] eqn:T; [|discriminate].
  destruct (dec_body ver (b0 / 16) (b0 mod 16) body) as [q|] eqn:D; [|discriminate].
  intro H. injection H as <- <- <-.
  destruct (get_vbi_split _ _ _ V) as (pre & -> & Pv).
  destruct (take_split _ _ _ _ T) as (-> & Lb & Pt).
  exists (b0 :: pre ++ body). split; [cbn [app]; rewrite <- !app_assoc; reflexivity|].
  unfold len. split.
  - cbn [length app]. rewrite !app_length. lia.
  - rewrite F. rewrite <- (app_nil_r (pre ++ body)) at 1. rewrite <- app_assoc, Pv.
    rewrite (Pt []), D. cbn [length app]. rewrite !app_length. cbn [length]. f_equal. f_equal. f_equal. lia.
Qed.

(* what "well-formed output" means (Prop-level statement of the property) *)

Definition packet_ok (c : cctx) (p : spkt) (size : N) : Prop :=
  server_sendable (cc_ver c) p = true /\ valid_packet (cc_ver c) p = true /\
  (0 < cc_mps c -> size <= cc_mps c) /\ info_ok c p = true.

(* a stream is well formed: it splits into complete packets, each acceptable, nothing after DISCONNECT *)
Inductive wf_stream (c : cctx) : bytes -> list spkt -> Prop :=
| wf_nil : wf_stream c [] []
| wf_cons seg rest p ps :
    lenient_decode (cc_ver c) seg = Some (p, len seg, []) ->
    packet_ok c p (len seg) ->
    (is_disconnect p = true -> rest = []) ->
    wf_stream c rest ps ->
    wf_stream c (seg ++ rest) (p :: ps).

Lemma packet_defect_none c p size : packet_defect c p size = None -> packet_ok c p size.
Proof.
  unfold packet_defect, packet_ok.
  destruct (server_sendable (cc_ver c) p); [|discriminate].
  destruct (valid_packet (cc_ver c) p); [|discriminate].
  destruct ((0 <? cc_mps c) && (cc_mps c <? size)) eqn:M; [discriminate|].
  destruct (info_ok c p); [|discriminate].
  intros _. repeat split. lia.
Qed.

(* The scan accepts only if it met no known finding: the list of findings never shrinks.  With fuel for the
   whole stream, what it accepts is well formed; [after] = the previous packet was a DISCONNECT. *)
Lemma scan_sound fuel : forall c bs after acc kfs pks,
  scan fuel c bs after acc kfs = (pks, [], None) ->
  kfs = [] /\
  ((length bs < fuel)%nat -> exists ps, pks = rev acc ++ ps /\ wf_stream c bs ps /\ (after = true -> bs = [])).
Proof.
  induction fuel as [|f IH]; intros c bs after acc kfs pks H; cbn [scan] in H.
  { injection H as <- <-. split; [reflexivity|lia]. }
  destruct bs as [|b t].
  { injection H as <- <-. split; [reflexivity|]. intros _. exists []. rewrite app_nil_r.
    split; [reflexivity|]. split; [constructor|reflexivity]. }
  assert (KF : forall bs' after' acc' k, scan f c bs' after' acc' (k :: kfs) <> (pks, [], None)).
  { intros bs' after' acc' k E. destruct (IH _ _ _ _ _ _ E) as [E' _]. discriminate E'. }
  destruct after.
  { exfalso. destruct (lenient_decode (cc_ver c) (b :: t)) as [[[p size] rest]|]; [|discriminate].
    destruct p; try discriminate.
    destruct (packet_defect _ _ _); [discriminate|exact (KF _ _ _ _ H)]. }
  destruct (lenient_decode (cc_ver c) (b :: t)) as [[[p size] rest]|] eqn:L; [|discriminate].
  destruct (packet_defect c p size) as [d|] eqn:PD.
  { exfalso. destruct (KF_C23_v3_disconnect c d (Some p)); [exact (KF _ _ _ _ H)|].
    destruct (KF_C23_v3_connack_code c d (Some p)); [exact (KF _ _ _ _ H)|].
    destruct (KF_C23_suback_0x82 c d (Some p)); [exact (KF _ _ _ _ H)|discriminate]. }
  destruct (IH _ _ _ _ _ _ H) as [-> K]. split; [reflexivity|]. intro Hf.
  destruct (lenient_split _ _ _ _ _ L) as (seg & Eb & Ls & Ld).
  assert (Hseg : (0 < length seg)%nat) by (destruct seg; [discriminate|cbn; lia]).
  assert (Hrest : (length rest < f)%nat).
  { assert (length (b :: t) = length seg + length rest)%nat by (rewrite Eb, app_length; reflexivity). lia. }
  destruct (K Hrest) as (ps & Epk & Wf & Hd).
  exists (p :: ps). split; [rewrite Epk; cbn [rev]; rewrite <- app_assoc; reflexivity|].
  split; [|discriminate].
  rewrite Eb. apply wf_cons; try assumption.
  - rewrite Ls. exact Ld.
  - rewrite Ls. apply packet_defect_none. exact PD.
Qed.

(* the packets the monitor reports are a parse of the stream *)
Theorem stream_ok_packets (c : cctx) (bs : bytes) :
  stream_ok c bs = true -> wf_stream c bs (fst (fst (scan (S (length bs)) c bs false [] []))).
Proof.
  unfold stream_ok. intro H.
  destruct (scan (S (length bs)) c bs false [] []) as [[pks kfs] d] eqn:E.
  destruct kfs; [|discriminate]. destruct d; [discriminate|].
  destruct (proj2 (scan_sound _ _ _ _ _ _ _ E) ltac:(lia)) as (ps & -> & Wf & _). exact Wf.
Qed.

Theorem stream_ok_sound (c : cctx) (bs : bytes) :
  stream_ok c bs = true -> exists ps, wf_stream c bs ps.
Proof. intro H. eexists. apply stream_ok_packets, H. Qed.
