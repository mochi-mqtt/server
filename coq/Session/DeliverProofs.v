(* The routing model (Session/Deliver.v) against its specification side (ent_subs / spec_qos / spec_ids /
   spec_retain / spec_entitled), for every state, every oracle and every order in which subscriptions
   are gathered.  The merged subscription of a client stands for the list of the subscriptions that
   entitle it ([Rep]); what publishToClient reads off the merge is then read off that list. *)
From MV Require Import Base.Val Base.BytesEq Base.ListMisc Topics.Levels Topics.Match Topics.Alist Topics.AlistProofs Session.Deliver.
From Coq Require Import Lia ZifyBool Permutation.
Open Scope N_scope.

Lemma insert_perm x l : Permutation (insert x l) (x :: l).
Proof.
  induction l as [|y l IH]; cbn; [reflexivity|].
  destruct (x <=? y); [reflexivity|]. rewrite IH. apply perm_swap.
Qed.
Lemma isort_perm l : Permutation (isort l) l.
Proof. induction l as [|x l IH]; cbn; [reflexivity|]. rewrite insert_perm. constructor. exact IH. Qed.

Lemma filter_le_one {A K} (p : A -> bool) (g : A -> K) l :
  NoDup (map g l) -> (forall x y, In x l -> In y l -> p x = true -> p y = true -> g x = g y) ->
  (length (filter p l) <= 1)%nat.
Proof.
  intros ND H. destruct (filter p l) as [|x [|y r]] eqn:EF; cbn; try lia. exfalso.
  assert (HX : In x (filter p l)) by (rewrite EF; left; reflexivity).
  assert (HY : In y (filter p l)) by (rewrite EF; right; left; reflexivity).
  apply filter_In in HX, HY. destruct HX as [HX PX], HY as [HY PY].
  assert (x = y) by (apply (NoDup_map_inj g l); auto). subst y.
  assert (N : NoDup (filter p l)) by (apply NoDup_filter, (NoDup_map_inv g), ND).
  rewrite EF in N. apply NoDup_cons_iff in N. apply (proj1 N). left. reflexivity.
Qed.

Lemma existsb_beq_In x l : existsb (beq_bytes x) l = true <-> In x l.
Proof. apply existsb_eqb_In, beq_bytes_eq. Qed.

Lemma existsb_Neqb_In x l : existsb (N.eqb x) l = true <-> In x l.
Proof. apply existsb_eqb_In, N.eqb_eq. Qed.

Lemma aget_all_None {V} (l : list (bytes * V)) : (forall t, al_get beq_bytes t l = None) -> l = [].
Proof. destruct l as [|[k v] r]; [reflexivity|]. intro H. specialize (H k). cbn in H. rewrite beq_bytes_refl in H. discriminate. Qed.

(* the comparisons the Go code writes with if *)
Lemma ltb_max a b : (if a <? b then b else a) = N.max a b.
Proof. destruct (a <? b) eqn:E; lia. Qed.
Lemma ltb_min a b : (if a <? b then a else b) = N.min a b.
Proof. destruct (a <? b) eqn:E; lia. Qed.
Lemma min3_spec a b c : min3 a b c = N.min a (N.min b c).
Proof. unfold min3. rewrite !ltb_min. lia. Qed.

Definition idmap_holds (ids : list (bytes * N)) (S : bytes -> N -> Prop) : Prop :=
  NoDup (map fst ids) /\ forall f i, pos i = true -> (al_get beq_bytes f ids = Some i <-> S f i).

Lemma idmap_holds_ext ids (S S' : bytes -> N -> Prop) :
  (forall f i, pos i = true -> (S f i <-> S' f i)) -> idmap_holds ids S -> idmap_holds ids S'.
Proof.
  intros E [ND H]. split; [exact ND|]. intros f i P. rewrite (H f i P). apply E. exact P.
Qed.

(* `if v > 0 { ids[k] = v }` adds (k, v) to the positive entries, provided no other positive value is claimed for k *)
Lemma set_pos_inv ids S k v :
  idmap_holds ids S -> (pos v = true -> forall j, pos j = true -> S k j -> j = v) ->
  idmap_holds (set_pos ids (k, v)) (fun f i => S f i \/ (f = k /\ i = v)).
Proof.
  intros [ND H] C. unfold set_pos. cbn [fst snd]. destruct (pos v) eqn:PV.
  - split; [apply (NoDup_al_set beq_bytes_eq); exact ND|].
    intros f i P. destruct (eqb_dec beq_bytes_eq f k) as [->|NE].
    + rewrite (al_get_set_same beq_bytes_eq). split.
      * intro E. injection E as ->. right. split; reflexivity.
      * intros [HS|[_ ->]]; [|reflexivity]. f_equal. symmetry. apply C; [reflexivity|assumption..].
    + rewrite (al_get_set_other beq_bytes_eq) by exact NE. rewrite (H f i P). tauto.
  - split; [exact ND|]. intros f i P. rewrite (H f i P). split; [intro HS; left; exact HS|].
    intros [HS|[-> ->]]; [exact HS|]. congruence.
Qed.

Lemma fold_set_pos_inv m : forall ids S,
  idmap_holds ids S ->
  (forall f i j, pos i = true -> pos j = true -> (S f i \/ In (f, i) m) -> (S f j \/ In (f, j) m) -> i = j) ->
  idmap_holds (fold_left set_pos m ids) (fun f i => S f i \/ In (f, i) m).
Proof.
  induction m as [|[k v] m IH]; intros ids S HI C; cbn [fold_left].
  - eapply idmap_holds_ext; [|exact HI]. intros f i P. cbn. tauto.
  - assert (H1 : idmap_holds (set_pos ids (k, v)) (fun f i => S f i \/ (f = k /\ i = v))).
    { apply set_pos_inv; [exact HI|]. intros PV j PJ SJ.
      apply (C k j v PJ PV); [left; exact SJ|right; left; reflexivity]. }
    assert (E : forall f i, (S f i \/ f = k /\ i = v) \/ In (f, i) m <-> S f i \/ In (f, i) ((k, v) :: m)).
    { intros f i. cbn [In]. split.
      - intros [[HS|[-> ->]]|HM]; auto.
      - intros [HS|[E|HM]]; auto. injection E as -> ->. auto. }
    eapply idmap_holds_ext; [|apply (IH _ _ H1)].
    + intros f i P. apply E.
    + intros f i j PI PJ A B. apply (C f i j PI PJ); apply E; assumption.
Qed.

Definition pairs_in (L : list (bytes * subopt)) (f : bytes) (i : N) : Prop := exists o, In (f, o) L /\ so_id o = i.
Definition functional (L : list (bytes * subopt)) : Prop := forall f o o', In (f, o) L -> In (f, o') L -> o = o'.

Lemma NoDup_functional (L : list (bytes * subopt)) : NoDup (map fst L) -> functional L.
Proof.
  intros ND f o o' H1 H2.
  apply (In_al_get beq_bytes_eq _ _ _ ND) in H1. apply (In_al_get beq_bytes_eq _ _ _ ND) in H2. congruence.
Qed.

Lemma functional_pairs L f i j : functional L -> pairs_in L f i -> pairs_in L f j -> i = j.
Proof. intros F [o [H1 E1]] [o' [H2 E2]]. rewrite (F f o o' H1 H2) in E1. congruence. Qed.

Lemma pairs_in_app L1 L2 f i : pairs_in (L1 ++ L2) f i <-> pairs_in L1 f i \/ pairs_in L2 f i.
Proof.
  unfold pairs_in. split.
  - intros [o [H E]]. apply in_app_or in H. destruct H as [H|H]; [left|right]; exists o; split; assumption.
  - intros [[o [H E]]|[o [H E]]]; exists o; split; try assumption; apply in_or_app; [left|right]; assumption.
Qed.

Lemma functional_app_l L r : functional (L ++ r) -> functional L.
Proof. intros F f o o' H1 H2. apply (F f o o'); apply in_or_app; left; assumption. Qed.
Lemma functional_app_r L r : functional (L ++ r) -> functional r.
Proof. intros F f o o' H1 H2. apply (F f o o'); apply in_or_app; right; assumption. Qed.
Lemma functional_dup L : functional L -> functional (L ++ L).
Proof. intros F f o o' H1 H2. apply in_app_or in H1, H2. apply (F f o o'); tauto. Qed.

Definition nl_of (fo : bytes * subopt) : bool := so_nolocal (snd fo).
Definition rap_of (fo : bytes * subopt) : bool := so_rap (snd fo).

Lemma max_qos_app L1 L2 : max_qos (L1 ++ L2) = N.max (max_qos L1) (max_qos L2).
Proof.
  induction L1 as [|x L1 IH]; [apply eq_sym, N.max_0_l|]. cbn [app].
  change (max_qos (x :: L1 ++ L2)) with (N.max (so_qos (snd x)) (max_qos (L1 ++ L2))).
  change (max_qos (x :: L1)) with (N.max (so_qos (snd x)) (max_qos L1)). rewrite IH. apply N.max_assoc.
Qed.

(* the (filter, identifier) pairs that [merge s n] copies from n *)
Definition entries (n : msub) : list (bytes * N) :=
  (ms_filter n, ms_id n) :: match ms_ids n with Some m => m | None => [] end.

(* [Rep m L]: the subscription m, as decoded or as merged so far, stands for the list L of a client's
   subscriptions: its options are those of L combined, and its identifier map holds the identifiers of L
   provided L gives every filter one set of options (only the identifiers need that) *)
Record Rep (m : msub) (L : list (bytes * subopt)) : Prop := mkRep {
  rep_ids : functional L -> idmap_holds (idmap m) (pairs_in L);
  rep_base : pos (ms_id m) = true -> pairs_in L (ms_filter m) (ms_id m);
  rep_qos : ms_qos m = max_qos L;
  rep_nl : ms_nolocal m = existsb nl_of L;
  rep_rap : ms_rap m = existsb rap_of L;
  rep_fwd : ms_fwd m = false }.
Arguments rep_ids {m L}.
Arguments rep_base {m L}.
Arguments rep_qos {m L}.
Arguments rep_nl {m L}.
Arguments rep_rap {m L}.
Arguments rep_fwd {m L}.

Definition merged (m : msub) : Prop := ms_ids m = Some (idmap m).

Lemma entries_iff n L f i : Rep n L -> functional L -> pos i = true -> (In (f, i) (entries n) <-> pairs_in L f i).
Proof.
  intros R F P. destruct (rep_ids R F) as [ND H]. unfold entries. unfold idmap in ND, H. split.
  - intros [E|HI]; [injection E as <- <-; apply (rep_base R P)|].
    destruct (ms_ids n); [|destruct HI]. apply (H f i P). apply (In_al_get beq_bytes_eq); assumption.
  - intro HS. apply (H f i P) in HS. apply (al_get_In beq_bytes_eq) in HS.
    destruct (ms_ids n); [right; exact HS|]. destruct HS as [E|[]]. left. exact E.
Qed.

Lemma Rep_msub_of x : Rep (msub_of x) [x].
Proof.
  destruct x as [f o]. constructor; cbn.
  - intros _. split; [constructor; [intros []|constructor]|]. intros g i P. cbn. unfold pairs_in. cbn [In].
    destruct (beq_bytes f g) eqn:E.
    + apply beq_bytes_eq in E. subst g. split.
      * intro H. injection H as <-. exists o. auto.
      * intros [o' [[H|[]] <-]]. injection H as <-. reflexivity.
    + apply beq_bytes_neq in E. split; [discriminate|]. intros [o' [[H|[]] _]]. injection H as <- _. contradiction.
  - intros _. exists o. cbn. auto.
  - apply eq_sym, N.max_0_r.
  - apply eq_sym, orb_false_r.
  - apply eq_sym, orb_false_r.
  - reflexivity.
Qed.

(* Subscription.Merge: the receiver stands for L1, the argument for L2, the result for both *)
Lemma Rep_merge a b L1 L2 : Rep a L1 -> Rep b L2 -> Rep (merge a b) (L1 ++ L2).
Proof.
  intros RA RB. constructor; cbn [merge ms_filter ms_id ms_qos ms_nolocal ms_rap ms_fwd].
  - intro F. pose proof (functional_app_l _ _ F) as F1. pose proof (functional_app_r _ _ F) as F2.
    change (idmap (merge a b)) with (fold_left set_pos (entries b) (idmap a)).
    eapply idmap_holds_ext; [|apply (fold_set_pos_inv (entries b) _ _ (rep_ids RA F1))].
    + intros f i P. rewrite pairs_in_app, (entries_iff b L2 f i RB F2 P). tauto.
    + intros f i j PI PJ A B. apply (functional_pairs (L1 ++ L2) f i j F); apply pairs_in_app.
      * rewrite (entries_iff b L2 f i RB F2 PI) in A. exact A.
      * rewrite (entries_iff b L2 f j RB F2 PJ) in B. exact B.
  - intro P. apply pairs_in_app. left. apply (rep_base RA P).
  - rewrite ltb_max, max_qos_app, (rep_qos RA), (rep_qos RB). reflexivity.
  - rewrite existsb_app, (rep_nl RA), (rep_nl RB). reflexivity.
  - rewrite existsb_app, (rep_rap RA), (rep_rap RB). reflexivity.
  - apply (rep_fwd RA).
Qed.

Lemma Rep_dup m L : Rep m (L ++ L) -> Rep m L.
Proof.
  intros [I B Q N R Fw]. constructor.
  - intro F. eapply idmap_holds_ext; [|exact (I (functional_dup L F))]. intros f i _. rewrite pairs_in_app. tauto.
  - intro P. apply B, pairs_in_app in P. tauto.
  - rewrite Q, max_qos_app. apply N.max_id.
  - rewrite N, existsb_app. apply orb_diag.
  - rewrite R, existsb_app. apply orb_diag.
  - exact Fw.
Qed.

Lemma merge_all_from r : forall a L, Rep a L -> merged a ->
  match fold_left merge_into r (Some a) with Some m => Rep m (L ++ r) /\ merged m | None => False end.
Proof.
  induction r as [|y r IH]; intros a L R M; cbn [fold_left].
  - rewrite app_nil_r. split; assumption.
  - change (L ++ y :: r) with (L ++ [y] ++ r). rewrite app_assoc. apply IH; [|reflexivity].
    apply Rep_merge; [exact R|apply Rep_msub_of].
Qed.

Lemma merge_all_spec L :
  match merge_all L with Some m => L <> [] /\ Rep m L /\ merged m | None => L = [] end.
Proof.
  destruct L as [|x r]; [reflexivity|].
  (* `cls = sub; cls.Merge(sub)`: the first subscription is merged with itself *)
  assert (R : Rep (merge (msub_of x) (msub_of x)) [x]) by (apply Rep_dup, Rep_merge; apply Rep_msub_of).
  assert (H := merge_all_from r _ [x] R eq_refl).
  change (merge_all (x :: r)) with (fold_left merge_into r (Some (merge (msub_of x) (msub_of x)))).
  destruct (fold_left merge_into r _); [|destruct H]. split; [discriminate|exact H].
Qed.

(* Subscribers.Subscriptions[c] is the merge of exactly the subscriptions that entitle c *)
Lemma merged_client_spec c cl t orc :
  match merged_client c cl t orc with
  | Some m => ent_subs c cl t orc <> [] /\ Rep m (ent_subs c cl t orc) /\ merged m
  | None => ent_subs c cl t orc = []
  end.
Proof.
  unfold ent_subs, merged_client.
  assert (HN := merge_all_spec (nonshared_matching cl t)).
  assert (HS := merge_all_spec (picks_of c cl t orc)).
  destruct (merge_all (picks_of c cl t orc)) as [sel|].
  - destruct HS as (NE & RS & _). split; [intro E; apply app_eq_nil in E; tauto|]. split; [|reflexivity].
    destruct (merge_all (nonshared_matching cl t)) as [g|].
    + apply Rep_merge; [apply HN|exact RS].
    + rewrite HN. apply Rep_dup, Rep_merge; exact RS.
  - rewrite HS, app_nil_r. exact HN.
Qed.

Lemma picks_filters c cl t orc :
  map fst (picks_of c cl t orc)
  = map fst (filter (fun kc => beq_bytes (snd kc) c && shared_matches t (fst kc) && al_mem beq_bytes (fst kc) (cl_subs cl)) orc).
Proof.
  unfold picks_of. induction orc as [|[k0 c0] r IH]; [reflexivity|]. cbn [flat_map filter fst snd].
  rewrite map_app, IH, al_mem_get. destruct (beq_bytes c0 c && shared_matches t k0); [|reflexivity].
  destruct (al_get beq_bytes k0 (cl_subs cl)); reflexivity.
Qed.

Lemma picks_keys c cl t orc k :
  In k (map fst (picks_of c cl t orc)) -> shared_matches t k = true.
Proof.
  rewrite picks_filters, in_map_iff. intros [[k0 c0] [<- H]]. apply filter_In in H. destruct H as [_ P]. cbn [fst snd] in *.
  apply andb_true_iff in P. destruct P as [P _]. apply andb_true_iff in P. tauto.
Qed.

Lemma ent_subs_nodup c cl t orc :
  NoDup (map fst (cl_subs cl)) -> NoDup (map fst orc) -> NoDup (map fst (ent_subs c cl t orc)).
Proof.
  intros N1 N2. unfold ent_subs. rewrite map_app. apply NoDup_app_intro.
  - unfold nonshared_matching. apply NoDup_map_filter. exact N1.
  - rewrite picks_filters. apply NoDup_map_filter, N2.
  - (* a filter is shared or it is not *)
    intros k H1 H2. unfold nonshared_matching in H1. apply in_map_iff in H1. destruct H1 as [[f o] [E H1]].
    apply filter_In in H1. destruct H1 as [_ H1]. unfold sub_matches in H1. cbn in *. subst f.
    apply picks_keys in H2. unfold shared_matches in H2.
    destruct (is_share k); cbn in *; congruence.
Qed.

Lemma ids_perm ids L :
  idmap_holds ids (pairs_in L) -> NoDup (map fst L) -> Permutation (filter pos (map snd ids)) (spec_ids L).
Proof.
  intros [ND H] NL. unfold spec_ids.
  set (pairs := map (fun fo : bytes * subopt => (fst fo, so_id (snd fo))) L).
  replace (map (fun fo => so_id (snd fo)) L) with (map snd pairs) by (unfold pairs; apply map_map).
  rewrite !filter_map_swap. apply Permutation_map. apply NoDup_Permutation.
  - apply NoDup_filter, (NoDup_map_inv fst), ND.
  - apply NoDup_filter, (NoDup_map_inv fst). unfold pairs. rewrite map_map. exact NL.
  - intros [f i]. rewrite !filter_In. cbn [snd]. split; intros [HI P]; (split; [|exact P]).
    + apply (In_al_get beq_bytes_eq _ _ _ ND), (H f i P) in HI. destruct HI as [o [HI E]].
      apply in_map_iff. exists (f, o). cbn. split; [congruence|exact HI].
    + apply (al_get_In beq_bytes_eq), (H f i P). apply in_map_iff in HI.
      destruct HI as [[f' o] [E HI]]. cbn in E. injection E as -> <-. exists o. split; [exact HI|reflexivity].
Qed.

Definition is_send (p : pres) : bool := match p with PSend _ => true | _ => false end.

Definition blocked (s : state) (c : cid) (sub : msub) (m : msg) : bool :=
  ms_nolocal sub && beq_bytes (m_origin m) c || denied s c (m_topic m).

(* the packet publishToClient builds (`out`), before it is stored, queued or encoded *)
Definition copy (s : state) (c : cid) (ver : N) (sub : msub) (m : msg) : delivery :=
  mkD (TClient c) (m_topic m) (m_payload m) (min3 (m_qos m) (ms_qos sub) (st_maxqos s))
      (if negb (ms_fwd sub) && (((ver =? 5) && negb (ms_rap sub)) || (ver <? 5)) then false else m_retain m)
      (match ms_ids sub with Some l => filter pos (isort (map snd l)) | None => [] end) (m_props m).

Lemma publish_to_client_eq s c cl sub m dr :
  publish_to_client s c cl sub m dr =
  if blocked s c sub m then PNone
  else let d := copy s c (cl_ver cl) sub m in
       if negb (cl_conn cl) then (if d_qos d =? 0 then PNone else PQueue d)
       else if dr then PDrop else PSend (wire cl d).
Proof.
  unfold publish_to_client, blocked. destruct (ms_nolocal sub && beq_bytes (m_origin m) c); [reflexivity|].
  destruct (denied s c (m_topic m)); reflexivity.
Qed.

Lemma publish_is_send s c cl sub m dr :
  is_send (publish_to_client s c cl sub m dr) = negb (blocked s c sub m) && cl_conn cl && negb dr.
Proof.
  rewrite publish_to_client_eq. destruct (blocked s c sub m); [reflexivity|]. cbv zeta.
  destruct (cl_conn cl); cbn; [destruct dr; reflexivity|]. destruct (_ =? 0); reflexivity.
Qed.

Lemma publish_send_inv s c cl sub m dr d :
  publish_to_client s c cl sub m dr = PSend d -> d = wire cl (copy s c (cl_ver cl) sub m).
Proof.
  rewrite publish_to_client_eq. destruct (blocked s c sub m); [discriminate|]. cbv zeta.
  destruct (negb (cl_conn cl)); [destruct (_ =? 0); discriminate|]. destruct dr; [discriminate|].
  intro H. injection H as <-. reflexivity.
Qed.

Lemma publish_queue_inv s c cl sub m dr d :
  publish_to_client s c cl sub m dr = PQueue d ->
  blocked s c sub m = false /\ d = copy s c (cl_ver cl) sub m /\ d_qos d <> 0.
Proof.
  rewrite publish_to_client_eq. destruct (blocked s c sub m); [discriminate|]. cbv zeta.
  destruct (negb (cl_conn cl)); [|destruct dr; discriminate].
  destruct (_ =? 0) eqn:E; [discriminate|]. intro H. injection H as <-. apply N.eqb_neq in E. auto.
Qed.

Lemma wire_eq cl d :
  wire cl d = mkD (d_to d) (d_topic d) (d_payload d) (d_qos d) (d_retain d)
                  (if cl_ver cl =? 5 then d_ids d else []) (if cl_ver cl =? 5 then d_props d else mp_none).
Proof. unfold wire. destruct (cl_ver cl =? 5); destruct d; reflexivity. Qed.

Lemma retain_rule ver rap r : ver <= 5 ->
  (if (ver =? 5) && negb rap || (ver <? 5) then false else r) = r && (ver =? 5) && rap.
Proof. intro V. destruct (ver =? 5) eqn:E5; destruct (ver <? 5) eqn:E4; try lia; destruct rap, r; reflexivity. Qed.

Lemma deliver_target {s orc drops m c cl d} : deliver_to s orc drops m c cl = PSend d -> d_to d = TClient c.
Proof.
  unfold deliver_to. destruct (merged_client c cl (m_topic m) orc); [|discriminate].
  intro H. rewrite (publish_send_inv _ _ _ _ _ _ _ H), wire_eq. reflexivity.
Qed.

(* a PUBLISH is handed to the connection exactly when the client is connected, may read the topic, holds an
   entitling subscription, is not the publisher under a No Local subscription (No Local of ANY entitling
   subscription: the merge takes the disjunction), and the queue has room; for every list of subscriptions
   and every oracle, well formed or not *)
Theorem deliver_decision s orc drops m c cl :
  let L := ent_subs c cl (m_topic m) orc in
  is_send (deliver_to s orc drops m c cl)
  = cl_conn cl && negb (denied s c (m_topic m)) && negb (nilb L)
    && negb (beq_bytes (m_origin m) c && existsb nl_of L) && negb (existsb (beq_bytes c) drops).
Proof.
  intros L. unfold deliver_to.
  assert (HM := merged_client_spec c cl (m_topic m) orc). fold L in HM.
  destruct (merged_client c cl (m_topic m) orc) as [sub|].
  - destruct HM as (NE & R & _). rewrite publish_is_send. unfold blocked. rewrite (rep_nl R).
    replace (nilb L) with false by (destruct L; [contradiction|reflexivity]).
    destruct (existsb nl_of L), (beq_bytes (m_origin m) c), (denied s c (m_topic m)), (cl_conn cl); reflexivity.
  - rewrite HM. cbn. rewrite andb_false_r. reflexivity.
Qed.

(* No Local concerns the publisher only *)
Corollary deliver_decision_other s orc drops m c cl :
  m_origin m <> c ->
  is_send (deliver_to s orc drops m c cl)
  = cl_conn cl && negb (denied s c (m_topic m)) && negb (nilb (ent_subs c cl (m_topic m) orc))
    && negb (existsb (beq_bytes c) drops).
Proof.
  intro NE. rewrite deliver_decision. cbv zeta. rewrite (proj2 (beq_bytes_neq _ _) NE). cbn [andb negb].
  rewrite andb_true_r. reflexivity.
Qed.

Lemma existsb_not_excluded c m L :
  existsb (not_excluded c m) L =
  if beq_bytes (m_origin m) c then existsb (fun fo => negb (nl_of fo)) L else negb (nilb L).
Proof.
  induction L as [|x L IH]; cbn; [destruct (beq_bytes (m_origin m) c); reflexivity|].
  rewrite IH. unfold not_excluded, nl_of. destruct (beq_bytes (m_origin m) c); cbn.
  - rewrite andb_true_r. reflexivity.
  - rewrite andb_false_r. reflexivity.
Qed.

Lemma existsb_false_all {A} (p : A -> bool) l : existsb p l = false -> existsb (fun x => negb (p x)) l = negb (nilb l).
Proof.
  induction l as [|x l IH]; cbn; [reflexivity|]. intro H. apply orb_false_iff in H. destruct H as [H1 H2].
  rewrite H1. reflexivity.
Qed.

(* C03: a PUBLISH is handed to the connection exactly when the client is entitled and the queue has room
   (outside the No Local merge finding) *)
Theorem deliver_send_iff s orc drops m c cl :
  KF_C03_nolocal_merge c m (ent_subs c cl (m_topic m) orc) = false ->
  is_send (deliver_to s orc drops m c cl)
  = spec_entitled s c cl m (ent_subs c cl (m_topic m) orc) && negb (existsb (beq_bytes c) drops).
Proof.
  intros KF. rewrite (deliver_decision s orc drops m c cl). cbv zeta.
  unfold spec_entitled. rewrite existsb_not_excluded. unfold KF_C03_nolocal_merge in KF.
  set (L := ent_subs c cl (m_topic m) orc) in *.
  change (fun fo : bytes * subopt => so_nolocal (snd fo)) with nl_of in KF.
  change (fun fo : bytes * subopt => negb (so_nolocal (snd fo))) with (fun fo => negb (nl_of fo)) in KF.
  rewrite <- !andb_assoc. do 2 f_equal. rewrite andb_assoc. f_equal.
  destruct (beq_bytes (m_origin m) c); [|apply andb_true_r]. cbn [andb] in KF |- *.
  destruct (existsb nl_of L) eqn:ENL.
  - cbn in KF |- *. rewrite KF. apply andb_false_r.
  - rewrite (existsb_false_all nl_of L ENL). apply andb_true_r.
Qed.

(* C03 (fields) / C04: what is on the wire *)
Theorem deliver_fields s orc drops m c cl d :
  NoDup (map fst (cl_subs cl)) -> NoDup (map fst orc) -> cl_ver cl <= 5 ->
  deliver_to s orc drops m c cl = PSend d ->
  let L := ent_subs c cl (m_topic m) orc in
  d_topic d = m_topic m /\ d_payload d = m_payload m /\
  d_qos d = spec_qos (st_maxqos s) (m_qos m) L /\
  d_retain d = spec_retain (cl_ver cl) (m_retain m) L /\
  (cl_ver cl = 5 -> Permutation (d_ids d) (spec_ids L) /\ d_props d = m_props m) /\
  (cl_ver cl <> 5 -> d_ids d = [] /\ d_props d = mp_none).
Proof.
  intros N1 N2 V. unfold deliver_to.
  assert (NL := ent_subs_nodup c cl (m_topic m) orc N1 N2).
  assert (HM := merged_client_spec c cl (m_topic m) orc).
  destruct (merged_client c cl (m_topic m) orc) as [sub|]; [|discriminate].
  destruct HM as (_ & R & MG). intro HD. rewrite (publish_send_inv _ _ _ _ _ _ _ HD).
  rewrite wire_eq. unfold copy. cbn [d_topic d_payload d_qos d_retain d_ids d_props].
  split; [reflexivity|]. split; [reflexivity|]. split; [|split; [|split]].
  - rewrite min3_spec, (rep_qos R). reflexivity.
  - rewrite (rep_fwd R), (rep_rap R). cbn [negb andb]. apply retain_rule, V.
  - intros ->. cbn. split; [|reflexivity]. rewrite MG. rewrite (filter_perm pos _ _ (isort_perm _)).
    apply ids_perm; [apply (rep_ids R), NoDup_functional, NL|exact NL].
  - intro NE. apply N.eqb_neq in NE. rewrite NE. split; reflexivity.
Qed.

(* C03 / C06: the copies a client gets from one publish *)
Definition to_client (c : cid) (d : delivery) : bool :=
  match d_to d with TClient c' => beq_bytes c' c | TInline _ => false end.

Theorem route_to_client s orc drops m c :
  NoDup (map fst (st_clients s)) ->
  filter (to_client c) (sends (route s orc drops m))
  = match get_client s c with
    | Some cl => match deliver_to s orc drops m c cl with PSend d => [d] | _ => [] end
    | None => []
    end.
Proof.
  unfold route, get_client. induction (st_clients s) as [|[c0 cl0] l IH]; cbn [map fst snd al_get]; intro ND; [reflexivity|].
  apply NoDup_cons_iff in ND. destruct ND as [NI ND]. specialize (IH ND).
  unfold sends in *. cbn [flat_map fst snd]. rewrite filter_app, IH.
  assert (H : forall d, deliver_to s orc drops m c0 cl0 = PSend d -> to_client c d = beq_bytes c0 c).
  { intros d ED. unfold to_client. rewrite (deliver_target ED). reflexivity. }
  destruct (beq_bytes c0 c) eqn:EC.
  - apply beq_bytes_eq in EC. subst c0. rewrite (proj2 (al_get_None_notin beq_bytes_eq c l) NI), app_nil_r.
    destruct (deliver_to s orc drops m c cl0) as [|d| |]; try reflexivity. cbn. rewrite (H d eq_refl). reflexivity.
  - destruct (deliver_to s orc drops m c0 cl0) as [|d| |]; try reflexivity. cbn. rewrite (H d eq_refl). reflexivity.
Qed.

(* C04: granted QoS *)
Theorem granted_qos s c ver fo :
  sub_accepted s c fo = true -> sub_code s c ver fo = spec_granted (st_maxqos s) (so_qos (snd fo)).
Proof.
  unfold sub_accepted, sub_code, sub_code_raw, spec_granted. intros A.
  destruct (negb (valid_filter_spec (fst fo))); [discriminate|].
  destruct (so_nolocal (snd fo) && is_share (fst fo)); [discriminate|].
  destruct (denied s c (fst fo)); [discriminate|].
  rewrite ltb_min in *. replace (2 <? _) with false by lia. apply N.min_comm.
Qed.

(* retained deliveries (publishRetainedToClient) *)
Theorem retained_delivery s c cl f o m d :
  publish_to_client s c cl (retained_sub f o) m false = PSend d ->
  d_to d = TClient c /\ d_topic d = m_topic m /\ d_payload d = m_payload m /\
  d_retain d = m_retain m /\
  d_qos d = N.min (m_qos m) (N.min (so_qos o) (st_maxqos s)) /\
  d_ids d = (if (cl_ver cl =? 5) && pos (so_id o) then [so_id o] else []) /\
  d_props d = (if cl_ver cl =? 5 then m_props m else mp_none).
Proof.
  intro H. rewrite (publish_send_inv _ _ _ _ _ _ _ H), wire_eq. unfold copy, retained_sub.
  cbn [d_to d_topic d_payload d_qos d_retain d_ids d_props ms_fwd ms_qos ms_ids negb andb]. rewrite min3_spec.
  repeat (split; [reflexivity|]). split; [|reflexivity].
  destruct (cl_ver cl =? 5); [|reflexivity]. destruct (pos (so_id o)) eqn:P; cbn; rewrite ?P; reflexivity.
Qed.

Theorem retained_for_cases s c cl f o existed :
  so_rh o <= 2 ->
  retained_for s c cl f o existed =
  if is_share f || negb (rh_sends (so_rh o) existed) then []
  else map (fun m => publish_to_client s c cl (retained_sub f o) m false) (retained_matching s f).
Proof.
  intro R. unfold retained_for, rh_sends. destruct (is_share f); [reflexivity|]. cbn [orb].
  assert (E : so_rh o = 0 \/ so_rh o = 1 \/ so_rh o = 2) by lia.
  destruct E as [-> | [-> | ->]]; destruct existed; reflexivity.
Qed.

Lemma retained_for_shared s c cl f o existed : is_share f = true -> retained_for s c cl f o existed = [].
Proof. intro H. unfold retained_for. rewrite H. reflexivity. Qed.

Definition retained_wf (r : list (bytes * msg)) : Prop :=
  NoDup (map fst r) /\ forall t m, In (t, m) r -> m_topic m = t /\ m_retain m = true /\ m_payload m <> [].

Definition clients_wf (cs : list (cid * client)) : Prop :=
  NoDup (map fst cs) /\ forall c cl, In (c, cl) cs -> NoDup (map fst (cl_subs cl)) /\ cl_ver cl <= 5.

Definition wf_state (s : state) : Prop := clients_wf (st_clients s) /\ retained_wf (st_retained s).

Definition op_ok (o : op) : bool := match o with OConnect _ ver _ _ _ => ver <=? 5 | _ => true end.

Lemma clients_wf_set cs c cl :
  clients_wf cs -> NoDup (map fst (cl_subs cl)) -> cl_ver cl <= 5 -> clients_wf (al_set beq_bytes c cl cs).
Proof.
  intros [ND H] N V. split; [apply (NoDup_al_set beq_bytes_eq); exact ND|].
  intros c' cl' HI. apply In_al_set_inv in HI. destruct HI as [E|HI]; [injection E as -> ->; split; assumption|].
  apply (H c' cl' HI).
Qed.

Lemma clients_wf_del cs c : clients_wf cs -> clients_wf (al_del beq_bytes c cs).
Proof.
  intros [ND H]. split; [apply NoDup_al_del; exact ND|].
  intros c' cl' HI. apply In_al_del_inv in HI. apply (H c' cl' HI).
Qed.

Lemma clients_wf_get {cs c cl} : clients_wf cs -> al_get beq_bytes c cs = Some cl -> NoDup (map fst (cl_subs cl)) /\ cl_ver cl <= 5.
Proof. intros [ND H] G. apply (H c cl). apply (al_get_In beq_bytes_eq). exact G. Qed.

Lemma subscribe_all_nodup s c ver subs : forall cur,
  NoDup (map fst cur) -> NoDup (map fst (fst (subscribe_all s c ver subs cur))).
Proof.
  induction subs as [|fo r IH]; intros cur ND; cbn [subscribe_all]; [exact ND|].
  destruct (sub_accepted s c fo).
  - specialize (IH (al_set beq_bytes (fst fo) (snd fo) cur) (NoDup_al_set beq_bytes_eq _ _ _ ND)).
    destruct (subscribe_all s c ver r (al_set beq_bytes (fst fo) (snd fo) cur)). exact IH.
  - specialize (IH cur ND). destruct (subscribe_all s c ver r cur). exact IH.
Qed.

Lemma unsub_nodup (fs : list bytes) : forall (cur : list (bytes * subopt)),
  NoDup (map fst cur) -> NoDup (map fst (fold_left (fun acc f => al_del beq_bytes f acc) fs cur)).
Proof.
  induction fs as [|f r IH]; intros cur ND; cbn [fold_left]; [exact ND|].
  apply IH. apply NoDup_al_del. exact ND.
Qed.

Lemma queue_pending_wf r cs : clients_wf cs -> clients_wf (queue_pending r cs).
Proof.
  intros [ND H]. unfold queue_pending. split.
  - rewrite map_map. erewrite map_ext; [exact ND|]. intros [c cl]. cbn.
    destruct (al_get beq_bytes c r) as [[| | |]|]; reflexivity.
  - intros c cl HI. apply in_map_iff in HI. destruct HI as [[c0 cl0] [E HI]].
    specialize (H c0 cl0 HI).
    destruct (al_get beq_bytes c0 r) as [[| | |]|]; injection E as <- <-; exact H.
Qed.

(* the state in which an accepted message is routed: the retained store already updated *)
Definition routed_state (s : state) (m : msg) : state := if m_retain m then retain_message s m else s.

(* only an accepted publish touches the store *)
Definition after_retain (s : state) (o : op) : state :=
  match pub_of o with Some m => routed_state s (accepted (st_maxqos s) m) | None => s end.

(* retainMessage replaces the store and nothing else *)
Lemma routed_state_eq s m :
  routed_state s m =
  with_retained s (if m_retain m && st_retain_avail s
                   then al_put beq_bytes (m_topic m) (if nilb (m_payload m) then None else Some m) (st_retained s)
                   else st_retained s).
Proof.
  unfold routed_state, retain_message. destruct s as [cs il r mq ra dn]. cbn [st_retain_avail st_retained].
  destruct (m_retain m); [|reflexivity]. destruct ra; [|reflexivity].
  destruct (nilb (m_payload m)); reflexivity.
Qed.

Lemma routed_state_same s m :
  st_clients (routed_state s m) = st_clients s /\ st_inline (routed_state s m) = st_inline s
  /\ st_maxqos (routed_state s m) = st_maxqos s /\ st_retain_avail (routed_state s m) = st_retain_avail s
  /\ st_deny (routed_state s m) = st_deny s.
Proof. rewrite routed_state_eq. repeat split. Qed.

Lemma routed_state_retained s m t :
  al_get beq_bytes t (st_retained (routed_state s m)) =
  if m_retain m && st_retain_avail s && beq_bytes (m_topic m) t
  then (if nilb (m_payload m) then None else Some m)
  else al_get beq_bytes t (st_retained s).
Proof.
  rewrite routed_state_eq. cbn [st_retained with_retained]. destruct (m_retain m && st_retain_avail s); [|reflexivity].
  apply (al_get_put beq_bytes_eq).
Qed.

Lemma routed_state_wf s m : retained_wf (st_retained s) -> retained_wf (st_retained (routed_state s m)).
Proof.
  intros [ND H]. rewrite routed_state_eq. cbn [st_retained with_retained].
  destruct (m_retain m) eqn:R; [|split; assumption]. destruct (st_retain_avail s); [|split; assumption]. cbn [andb].
  split; [apply (NoDup_al_put beq_bytes_eq), ND|]. intros t m' HI.
  destruct (nilb (m_payload m)) eqn:EP; [apply In_al_del_inv in HI; apply (H t m' HI)|].
  apply In_al_set_inv in HI. destruct HI as [E|HI]; [|apply (H t m' HI)]. injection E as -> ->.
  repeat split; try assumption. intro E2. rewrite E2 in EP. discriminate.
Qed.

Lemma publish_state orc drops s m0 :
  let s1 := routed_state s (accepted (st_maxqos s) m0) in
  fst (publish orc drops s m0)
  = with_clients s1 (queue_pending (route s1 orc drops (accepted (st_maxqos s) m0)) (st_clients s1)).
Proof. reflexivity. Qed.

Lemma step_store orc drops s o :
  st_retained (fst (step orc drops s o)) = st_retained (after_retain s o)
  /\ st_maxqos (fst (step orc drops s o)) = st_maxqos s
  /\ st_retain_avail (fst (step orc drops s o)) = st_retain_avail s.
Proof.
  assert (P : forall m, st_retained (fst (publish orc drops s m)) = st_retained (routed_state s (accepted (st_maxqos s) m))
                        /\ st_maxqos (fst (publish orc drops s m)) = st_maxqos s
                        /\ st_retain_avail (fst (publish orc drops s m)) = st_retain_avail s).
  { intro m. rewrite publish_state. cbv zeta. cbn [with_clients st_retained st_maxqos st_retain_avail].
    destruct (routed_state_same s (accepted (st_maxqos s) m)) as (_ & _ & E3 & E4 & _). auto. }
  unfold after_retain. destruct o; cbn [step pub_of]; unfold get_client.
  - destruct (al_get beq_bytes c (st_clients s)); [destruct clean|]; repeat split.
  - destruct (al_get beq_bytes c (st_clients s)) as [cl|]; [destruct (cl_persist cl)|]; repeat split.
  - destruct (al_get beq_bytes c (st_clients s)) as [cl|]; [|repeat split].
    destruct (cl_conn cl); [|repeat split]. destruct (subscribe_all _ _ _ _ _). repeat split.
  - destruct (al_get beq_bytes c (st_clients s)) as [cl|]; [destruct (cl_conn cl)|]; repeat split.
  - destruct (valid_pub_topic (m_topic m)); [apply P|repeat split].
  - apply P.
  - destruct (valid_filter_spec f); repeat split.
  - destruct (valid_filter_spec f); repeat split.
Qed.

Lemma step_wf orc drops s o : wf_state s -> op_ok o = true -> wf_state (fst (step orc drops s o)).
Proof.
  intros [HC HR] OK. split.
  2:{ rewrite (proj1 (step_store orc drops s o)). unfold after_retain.
      destruct (pub_of o); [apply routed_state_wf|]; exact HR. }
  assert (P : forall m, clients_wf (st_clients (fst (publish orc drops s m)))).
  { intro m. rewrite publish_state. cbv zeta. cbn [with_clients st_clients]. apply queue_pending_wf.
    rewrite (proj1 (routed_state_same s _)). exact HC. }
  destruct o; cbn [step]; unfold get_client.
  - cbn in OK. assert (V : ver <= 5) by lia.
    destruct (al_get beq_bytes c (st_clients s)) as [old|] eqn:G.
    + destruct clean; cbn [fst]; apply clients_wf_set; try assumption; cbn; try constructor.
      apply (clients_wf_get HC G).
    + apply clients_wf_set; try assumption; cbn; constructor.
  - destruct (al_get beq_bytes c (st_clients s)) as [cl|] eqn:G; [|exact HC].
    destruct (clients_wf_get HC G) as [N V].
    destruct (cl_persist cl); cbn [fst]; [apply clients_wf_set; assumption|apply clients_wf_del; exact HC].
  - destruct (al_get beq_bytes c (st_clients s)) as [cl|] eqn:G; [|exact HC].
    destruct (clients_wf_get HC G) as [N V].
    destruct (cl_conn cl); [|exact HC].
    assert (H := subscribe_all_nodup s c (cl_ver cl) subs (cl_subs cl) N).
    destruct (subscribe_all s c (cl_ver cl) subs (cl_subs cl)) as [cur info]. apply clients_wf_set; assumption.
  - destruct (al_get beq_bytes c (st_clients s)) as [cl|] eqn:G; [|exact HC].
    destruct (clients_wf_get HC G) as [N V].
    destruct (cl_conn cl); [|exact HC]. apply clients_wf_set; [exact HC| |exact V]. apply unsub_nodup. exact N.
  - destruct (valid_pub_topic (m_topic m)); [apply P|exact HC].
  - apply P.
  - destruct (valid_filter_spec f); exact HC.
  - destruct (valid_filter_spec f); exact HC.
Qed.

Definition hist := list (oracle * list cid * op).
Definition ops_of (h : hist) : list op := map snd h.

Lemma run_wf (h : hist) : forall s, wf_state s -> forallb op_ok (ops_of h) = true -> wf_state (run s h).
Proof.
  induction h as [|[[orc drops] o] r IH]; intros s W OK; cbn [run]; [exact W|].
  cbn in OK. apply andb_true_iff in OK. destruct OK as [O1 O2]. apply IH; [|exact O2]. apply step_wf; assumption.
Qed.

Lemma init_wf mq ra deny : wf_state (init mq ra deny).
Proof. split; split; cbn; try apply NoDup_nil; intros ? ? []. Qed.

Theorem reachable_wf mq ra deny (h : hist) : forallb op_ok (ops_of h) = true -> wf_state (run (init mq ra deny) h).
Proof. intro OK. apply run_wf; [apply init_wf|exact OK]. Qed.

Lemma run_maxqos (h : hist) : forall s, st_maxqos (run s h) = st_maxqos s.
Proof.
  induction h as [|[[orc drops] o] r IH]; intro s; cbn [run]; [reflexivity|].
  rewrite IH. apply (step_store orc drops s o).
Qed.

(* C05: the retained store after a history *)
Theorem latest_run (h : hist) : forall s t,
  al_get beq_bytes t (st_retained (run s h))
  = latest (st_retain_avail s) (st_maxqos s) (ops_of h) t (al_get beq_bytes t (st_retained s)).
Proof.
  induction h as [|[[orc drops] o] r IH]; intros s t; cbn [run]; [reflexivity|].
  rewrite IH. destruct (step_store orc drops s o) as (-> & -> & ->). cbn [ops_of map snd latest]. f_equal.
  unfold after_retain. destruct (pub_of o) as [m|]; [exact (routed_state_retained s (accepted (st_maxqos s) m) t)|reflexivity].
Qed.

(* what a new subscription to f is sent from the store: exactly the latest retained message of every
   matching topic, once, with the retain flag set *)
Theorem retained_matching_latest mq ra deny (h : hist) f :
  forallb op_ok (ops_of h) = true ->
  let s := run (init mq ra deny) h in
  (forall m, In m (retained_matching s f) <->
             topic_matches f (m_topic m) = true /\ latest ra mq (ops_of h) (m_topic m) None = Some m)
  /\ NoDup (map m_topic (retained_matching s f))
  /\ (forall m, In m (retained_matching s f) -> m_retain m = true /\ m_payload m <> []).
Proof.
  intros OK s. destruct (reachable_wf mq ra deny h OK) as [_ [ND HR]]. fold s in ND, HR.
  assert (L : forall t, al_get beq_bytes t (st_retained s) = latest ra mq (ops_of h) t None).
  { intro t. unfold s. rewrite latest_run. reflexivity. }
  unfold retained_matching. split; [|split].
  - intro m. rewrite in_map_iff. split.
    + intros [[t m'] [E HI]]. cbn in E. subst m'. apply filter_In in HI. destruct HI as [HI HT]. cbn in HT.
      destruct (HR t m HI) as [ET _]. subst t. split; [exact HT|]. rewrite <- L.
      apply (In_al_get beq_bytes_eq); assumption.
    + intros [HT HL]. rewrite <- L in HL. apply (al_get_In beq_bytes_eq) in HL.
      exists (m_topic m, m). split; [reflexivity|]. apply filter_In. split; assumption.
  - rewrite map_map. erewrite map_ext_in; [apply NoDup_map_filter; exact ND|].
    intros [t m] HI. apply filter_In in HI. exact (proj1 (HR t m (proj1 HI))).
  - intros m HI. apply in_map_iff in HI. destruct HI as [[t m'] [E HI]]. cbn in E. subst m'.
    apply filter_In in HI. exact (proj2 (HR t m (proj1 HI))).
Qed.

Lemma latest_unavailable mq (h : list op) t : forall acc, latest false mq h t acc = acc.
Proof.
  induction h as [|o r IH]; intro acc; cbn [latest]; [reflexivity|]. rewrite IH.
  destruct (pub_of o); [rewrite andb_false_r|]; reflexivity.
Qed.

Lemma nodupb_NoDup l : nodupb l = true <-> NoDup l.
Proof.
  induction l as [|x l IH]; cbn; [split; [constructor|reflexivity]|].
  rewrite andb_true_iff, negb_true_iff, IH, NoDup_cons_iff, <- existsb_beq_In, not_true_iff_false. reflexivity.
Qed.

Lemma nodup_b_In x l : In x (nodup_b l) <-> In x l.
Proof.
  induction l as [|y l IH]; cbn; [tauto|]. destruct (existsb (beq_bytes y) l) eqn:E.
  - rewrite IH. split; [tauto|]. intros [->|H]; [apply existsb_beq_In; exact E|exact H].
  - cbn. rewrite IH. tauto.
Qed.

Lemma nodup_b_NoDup l : NoDup (nodup_b l).
Proof.
  induction l as [|y l IH]; cbn; [constructor|]. destruct (existsb (beq_bytes y) l) eqn:E; [exact IH|].
  constructor; [|exact IH]. rewrite nodup_b_In, <- existsb_beq_In. congruence.
Qed.

Lemma member_in_cands s t k c :
  is_member s k c = true -> shared_matches t k = true -> In (k, c) (shared_cands s t).
Proof.
  unfold is_member, get_client, shared_cands. intros HM HS.
  destruct (al_get beq_bytes c (st_clients s)) as [cl|] eqn:G; [|discriminate].
  rewrite al_mem_get in HM. destruct (al_get beq_bytes k (cl_subs cl)) as [o|] eqn:G2; [|discriminate].
  apply (al_get_In beq_bytes_eq) in G. apply (al_get_In beq_bytes_eq) in G2.
  apply in_flat_map. exists (c, cl). split; [exact G|]. cbn. apply in_map_iff. exists (k, o). split; [reflexivity|].
  apply filter_In. split; assumption.
Qed.

(* what a well-formed oracle is: one member per group (as the code identifies groups) *)
Theorem oracle_choice s t orc :
  wf_oracle s t orc = true ->
  NoDup (map fst orc)
  /\ (forall k c, In (k, c) orc -> shared_matches t k = true /\ is_member s k c = true /\ In k (shared_keys s t))
  /\ (forall k, In k (shared_keys s t) -> exists c, In (k, c) orc)
  /\ (forall k c c', In (k, c) orc -> In (k, c') orc -> c = c').
Proof.
  unfold wf_oracle. rewrite !andb_true_iff. intros [[H1 H2] H3]. apply nodupb_NoDup in H1.
  rewrite forallb_forall in H2. rewrite forallb_forall in H3.
  split; [exact H1|]. split; [|split].
  - intros k c HI. specialize (H2 (k, c) HI). cbn in H2. apply andb_true_iff in H2. destruct H2 as [A B].
    split; [exact A|]. split; [exact B|]. unfold shared_keys. apply in_map_iff. exists (k, c). split; [reflexivity|].
    apply member_in_cands; assumption.
  - intros k HI. specialize (H3 k HI). apply existsb_exists in H3. destruct H3 as [[k' c] [HI' E]]. cbn in E.
    apply beq_bytes_eq in E. subst k'. exists c. exact HI'.
  - intros k c c' A B.
    apply (In_al_get beq_bytes_eq _ _ _ H1) in A. apply (In_al_get beq_bytes_eq _ _ _ H1) in B. congruence.
Qed.

Lemma picks_none c cl t orc : (forall k, ~ In (k, c) orc) -> picks_of c cl t orc = [].
Proof.
  unfold picks_of. induction orc as [|[k0 c0] r IH]; intro H; cbn [flat_map fst snd]; [reflexivity|].
  rewrite IH by (intros k HI; apply (H k); right; exact HI).
  destruct (beq_bytes c0 c) eqn:E; [|reflexivity]. apply beq_bytes_eq in E. subst c0.
  exfalso. apply (H k0). left. reflexivity.
Qed.

(* a member that was not chosen and has no other matching subscription gets nothing *)
Theorem not_chosen_nothing s orc drops m c cl :
  nonshared_matching cl (m_topic m) = [] -> (forall k, ~ In (k, c) orc) -> deliver_to s orc drops m c cl = PNone.
Proof.
  intros HN HP. unfold deliver_to.
  assert (E : ent_subs c cl (m_topic m) orc = []) by (unfold ent_subs; rewrite HN, picks_none by exact HP; reflexivity).
  assert (HM := merged_client_spec c cl (m_topic m) orc). rewrite E in HM.
  destruct (merged_client c cl (m_topic m) orc); [|reflexivity]. destruct HM as [NE _]. contradiction.
Qed.

(* the subscription of the chosen member of a group is among those the message is merged for *)
Theorem chosen_in_ent_subs c cl t orc k o :
  In (k, c) orc -> shared_matches t k = true -> al_get beq_bytes k (cl_subs cl) = Some o ->
  In (k, o) (ent_subs c cl t orc).
Proof.
  intros HI HS G. unfold ent_subs. apply in_or_app. right. unfold picks_of. apply in_flat_map.
  exists (k, c). split; [exact HI|]. cbn. rewrite beq_bytes_refl, HS, G. left. reflexivity.
Qed.

(* C06 as the property states it (groups = share names), outside the listed finding *)
Theorem one_pick_per_name s t orc g :
  wf_oracle s t orc = true -> KF_C06_group_by_filter s t = false ->
  In g (map share_group (shared_keys s t)) ->
  length (picks_for_name g orc) = 1%nat.
Proof.
  intros W KF HG. destruct (oracle_choice s t orc W) as [ND [HA [HB HC]]].
  unfold KF_C06_group_by_filter in KF. apply negb_false_iff in KF. apply nodupb_NoDup in KF.
  unfold picks_for_name.
  (* at most one: two picks for g have keys with the same share name, and names determine keys *)
  assert (LE : (length (filter (fun kc : bytes * cid => beq_bytes (share_group (fst kc)) g) orc) <= 1)%nat).
  { apply (filter_le_one _ fst); [exact ND|]. intros [k1 c1] [k2 c2] H1 H2 P1 P2. cbn [fst] in *.
    apply beq_bytes_eq in P1. apply beq_bytes_eq in P2.
    apply (NoDup_map_inj share_group (nodup_b (shared_keys s t))); [exact KF| | |congruence].
    - apply nodup_b_In. apply (HA k1 c1 H1).
    - apply nodup_b_In. apply (HA k2 c2 H2). }
  (* at least one: the key that carries the name g has a pick *)
  apply in_map_iff in HG. destruct HG as [k0 [E HK]]. destruct (HB k0 HK) as [c0 HI].
  assert (GE : In (k0, c0) (filter (fun kc : bytes * cid => beq_bytes (share_group (fst kc)) g) orc)).
  { apply filter_In. split; [exact HI|]. cbn. apply beq_bytes_eq. exact E. }
  destruct (filter _ orc); [destruct GE|]. cbn in *. lia.
Qed.

Lemma nodup_N_In x l : In x (nodup_N l) <-> In x l.
Proof.
  induction l as [|y l IH]; cbn; [tauto|]. destruct (existsb (N.eqb y) l) eqn:E.
  - rewrite IH. split; [tauto|]. intros [->|H]; [apply existsb_Neqb_In; exact E|exact H].
  - cbn. rewrite IH. tauto.
Qed.

Lemma nodup_N_NoDup l : NoDup (nodup_N l).
Proof.
  induction l as [|y l IH]; cbn; [constructor|]. destruct (existsb (N.eqb y) l) eqn:E; [exact IH|].
  constructor; [|exact IH]. rewrite nodup_N_In, <- existsb_Neqb_In. congruence.
Qed.

Lemma inline_ids_spec s t id : In id (inline_ids s t) <-> inline_matching s t id = true.
Proof.
  unfold inline_ids, inline_matching. rewrite nodup_N_In, in_map_iff, existsb_exists. split.
  - intros [[i f] [E HI]]. cbn in E. subst i. apply filter_In in HI. destruct HI as [HI HT]. exists (id, f).
    split; [exact HI|]. cbn in *. rewrite N.eqb_refl, HT. reflexivity.
  - intros [[i f] [HI E]]. cbn in E. apply andb_true_iff in E. destruct E as [E1 E2]. apply N.eqb_eq in E1. subst i.
    exists (id, f). split; [reflexivity|]. apply filter_In. split; assumption.
Qed.

Definition to_inline (id : N) (d : delivery) : bool := match d_to d with TInline i => i =? id | TClient _ => false end.

Lemma count_inline m id (l : list N) :
  NoDup l -> length (filter (to_inline id) (map (inline_delivery m) l)) = if existsb (N.eqb id) l then 1%nat else 0%nat.
Proof.
  induction l as [|x l IH]; intro ND; [reflexivity|]. apply NoDup_cons_iff in ND. destruct ND as [NI ND].
  cbn [map filter existsb].
  change (to_inline id (inline_delivery m x)) with (x =? id).
  rewrite (N.eqb_sym id x). destruct (x =? id) eqn:E; cbn [length orb]; [|apply IH, ND].
  rewrite IH by exact ND. apply N.eqb_eq in E. subst x.
  rewrite <- existsb_Neqb_In, not_true_iff_false in NI. rewrite NI. reflexivity.
Qed.

(* every inline identifier with a matching subscription is called exactly once *)
Theorem inline_once s m id :
  length (filter (to_inline id) (route_inline s m)) = if inline_matching s (m_topic m) id then 1%nat else 0%nat.
Proof.
  unfold route_inline. rewrite count_inline by apply nodup_N_NoDup.
  replace (existsb (N.eqb id) (inline_ids s (m_topic m))) with (inline_matching s (m_topic m) id); [reflexivity|].
  apply eq_true_iff_eq. rewrite existsb_Neqb_In. symmetry. apply inline_ids_spec.
Qed.

Theorem inline_subscribe_step orc drops s id f :
  valid_filter_spec f = true ->
  let r := step orc drops s (OInlineSubscribe id f) in
  o_deliv (snd r) = map (fun m => inline_delivery m id) (retained_matching s f)
  /\ (forall t, topic_matches f t = true -> inline_matching (fst r) t id = true)
  /\ (forall i g, In (i, g) (st_inline s) -> In (i, g) (st_inline (fst r)))
  /\ st_clients (fst r) = st_clients s /\ st_retained (fst r) = st_retained s.
Proof.
  intro V. cbn [step]. rewrite V. cbn [fst snd o_deliv with_inline st_inline st_clients st_retained].
  split; [reflexivity|]. split; [|split; [|split; reflexivity]].
  - intros t HT. unfold inline_matching. cbn [st_inline]. apply existsb_exists.
    destruct (existsb (fun e : N * bytes => (fst e =? id) && beq_bytes (snd e) f) (st_inline s)) eqn:E.
    + apply existsb_exists in E. destruct E as [[i g] [HI E]]. cbn in E. apply andb_true_iff in E. destruct E as [E1 E2].
      apply beq_bytes_eq in E2. subst g. exists (i, f). split; [exact HI|]. cbn. rewrite E1, HT. reflexivity.
    + exists (id, f). split; [apply in_or_app; right; left; reflexivity|]. cbn. rewrite N.eqb_refl, HT. reflexivity.
  - intros i g HI. destruct (existsb _ (st_inline s)); [exact HI|apply in_or_app; left; exact HI].
Qed.

Theorem inline_unsubscribe_step orc drops s id f :
  valid_filter_spec f = true ->
  let r := step orc drops s (OInlineUnsubscribe id f) in
  o_deliv (snd r) = []
  /\ (forall i g, In (i, g) (st_inline (fst r)) <-> In (i, g) (st_inline s) /\ ~ (i = id /\ g = f))
  /\ st_clients (fst r) = st_clients s /\ st_retained (fst r) = st_retained s.
Proof.
  intro V. cbn [step]. rewrite V. cbn [fst snd o_deliv with_inline st_inline st_clients st_retained no_out].
  split; [reflexivity|]. split; [|split; reflexivity].
  intros i g. rewrite filter_In. cbn [fst snd].
  rewrite negb_true_iff, andb_false_iff, N.eqb_neq, beq_bytes_neq. apply and_iff_compat_l. split; [tauto|].
  intro NE. destruct (N.eq_dec i id) as [->|NI]; [right; intro E; apply NE; auto|left; exact NI].
Qed.

(* unsubscribing (id, f) leaves every other identifier's deliveries untouched *)
Corollary inline_unsubscribe_others orc drops s id f t id' :
  valid_filter_spec f = true -> id' <> id ->
  inline_matching (fst (step orc drops s (OInlineUnsubscribe id f))) t id' = inline_matching s t id'.
Proof.
  intros V NE. destruct (inline_unsubscribe_step orc drops s id f V) as [_ [H _]].
  unfold inline_matching.
  apply eq_true_iff_eq. rewrite !existsb_exists. split.
  - intros [[i g] [HI E]]. exists (i, g). split; [|exact E]. apply H in HI. tauto.
  - intros [[i g] [HI E]]. exists (i, g). split; [|exact E]. apply H. split; [exact HI|]. intros [-> _].
    cbn in E. apply andb_true_iff in E. destruct E as [E _]. apply N.eqb_eq in E. congruence.
Qed.

(* publishToClient computes retain flag, identifiers and QoS BEFORE the message is stored for a client that
   cannot take it now; the stored copy is therefore the one a connected client would have been sent *)
Definition online (cl : client) : client :=
  mkCl true (cl_ver cl) (cl_rpi0 cl) (cl_persist cl) (cl_subs cl) (cl_pending cl).

Theorem stored_copy_same s c cl sub m dr d :
  publish_to_client s c cl sub m dr = PQueue d ->
  publish_to_client s c (online cl) sub m false = PSend (wire (online cl) d) /\ 0 < d_qos d.
Proof.
  intro H. apply publish_queue_inv in H. destruct H as (B & -> & Q).
  rewrite publish_to_client_eq, B. split; [reflexivity|lia].
Qed.

(* a resumed session is sent exactly its stored copies, encoded for the new connection *)
Theorem resume_sends_stored orc drops s c ver persist rpi0 old :
  get_client s c = Some old ->
  o_deliv (snd (step orc drops s (OConnect c ver false persist rpi0)))
  = map (wire (mkCl true ver rpi0 (if ver <? 5 then true else persist) (cl_subs old) [])) (cl_pending old).
Proof. intro G. cbn [step]. rewrite G. cbn. reflexivity. Qed.
