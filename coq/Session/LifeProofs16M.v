(* C16 — will publications on the traces of the life-cycle model: they come from the armed will of a
   handler that ends or from the delayed-will table and carry what the connection registered, and
   every violation the specification monitor mon16 reports with a safety tag is a known finding.
   Part 1: what an operation does to the will-relevant part of the state (object fields id / version /
   expiry / open / phase / will, the delayed-will table, the will publications and the closes among the
   outputs), read off the cases of a step (LifeStep.step_cases) and summed up in [step_msum]: an
   operation is quiet, or a handler ends ([mend], the will-relevant part of LifeStep.ended), or the tick
   fires the due entries, or a connection is accepted ([maccept], of LifeStep.accepted); the theorems
   of parts 2 to 5 argue from that summary.
   Part 2: the history functions of the finding predicates; the table stays well formed.
   Part 3: sources and content of will publications.
   Part 4: the invariant [KI] coupling the monitor's entries with the model state, one lemma per case
   of [msum] (the end of a handler twice: its own end, and its teardown after a takeover).
   Part 5: the theorems over all histories.  Part 6: the order of the table is immaterial. *)
From MV Require Import Base.Val Base.ListMisc Session.Lifecycle Session.LifeSpec Session.LifeKF Session.LifeBase Session.LifeStep Session.LifeInv
  Session.LifeProofs13 Session.LifeProofs14 Session.LifeProofs15 Session.LifeProofs15J Session.LifeProofs16 Session.LifeEngine.
From Coq Require Import Lia Permutation.
Open Scope N_scope.

(* Part 1: what an operation does to the will-relevant part of the state *)

Definition wk (o : cobj) := (o_id o, o_ver o, o_sei o, o_open o, o_phase o, o_will o).

Definition wsame (s s' : state) : Prop := same_pr wk s s'.

Lemma wk_session o a b : wk (with_session o a b) = wk o.
Proof. reflexivity. Qed.
Lemma wk_tko o : wk (with_tko o) = wk o.
Proof. reflexivity. Qed.

Lemma wsame_trans a b c : wsame a b -> wsame b c -> wsame a c.
Proof. intros K1 K2 x. rewrite K2. apply K1. Qed.
Lemma wsame_objs s s' : st_objs s' = st_objs s -> wsame s s'.
Proof. intros E c. rewrite E. reflexivity. Qed.
Lemma wsame_set_used s x : wsame s (set_used s x).
Proof. apply wsame_objs. reflexivity. Qed.

Lemma changes_wsame e s s' : changes e s s' -> (forall o, wk (e o) = wk o) -> wsame s s'.
Proof. intros C H c. rewrite (C c). destruct (get_obj c (st_objs s)); cbn; [rewrite H|]; reflexivity. Qed.

Lemma others_upd s o c : o_conn o = c ->
  forall c', c' <> c -> option_map wk (get_obj c' (st_objs (upd_obj s o))) = option_map wk (get_obj c' (st_objs s)).
Proof. intros E c' N. unfold upd_obj. cbn. rewrite get_put_other by (rewrite E; exact N). reflexivity. Qed.
Lemma clear_inflights_wsame c s : wsame s (clear_inflights c s).
Proof. apply (changes_wsame _ _ _ (clear_inflights_upd c s)). intro o. unfold at_conn. destruct (_ =? c); reflexivity. Qed.
Lemma unsubscribe_client_wsame c s : wsame s (unsubscribe_client c s).
Proof. apply (changes_wsame _ _ _ (unsubscribe_client_upd c s)). intro o. unfold at_conn. destruct (_ =? c); reflexivity. Qed.

Definition wresp (g : cobj -> cobj) : Prop := forall a b, wk a = wk b -> wk (g a) = wk (g b).

Lemma wk_fields a b : wk a = wk b ->
  o_id a = o_id b /\ o_ver a = o_ver b /\ o_sei a = o_sei b /\ o_open a = o_open b /\ o_phase a = o_phase b /\ o_will a = o_will b.
Proof. unfold wk. intro H. inversion H. auto 10. Qed.

Lemma wresp_stopped now : wresp (fun o => stopped o now).
Proof.
  intros a b H. destruct (wk_fields a b H) as (A & B & C & D & E & F). unfold stopped. rewrite D. destruct (o_open b); [|exact H].
  unfold wk. cbn. rewrite A, B, C, E, F. reflexivity.
Qed.
Lemma wresp_will (f : will -> will) : wresp (fun o => with_will o (f (o_will o))).
Proof. intros a b H. destruct (wk_fields a b H) as (A & B & C & D & E & F). unfold wk. cbn. rewrite ?A, ?B, ?C, ?D, ?E, ?F. reflexivity. Qed.
Lemma wresp_phase ph : wresp (fun o => with_phase o ph).
Proof. intros a b H. destruct (wk_fields a b H) as (A & B & C & D & E & F). unfold wk. cbn. rewrite ?A, ?B, ?C, ?D, ?E, ?F. reflexivity. Qed.
Lemma wresp_sei v fl : wresp (fun o => with_sei o v fl).
Proof. intros a b H. destruct (wk_fields a b H) as (A & B & C & D & E & F). unfold wk. cbn. rewrite ?A, ?B, ?C, ?D, ?E, ?F. reflexivity. Qed.
Lemma wresp_id : wresp (fun o => o).
Proof. intros a b H. exact H. Qed.
Lemma wresp_comp g1 g2 : wresp g1 -> wresp g2 -> wresp (fun o => g2 (g1 o)).
Proof. intros A B a b H. apply B, A, H. Qed.
Lemma wresp_const_will w : wresp (fun o => with_will o w).
Proof. apply (wresp_will (fun _ => w)). Qed.
Lemma wresp_held : wresp held.
Proof.
  intros a b H. destruct (wk_fields a b H) as (A & B & C & D & E & F). unfold held. rewrite D, E.
  destruct ((match o_phase b with PhReading => true | _ => false end) && negb (o_open b)); [apply (wresp_phase PhHeld), H|exact H].
Qed.

Lemma stopped_fields x now :
  o_id (stopped x now) = o_id x /\ o_ver (stopped x now) = o_ver x /\ o_open (stopped x now) = false /\ o_will (stopped x now) = o_will x.
Proof. rewrite stopped_spec. auto. Qed.

Definition g_lwt (pub : bool) (x : cobj) : cobj := if pub then with_will x (will_clear_flag (o_will x)) else x.

Lemma wresp_lwt pub : wresp (g_lwt pub).
Proof. unfold g_lwt. destruct pub; [apply (wresp_will will_clear_flag)|apply wresp_id]. Qed.

Lemma closes_resend_nil c l : closes (resend c l) = [].
Proof. apply resend_obs. Qed.

Lemma wills_of_resend c l : wills_of (resend c l) = [].
Proof. apply resend_obs. Qed.

Definition quiet (s : state) (r : state * list out) : Prop :=
  wsame s (fst r) /\ st_wills (fst r) = st_wills s /\ wills_of (snd r) = [] /\ closes (snd r) = [].

Lemma quiet_refl s : quiet s (s, []).
Proof. repeat split. Qed.

Lemma quiet_seq s (r1 : state * list out) (r2 : state * list out) :
  quiet s r1 -> quiet (fst r1) r2 -> quiet s (fst r2, snd r1 ++ snd r2).
Proof.
  intros (A1 & B1 & C1 & D1) (A2 & B2 & C2 & D2). split; [eapply wsame_trans; eassumption|]. cbn [fst snd].
  split; [congruence|]. rewrite wills_of_app, closes_app, C1, C2, D1, D2. auto.
Qed.

Lemma retain_msg_objs k m s : st_objs (retain_msg k m s) = st_objs s /\ st_wills (retain_msg k m s) = st_wills s.
Proof. unfold retain_msg. destruct (k_retain k); [destruct (m_payload m)|]; split; reflexivity. Qed.

(* The end of connection c's handler, its own end or its teardown after a takeover: what LifeStep.ended says
   of the will-relevant part ([ended_mend]); ob is the object of c before.  The session expiry of the object
   afterwards is left open: a DISCONNECT may have changed it. *)
Definition mend (s : state) (r : state * list out) (c : N) (now : Z) (ob : cobj) (normal : bool) : Prop :=
  (forall c', c' <> c -> option_map wk (get_obj c' (st_objs (fst r))) = option_map wk (get_obj c' (st_objs s))) /\
  (exists o', get_obj c (st_objs (fst r)) = Some o' /\ o_id o' = o_id ob /\ o_ver o' = o_ver ob /\ o_open o' = false /\
              o_phase o' = PhDone /\ o_will o' = if normal then no_will else o_will (g_lwt (pub_now ob) ob)) /\
  st_wills (fst r) = (if normal then adel (o_id ob) (st_wills s)
                      else if reg_now ob then aset (o_id ob) (entry_of c now ob) (st_wills s) else st_wills s) /\
  wills_of (snd r) = (if normal then [] else if pub_now ob then [(c, will_msg (o_will ob))] else []) /\
  closes (snd r) = (if o_open ob then [c] else []).

Lemma mend_table s r c now ob normal id d : mend s r c now ob normal -> In (id, d) (st_wills (fst r)) ->
  In (id, d) (st_wills s) \/ (normal = false /\ reg_now ob = true /\ id = o_id ob /\ d = entry_of c now ob).
Proof.
  intros (_ & _ & T & _) I. rewrite T in I. destruct normal; [left; apply in_adel in I; apply I|].
  destruct (reg_now ob); [|left; exact I]. unfold aset in I. apply in_app_or in I.
  destruct I as [I|[I|[]]]; [left; apply in_adel in I; apply I|]. inversion I. auto.
Qed.

Lemma ended_mend k s o c now ob s' outs : ending s o = Some (c, now, ob) ->
  ended k o c now ob s s' outs -> mend s (s', outs) c now ob (end_normal o ob).
Proof.
  intros EN E. destruct (ended_obs k s o c now ob s' outs EN E) as (WO & CO). destruct E as [_ _ _ EW (dl & pubs & _ & CH & _)].
  destruct (ending_obj s o c now ob EN) as [G _]. unfold mend. cbn [fst snd]. split; [|split; [|split; [exact EW|split; [|exact CO]]]].
  - (* the others only receive deliveries *)
    intros c' N. rewrite (CH c'). destruct (get_obj c' (st_objs s)) as [x|] eqn:Gx; [|reflexivity]. cbn. rewrite at_conn_other; [reflexivity|].
    cbn. rewrite (get_obj_conn Gx). exact N.
  - rewrite (CH c), G. eexists. split; [reflexivity|]. rewrite at_conn_same by apply (get_obj_conn G). cbn. repeat split.
    destruct (end_normal o ob); [reflexivity|]. unfold disarm, g_lwt, pub_now. cbn. destruct (w_flag (o_will ob) && _); reflexivity.
  - rewrite WO. destruct (end_normal o ob); reflexivity.
Qed.

Definition wkn (o : cobj) := (o_id o, o_ver o, o_sei o, o_open o, o_phase o).

(* the object keeps what [wkn] lists and its will, unless the will is disarmed: sendDelayedLWT clears the will of the
   client registered under the identifier of each entry it fires, whichever connection registered the entry *)
Definition cleared (o o' : cobj) : Prop := wkn o' = wkn o /\ (o_will o' = o_will o \/ w_flag (o_will o') = false).
Definition wcleared : state -> state -> Prop := obj_rel cleared.

Lemma cleared_refl o : cleared o o.
Proof. split; auto. Qed.

Lemma wcleared_refl s : wcleared s s.
Proof. apply obj_rel_refl, cleared_refl. Qed.

Lemma wcleared_trans a b c : wcleared a b -> wcleared b c -> wcleared a c.
Proof.
  apply obj_rel_trans. intros x y z [K1 W1] [K2 W2]. split; [congruence|]. destruct W2 as [W2|W2]; [rewrite W2; exact W1|right; exact W2].
Qed.

Lemma wsame_wcleared s s' : wsame s s' -> wcleared s s'.
Proof.
  intros H c. specialize (H c). destruct (get_obj c (st_objs s)) as [o|], (get_obj c (st_objs s')) as [o'|]; try discriminate H; [|exact I].
  injection H as A B C D E F. split; [unfold wkn; rewrite A, B, C, D, E; reflexivity|left; exact F].
Qed.

Lemma changes_wcleared e s s' : changes e s s' -> (forall o, cleared o (e o)) -> wcleared s s'.
Proof. intros C H c. rewrite (C c). destruct (get_obj c (st_objs s)); cbn; auto. Qed.

Lemma fired_wcleared l s s' outs : ran fired l s s' outs -> wcleared s s'.
Proof.
  induction 1 as [s|a l s s1 s2 o1 o2 [_ _ (dl & pubs & _ & CH & _)] _ IH]; [apply wcleared_refl|].
  eapply wcleared_trans; [|exact IH]. apply (changes_wcleared _ _ _ CH). intro o.
  destruct (client_of s (fst a)); [unfold at_conn; destruct (_ =? _)|]; split; auto.
Qed.

Lemma in_fold_adel (dl : list (bytes * dwill)) : forall (tbl : list (bytes * dwill)) (x : bytes * dwill),
  In x (fold_left (fun t e => adel (fst e) t) dl tbl) <-> In x tbl /\ ~ In (fst x) (map fst dl).
Proof.
  induction dl as [|e r IH]; intros tbl x; cbn [fold_left map]; [tauto|].
  rewrite IH. split.
  - intros [I N]. apply in_adel in I. destruct I as [I NE]. split; [exact I|]. intros [E|E]; [congruence|exact (N E)].
  - intros [I N]. split; [|intro E; apply N; right; exact E].
    unfold adel. apply filter_In. split; [exact I|]. destruct (beq_bytes (fst x) (fst e)) eqn:B; [|reflexivity].
    exfalso. apply N. left. symmetry. apply bb_eq, B.
Qed.

Lemma nodup_fold_adel (dl : list (bytes * dwill)) : forall tbl : list (bytes * dwill),
  NoDup (map fst tbl) -> NoDup (map fst (fold_left (fun t e => adel (fst e) t) dl tbl)).
Proof. induction dl as [|e r IH]; intros tbl ND; cbn [fold_left]; [exact ND|]. apply IH, nodup_adel, ND. Qed.

(* entries go by key: under a key that occurred twice an entry that is not due would go with one that is *)
Lemma tick_table now (tbl : list (bytes * dwill)) (x : bytes * dwill) : NoDup (map fst tbl) ->
  In x (fold_left (fun t e => adel (fst e) t) (filter (due now) tbl) tbl) <-> In x tbl /\ due now x = false.
Proof.
  intro ND. rewrite in_fold_adel. split; intros [I H]; (split; [exact I|]).
  - destruct (due now x) eqn:D; [|reflexivity]. exfalso. apply H. apply in_map. apply filter_In. auto.
  - intro IM. apply in_map_iff in IM. destruct IM as (y & EK & IY). apply filter_In in IY. destruct IY as [IY DY].
    destruct x as [kx vx], y as [ky vy]. cbn in EK. subst ky.
    pose proof (in_aget_nodup kx vx tbl ND I) as A1. pose proof (in_aget_nodup kx vy tbl ND IY) as A2.
    rewrite A1 in A2. inversion A2; subst vy. congruence.
Qed.

(* a publication only adds to in-flight lists *)
Lemma published_quiet s s' pubs : published s s' pubs -> quiet s (s', pubs).
Proof.
  intros [_ WL (dl & _ & CH) PO]. destruct (pubs_obs s pubs PO) as (PW & PC). split; [|auto]. apply (changes_wsame _ _ _ CH). reflexivity.
Qed.

(* clearExpiredClients: only subscriptions and in-flight lists go *)
Lemma dropped_quiet l s s' outs : ran dropped l s s' outs -> quiet s (s', outs).
Proof.
  induction 1 as [s|a l s s1 s2 o1 o2 [_ CH _ _ WL ->] _ IH]; [apply quiet_refl|]. apply (quiet_seq s (s1, [OExpired (fst a)]) (s2, o2)); [|exact IH].
  split; [|auto]. apply (changes_wsame _ _ _ CH). intro o. unfold at_conn. destruct (_ =? _); reflexivity.
Qed.

Definition maccept (k : caps) (s : state) (r : state * list out) (c : N) (now : Z) (p : cparams) (e : bytes) : Prop :=
  let nw := parse_connect c p e in
  (exists n2, get_obj c (st_objs (fst r)) = Some n2 /\ o_id n2 = e /\ o_ver n2 = cp_ver p /\ o_sei n2 = capN k (o_sei nw) /\
              o_open n2 = true /\ o_will n2 = o_will nw) /\
  (* the connection that held the identifier is stopped and its handler left to its teardown; the others are untouched *)
  (forall c', c' <> c -> (forall eo, client_of s e = Some eo -> c' <> o_conn eo) -> get_obj c' (st_objs (fst r)) = get_obj c' (st_objs s)) /\
  (forall eo, client_of s e = Some eo -> o_conn eo <> c ->
     exists o', get_obj (o_conn eo) (st_objs (fst r)) = Some o' /\ o_id o' = o_id eo /\ o_ver o' = o_ver eo /\ o_open o' = false /\
                o_will o' = o_will eo /\ o_phase o' = match o_phase eo with PhReading => PhHeld | ph => ph end) /\
  closes (snd r) = match client_of s e with Some eo => if o_open eo then [o_conn eo] else [] | None => [] end /\
  st_wills (fst r) = adel e (st_wills s) /\ wills_of (snd r) = [].

Lemma accepted_maccept k c now p e s s' : accepted k c now p e s s' -> maccept k s (s', accept_outs c p (client_of s e)) c now p e.
Proof.
  intros [_ NW HO OT _ _ WL]. destruct (accept_obs c p (client_of s e)) as (WO & CO & _).
  destruct (new_obj_fields k c p e (client_of s e)) as (_ & KEY & V & S & WI & _). injection KEY as KI _ KO _ _.
  unfold maccept. cbn [fst snd]. split; [eexists; split; [exact NW|auto 10]|]. split; [|split; [|auto]].
  - exact OT.
  - intros eo CE N. rewrite (HO eo CE N), taken_over_spec. eexists. split; [reflexivity|]. cbn. auto.
Qed.

(* why an operation in which nothing will-relevant happens was not the end of a handler or an accepted CONNECT
   (nobody was reading, no handler was held, no CONNACK of success): ki_quiet needs the reason to show that the
   monitor moves no entry either.  What such an operation closes is at most a connection number not used before
   (a refused first packet). *)
Definition quiet_op (s : state) (o : op) (outs : list out) : Prop :=
  match o with
  | OConnect c _ _ _ _ => success_connack (pkts_to c outs) = None
  | ODisconnect c _ _ _ | ONetClose c _ | OSecondConnect c _ => reading s c = None
  | OTeardown c _ => forall ob, get_obj c (st_objs s) = Some ob -> o_phase ob <> PhHeld
  | OTickWill _ => False
  | _ => True
  end.

Inductive msum (k : caps) (s : state) (o : op) (r : state * list out) : Prop :=
| MS_quiet :
    wsame s (fst r) -> st_wills (fst r) = st_wills s -> wills_of (snd r) = [] ->
    (forall c, In c (closes (snd r)) -> memN c (st_used s) = false) -> quiet_op s o (snd r) -> msum k s o r
| MS_ended c now ob : ending s o = Some (c, now, ob) -> mend s r c now ob (end_normal o ob) -> msum k s o r
| MS_tick now :
    o = OTickWill now -> wcleared s (fst r) ->
    st_wills (fst r) = fold_left (fun t e => adel (fst e) t) (filter (due now) (st_wills s)) (st_wills s) ->
    wills_of (snd r) = map (fun e => (d_conn (snd e), d_msg (snd e))) (filter (due now) (st_wills s)) ->
    closes (snd r) = [] -> msum k s o r
| MS_accept c now p e sp :
    o = OConnect c now p true e -> memN c (st_used s) = false ->
    success_connack (pkts_to c (snd r)) = Some sp -> maccept k s r c now p e -> msum k s o r.

Lemma msum_quiet k s o r : quiet s r -> quiet_op s o (snd r) -> msum k s o r.
Proof. intros (A & B & C & D) Q. apply MS_quiet; auto. rewrite D. intros x []. Qed.

Theorem step_msum k s o : msum k s o (step k s o).
Proof.
  pose proof (step_cases k s o) as SC. destruct (step k s o) as [s' outs]. cbn [fst snd] in SC.
  destruct SC as [o ID|o c outs NEW R|c now p e s' M T V A|o c now ob s' outs EN E|now s' outs RN|now s' outs RN|c f q ob s' R [(_ & _ & WL) CH _]|c m ob s' pubs R PB].
  - apply msum_quiet; [apply quiet_refl|]. destruct o; cbn in ID |- *; auto; try (destruct (reading s c); [discriminate|reflexivity]).
    intros ob G. rewrite G in ID. intro PH. rewrite PH in ID. discriminate.
  - destruct (refusal_obs c outs R) as (WO & CO & SC). apply MS_quiet; cbn [fst snd]; [apply wsame_set_used|reflexivity|exact WO| |].
    + rewrite CO. intros x [<-|[]]. apply (is_new_conn_fresh s o c NEW).
    + destruct o; try exact I; try discriminate NEW. cbn in NEW |- *. destruct (memN c0 (st_used s)); [discriminate|]. inversion NEW; subst c0. exact SC.
  - eapply (MS_accept k s _ _ c now p e _ eq_refl M); [apply accept_obs|apply (accepted_maccept k c now p e s s' A)].
  - apply (MS_ended k s o _ c now ob EN), (ended_mend k s o c now ob s' outs EN E).
  - apply msum_quiet; [apply (dropped_quiet _ _ _ _ RN)|exact I].
  - destruct (fired_obs _ _ _ _ RN) as (A & B & D). apply (MS_tick k s _ (s', outs) now eq_refl (fired_wcleared _ _ _ _ RN) D A B).
  - apply msum_quiet; [|exact I]. split; [|auto]. apply (changes_wsame _ _ _ CH). intro x. unfold at_conn. destruct (_ =? c); reflexivity.
  - apply msum_quiet; [apply published_quiet, PB|exact I].
Qed.

(* the same, function by function *)

Lemma step_mend k s o c now ob : ending s o = Some (c, now, ob) -> mend s (step k s o) c now ob (end_normal o ob).
Proof. intro EN. rewrite (surjective_pairing (step k s o)). exact (ended_mend k s o c now ob _ _ EN (step_ended k s o c now ob EN)). Qed.

Lemma do_netclose_mend k c now s ob : reading s c = Some ob -> mend s (do_netclose k c now s) c now ob false.
Proof. intro R. apply (step_mend k s (ONetClose c now)). cbn. rewrite R. reflexivity. Qed.

Lemma do_second_connect_mend k c now s ob : reading s c = Some ob -> mend s (do_second_connect k c now s) c now ob false.
Proof. intro R. apply (step_mend k s (OSecondConnect c now)). cbn. rewrite R. reflexivity. Qed.

Lemma do_disconnect_mend k c now rc sei s ob : reading s c = Some ob ->
  mend s (do_disconnect k c now rc sei s) c now ob (negb (raises ob sei) && (rc =? 0)).
Proof. intro R. apply (step_mend k s (ODisconnect c now rc sei)). cbn. rewrite R. reflexivity. Qed.

Lemma do_teardown_mend k c now s ob : get_obj c (st_objs s) = Some ob -> o_phase ob = PhHeld ->
  mend s (do_teardown k c now s) c now ob false.
Proof. intros G P. apply (step_mend k s (OTeardown c now)). cbn. rewrite G, P. reflexivity. Qed.

Lemma do_publish_quiet k c m s : quiet s (do_publish k c m s).
Proof.
  unfold do_publish. destruct (reading s c); [|apply quiet_refl]. rewrite (surjective_pairing (publish _ _ _)). apply published_quiet, retained_published.
Qed.

Lemma tick_clients_quiet k now l : forall s, quiet s (tick_clients k now l s).
Proof. intro s. rewrite (surjective_pairing (tick_clients k now l s)). apply (dropped_quiet _ _ _ _ (tick_clients_ran k now l s)). Qed.

Lemma tick_will_eff k now l : forall s,
  wcleared s (fst (tick_will k now l s)) /\
  st_wills (fst (tick_will k now l s)) = fold_left (fun t e => adel (fst e) t) (filter (due now) l) (st_wills s) /\
  wills_of (snd (tick_will k now l s)) = map (fun e => (d_conn (snd e), d_msg (snd e))) (filter (due now) l) /\
  closes (snd (tick_will k now l s)) = [].
Proof.
  intro s. pose proof (tick_will_ran k now l s) as R. destruct (fired_obs _ _ _ _ R) as (A & B & D). pose proof (fired_wcleared _ _ _ _ R). auto.
Qed.

(* Part 2: the history functions of the known-finding predicates, running a monitor with the history
   so far, and the well-formedness of the delayed-will table *)

Lemma params_of_app c h r : params_of c (h ++ r) = match params_of c h with Some p => Some p | None => params_of c r end.
Proof.
  induction h as [|b t IH]; cbn [app params_of]; [reflexivity|].
  destruct (b_op b); try exact IH. destruct (c0 =? c); [reflexivity|exact IH].
Qed.

Lemma view_of_app k c h r : forall cur, view_of k c cur (h ++ r) = view_of k c (view_of k c cur h) r.
Proof. induction h as [|b t IH]; intro cur; cbn [app view_of]; [reflexivity|apply IH]. Qed.

Lemma tol_app c h r : taken_over_live c (h ++ r) = taken_over_live c h || taken_over_live c r.
Proof. induction h as [|b t IH]; cbn [app taken_over_live]; [reflexivity|]. rewrite IH, orb_assoc. reflexivity. Qed.

Lemma upto_app (h0 : list obs) b r : upto (length h0) (h0 ++ b :: r) = h0 ++ [b].
Proof. unfold upto. induction h0 as [|a t IH]; cbn; [reflexivity|]. f_equal. exact IH. Qed.

Lemma nth_obs_app (h0 : list obs) b r : nth_obs (length h0) (h0 ++ b :: r) = Some b.
Proof. induction h0 as [|a t IH]; cbn; [reflexivity|exact IH]. Qed.

(* protocol sanity of an operation: only an MQTT 5 CONNECT carries a will delay, only an MQTT 5
   connection sends a DISCONNECT with properties (the decoder cannot produce anything else) *)
Definition sane_op (s : state) (o : op) : Prop :=
  match o with
  | OConnect _ _ p _ _ => cp_ver p <> 5 -> cp_willdelay p = 0
  | ODisconnect c _ _ (Some _) => forall ob, reading s c = Some ob -> o_ver ob = 5
  | _ => True
  end.

Fixpoint sane_ops (k : caps) (s : state) (ops : list op) : Prop :=
  match ops with
  | [] => True
  | o :: r => sane_op s o /\ sane_ops k (fst (step k s o)) r
  end.

Lemma run_mon_hist {M} k (stepf : nat -> M -> obs -> M * list viol) (Good : list obs -> viol -> Prop)
    (Inv : M -> state -> list obs -> Prop) :
  (forall m s h0 o, Inv m s h0 -> sane_op s o ->
     Inv (fst (stepf (length h0) m (obs_of (tstep_of k s o)))) (fst (step k s o)) (h0 ++ [obs_of (tstep_of k s o)]) /\
     Forall (fun v => forall r, Good (h0 ++ obs_of (tstep_of k s o) :: r) v) (snd (stepf (length h0) m (obs_of (tstep_of k s o))))) ->
  forall ops m s h0, Inv m s h0 -> sane_ops k s ops ->
    Forall (Good (h0 ++ map obs_of (trace k s ops))) (run_mon stepf (length h0) m (map obs_of (trace k s ops))).
Proof.
  intros H ops. induction ops as [|o r IH]; intros m s h0 I S; [constructor|].
  rewrite trace_cons. cbn [map run_mon]. destruct S as [S1 S2].
  destruct (H m s h0 o I S1) as [I' F].
  destruct (stepf (length h0) m (obs_of (tstep_of k s o))) as [m' v]. cbn [fst snd] in *.
  apply Forall_app. split.
  - eapply Forall_impl; [|exact F]. intros a HA. apply HA.
  - specialize (IH m' (fst (step k s o)) (h0 ++ [obs_of (tstep_of k s o)]) I' S2).
    rewrite app_length in IH. cbn [length] in IH. rewrite Nat.add_1_r in IH. rewrite <- app_assoc in IH. exact IH.
Qed.

Lemma wk_obj_back s s' c o' : option_map wk (get_obj c (st_objs s')) = option_map wk (get_obj c (st_objs s)) ->
  get_obj c (st_objs s') = Some o' -> exists o, get_obj c (st_objs s) = Some o /\ wk o' = wk o.
Proof. intros H G. rewrite G in H. destruct (get_obj c (st_objs s)) as [o|]; [|discriminate]. exists o. split; [reflexivity|]. cbn in H. congruence. Qed.
Lemma wk_obj_fwd s s' c o : option_map wk (get_obj c (st_objs s')) = option_map wk (get_obj c (st_objs s)) ->
  get_obj c (st_objs s) = Some o -> exists o', get_obj c (st_objs s') = Some o' /\ wk o' = wk o.
Proof. intros H G. rewrite G in H. destruct (get_obj c (st_objs s')) as [o'|]; [|discriminate]. exists o'. split; [reflexivity|]. cbn in H. congruence. Qed.

Lemma wcleared_fwd s s' c o : wcleared s s' -> get_obj c (st_objs s) = Some o ->
  exists o', get_obj c (st_objs s') = Some o' /\ cleared o o'.
Proof. apply @obj_rel_fwd. Qed.
Lemma wcleared_back s s' c o' : wcleared s s' -> get_obj c (st_objs s') = Some o' ->
  exists o, get_obj c (st_objs s) = Some o /\ cleared o o'.
Proof. apply @obj_rel_back. Qed.

Lemma wkn_fields a b : wkn a = wkn b -> o_id a = o_id b /\ o_ver a = o_ver b /\ o_sei a = o_sei b /\ o_open a = o_open b /\ o_phase a = o_phase b.
Proof. unfold wkn. intro H. inversion H. auto 10. Qed.

Lemma wk_wkn a b : wk a = wk b -> wkn a = wkn b /\ o_will a = o_will b.
Proof. intro H. destruct (wk_fields _ _ H) as (A & B & C & D & E & F). split; [unfold wkn; congruence|exact F]. Qed.

Lemma wk_cleared_fwd s s' c o : option_map wk (get_obj c (st_objs s')) = option_map wk (get_obj c (st_objs s)) ->
  get_obj c (st_objs s) = Some o -> exists o', get_obj c (st_objs s') = Some o' /\ cleared o o'.
Proof. intros H G. destruct (wk_obj_fwd s s' c o H G) as (o' & G' & E). destruct (wk_wkn _ _ E) as [K W]. exists o'. split; [exact G'|split; auto]. Qed.

Lemma client_of_reg s e eo : wf s -> client_of s e = Some eo ->
  aget e (st_clients s) = Some (o_conn eo) /\ get_obj (o_conn eo) (st_objs s) = Some eo /\ o_id eo = e.
Proof.
  intros W CO. unfold client_of in CO. destruct (aget e (st_clients s)) as [ec|] eqn:A; [|discriminate].
  rewrite (get_obj_conn CO). split; [reflexivity|]. split; [exact CO|].
  destruct (wf_reg s W e ec A) as (o & G & Ix & _). rewrite G in CO. congruence.
Qed.

Lemma ww_done_keep s' c ox id :
  (exists ox', get_obj c (st_objs s') = Some ox' /\ cleared ox ox') -> o_id ox = id -> o_phase ox = PhDone ->
  exists ox', get_obj c (st_objs s') = Some ox' /\ o_id ox' = id /\ o_phase ox' = PhDone.
Proof.
  intros (ox' & G' & E & _) I P. destruct (wkn_fields _ _ E) as (A & _ & _ & _ & B). exists ox'. split; [exact G'|split; congruence].
Qed.

Lemma wwf_mend s r c now ob normal : wwf s -> get_obj c (st_objs s) = Some ob -> mend s r c now ob normal -> wwf (fst r).
Proof.
  intros [ND WD] G M. pose proof M as (OT & (o' & G' & I' & _ & _ & P' & _) & T & _). split.
  - rewrite T. destruct normal; [apply nodup_adel, ND|]. destruct (reg_now ob); [apply nodup_aset, ND|exact ND].
  - intros id d I. destruct (mend_table s r c now ob normal id d M I) as [I0|(_ & _ & -> & ->)].
    + destruct (WD id d I0) as (ox & Gx & Ix & Px). destruct (N.eq_dec (d_conn d) c) as [E|NE].
      * rewrite E in *. rewrite G in Gx. inversion Gx; subst ox. exists o'. split; [exact G'|split; [congruence|exact P']].
      * apply (ww_done_keep (fst r) _ ox id (wk_cleared_fwd s _ _ ox (OT _ NE) Gx) Ix Px).
    + cbn [d_conn entry_of]. exists o'. auto.
Qed.

Lemma unused_noobj s c : wf s -> memN c (st_used s) = false -> hasobj s c = false.
Proof. intros W M. destruct (hasobj s c) eqn:H; [apply (wf_used s W) in H; congruence|reflexivity]. Qed.

Theorem step_wwf k s o : wf s -> wwf s -> wwf (fst (step k s o)).
Proof.
  intros W WW. pose proof (step_msum k s o) as MS. destruct (step k s o) as [s' outs]. cbn [fst]. pose proof WW as [ND WD].
  destruct MS as [WS TW _ _ _|c now ob EN M|now _ WC T _ _|c now p e sp _ MU _ (_ & OT & _ & _ & T & _)]; cbn [fst snd] in *.
  - split; [rewrite TW; exact ND|]. intros id d I. rewrite TW in I. destruct (WD id d I) as (ox & Gx & Ix & Px).
    apply (ww_done_keep s' _ ox id (wk_cleared_fwd s s' _ ox (WS _) Gx) Ix Px).
  - apply (wwf_mend s (s', outs) c now ob _ WW (proj1 (ending_obj s o c now ob EN)) M).
  - split; [rewrite T; apply nodup_fold_adel, ND|]. intros id d I. rewrite T in I. apply (tick_table now _ _ ND) in I. destruct I as [I _].
    destruct (WD id d I) as (ox & Gx & Ix & Px). apply (ww_done_keep s' _ ox id (wcleared_fwd s s' _ ox WC Gx) Ix Px).
  - pose proof (unused_noobj s c W MU) as HS.
    split; [rewrite T; apply nodup_adel, ND|]. intros id d I. rewrite T in I. apply in_adel in I. destruct I as [I NE]. cbn [fst] in NE.
    destruct (WD id d I) as (ox & Gx & Ix & Px).
    assert (NC : d_conn d <> c) by (intro E; rewrite E in Gx; unfold hasobj in HS; rewrite Gx in HS; discriminate).
    exists ox. rewrite (OT _ NC); [auto|]. intros eo CO E. destruct (client_of_reg s e eo W CO) as (_ & GE & IE). rewrite E, GE in Gx. inversion Gx; subst ox. congruence.
Qed.

(* Part 3: where will publications come from, and what they carry *)

Lemma is_armed_back o o' : cleared o o' -> is_armed o' -> is_armed o /\ o_will o' = o_will o.
Proof.
  intros [K W] [F P]. destruct W as [W|W]; [|congruence]. destruct (wkn_fields _ _ K) as (_ & _ & _ & _ & PH).
  split; [split; congruence|exact W].
Qed.

Lemma held_stopped_fields eo now :
  o_id (held (stopped eo now)) = o_id eo /\ o_ver (held (stopped eo now)) = o_ver eo /\ o_sei (held (stopped eo now)) = o_sei eo /\
  o_open (held (stopped eo now)) = false /\ o_will (held (stopped eo now)) = o_will eo /\
  o_phase (held (stopped eo now)) = (match o_phase eo with PhReading => PhHeld | ph => ph end).
Proof. unfold held. rewrite stopped_spec. cbn. destruct (o_phase eo) eqn:PH; cbn; rewrite ?PH; auto 10. Qed.

Lemma ending_live s o c now ob : ending s o = Some (c, now, ob) -> get_obj c (st_objs s) = Some ob /\ o_phase ob <> PhDone.
Proof.
  intro EN. destruct (ending_obj s o c now ob EN) as [G SH]. split; [exact G|].
  destruct SH as [(R & _)|[_ PH]]; [rewrite (proj2 (reading_phase s c ob R))|rewrite PH]; discriminate.
Qed.

Theorem step_src k s o c m : In m (wills_for c (snd (step k s o))) -> src_ok s c m.
Proof.
  rewrite wills_for_of. intro I. destruct (step_msum k s o) as [_ _ WO _ _|c0 now ob EN M|now _ _ _ WO _|c0 now p e sp _ _ _ (_ & _ & _ & _ & _ & WO)].
  - rewrite WO in I. destruct I.
  - (* sendLWT has published the will of the handler that ends: it was armed *)
    destruct (ending_live s o c0 now ob EN) as [G PH]. destruct M as (_ & _ & _ & WO & _). rewrite WO in I. destruct (end_normal o ob); [destruct I|].
    destruct (pub_now ob) eqn:PN; [|destruct I]. destruct I as [E|[]]. inversion E; subst c m.
    unfold pub_now in PN. apply andb_true_iff in PN. left. exists ob. split; [exact G|]. split; [split; [apply PN|exact PH]|reflexivity].
  - rewrite WO in I. apply in_map_iff in I. destruct I as ([id d] & E & I). apply filter_In in I. inversion E; subst c m.
    right. exists id, d. tauto.
  - rewrite WO in I. destruct I.
Qed.

(* content: armed wills and table entries carry what their connection registered at CONNECT *)
Definition cw (reg : list (N * msg)) (s : state) : Prop :=
  (forall c o, get_obj c (st_objs s) = Some o -> is_armed o -> In (c, will_msg (o_will o)) reg) /\
  (forall id d, In (id, d) (st_wills s) -> In (d_conn d, d_msg d) reg).

Lemma cw_init : cw [] init.
Proof. split; [intros c o G; discriminate G|intros id d []]. Qed.

Lemma cw_obj reg s c o o' : cw reg s -> get_obj c (st_objs s) = Some o ->
  (is_armed o' -> is_armed o /\ o_will o' = o_will o) -> is_armed o' -> In (c, will_msg (o_will o')) reg.
Proof. intros [C1 _] G H A. destruct (H A) as [A0 E]. rewrite E. apply (C1 c o G A0). Qed.

Lemma is_armed_wk o o' : wk o' = wk o -> is_armed o' -> is_armed o /\ o_will o' = o_will o.
Proof. intro E. destruct (wk_wkn _ _ E) as [K W]. apply (is_armed_back o o' (conj K (or_introl W))). Qed.

Lemma cw_mend reg s r c now ob normal :
  cw reg s -> get_obj c (st_objs s) = Some ob -> o_phase ob <> PhDone -> mend s r c now ob normal -> cw reg (fst r).
Proof.
  intros C G PH M. pose proof M as (OT & (o' & G' & _ & _ & _ & PD & _) & _). split.
  - intros c' oc' GC A. destruct (N.eq_dec c' c) as [->|NE].
    + rewrite G' in GC. inversion GC; subst oc'. destruct A as [_ A]. contradiction.
    + destruct (wk_obj_back s (fst r) c' oc' (OT c' NE) GC) as (oc & G0 & E). apply (cw_obj reg s c' oc oc' C G0 (is_armed_wk _ _ E) A).
  - intros id d I. destruct (mend_table s r c now ob normal id d M I) as [I0|(_ & RG & _ & ->)]; [apply (proj2 C id d I0)|].
    unfold reg_now in RG. apply andb_true_iff in RG. apply (proj1 C c ob G). split; [apply RG|exact PH].
Qed.

Lemma cw_more reg reg' s : cw reg s -> cw (reg ++ reg') s.
Proof. intros [C1 C2]. split; intros; apply in_or_app; left; eauto. Qed.

Lemma step_cw k reg s o : wwf s -> cw reg s -> cw (reg ++ reg_step o) (fst (step k s o)).
Proof.
  intros WW C. pose proof (step_msum k s o) as MS. destruct (step k s o) as [s' outs]. cbn [fst].
  destruct MS as [WS TW _ _ _|c now ob EN M|now _ WC T _ _|c now p e sp -> _ _ MA]; cbn [fst snd] in *.
  - apply cw_more. split.
    + intros c o' G' A. destruct (wk_obj_back s s' c o' (WS c) G') as (oc & G & E). apply (cw_obj reg s c oc o' C G (is_armed_wk _ _ E) A).
    + intros id d I. rewrite TW in I. apply (proj2 C id d I).
  - destruct (ending_live s o c now ob EN) as [G PH]. apply cw_more, (cw_mend reg s (s', outs) c now ob _ C G PH M).
  - apply cw_more. split.
    + intros c o' G' A. destruct (wcleared_back s s' c o' WC G') as (oc & G & CR). apply (cw_obj reg s c oc o' C G (is_armed_back oc o' CR) A).
    + intros id d I. rewrite T in I. apply (tick_table now _ _ (ww_nodup s WW)) in I. apply (proj2 C id d (proj1 I)).
  - destruct MA as ((n2 & G2 & _ & _ & _ & _ & W2) & OT & TKO & _ & T & _). cbn [fst snd] in *. split.
    + intros c' o' G' A. destruct (N.eq_dec c' c) as [->|NE].
      * (* the new connection: armed with the will of its CONNECT *)
        rewrite G2 in G'. inversion G'; subst o'. destruct A as [FL _]. rewrite W2 in FL |- *. cbn [o_will parse_connect] in *.
        apply in_or_app. right. cbn [reg_step]. destruct (cp_willflag p); [left; reflexivity|discriminate FL].
      * apply in_or_app. left.
        destruct (holder_or_not s e c') as [(eo & CO & ->)|NR].
        -- (* the connection taken over keeps its will; it is stopped and, at most, moved to PhHeld *)
           destruct (TKO eo CO NE) as (oe' & GE' & _ & _ & _ & KW & KP).
           rewrite GE' in G'. inversion G'; subst oe'. apply (cw_obj reg s _ eo o' C (client_of_obj CO)); [|exact A].
           intros [FL PHN]. split; [split; [congruence|]|exact KW].
           intro PD. rewrite PD in KP. contradiction.
        -- rewrite (OT c' NE NR) in G'. apply (proj1 C c' o' G' A).
    + intros id d I. rewrite T in I. apply in_adel in I. apply in_or_app. left. apply (proj2 C id d (proj1 I)).
Qed.

(* every will publication in every history carries the message its connection registered at CONNECT *)
Theorem wills_have_registered_content k : forall ops s reg,
  wf s -> wwf s -> cw reg s ->
  forall t c m, In t (trace k s ops) -> In m (wills_for c (t_outs t)) -> In (c, m) (reg ++ reg_of ops).
Proof.
  induction ops as [|o r IH]; intros s reg V WW C t c m IT IM; [destruct IT|].
  rewrite trace_cons in IT. destruct IT as [<-|IT].
  - unfold tstep_of in IM. cbn [t_outs] in IM. apply step_src in IM. apply in_or_app. left.
    destruct C as [C1 C2]. destruct IM as [(ob & G & AR & ->)|(id & d & I & <- & <-)]; [apply (C1 c ob G AR)|apply (C2 id d I)].
  - cbn [reg_of]. rewrite app_assoc.
    apply (IH (fst (step k s o)) (reg ++ reg_step o) (step_wf k s o V) (step_wwf k s o V WW) (step_cw k reg s o WW C) t c m IT IM).
Qed.

Theorem wills_content_from_init k ops t c m :
  In t (trace k init ops) -> In m (wills_for c (t_outs t)) -> In (c, m) (reg_of ops).
Proof. apply (wills_have_registered_content k ops init [] wf_init wwf_init cw_init). Qed.

(* Part 4: the coupling invariant between the specification's view (the statuses of mon16) and the
   state of the model.
   [status_ok], for the entry x of a connection with object o and CONNECT parameters p: without a will
   nothing is armed or pending; an armed will belongs to an open connection; a will that is due by the end
   of the teardown (WMust) belongs to a held handler that was taken over alive; a pending will belongs to
   a finished handler, its deadline is the monitor's and any table entry carries the deadline the broker
   stored; after publication or a normal DISCONNECT nothing is left; what can still come after a
   cancellation or after a reported failure is what the known findings describe (taken over alive with
   a delayed will; stored delay beyond the session expiry).
   [pcr] ([pc]: for some object and parameters): the entry agrees with the object and with the CONNECT
   recorded in the history, an open connection still has the expiry of its CONNECT and no status beyond
   WArmed, an armed will and a table entry carry the registered message, and the view the finding
   predicates compute is the monitor's.
   [KI]: every entry is coupled ([pc]), every object has an entry, unused connection numbers do not occur
   in the history. *)

Definition srcE (s : state) (c : N) : Prop := exists id d, In (id, d) (st_wills s) /\ d_conn d = c.

Definition req0 (k : caps) (p : cparams) : N := if cp_seiflag p then capN k (cp_sei p) else 0.
Definition delay0 (p : cparams) : N := if cp_ver p =? 5 then cp_willdelay p else 0.

Definition status_ok (k : caps) (s : state) (h0 : list obs) (p : cparams) (o : cobj) (x : sconn) : Prop :=
  let c := x_conn x in
  match x_wst x with
  | WNone => w_flag (o_will o) = false /\ ~ srcE s c
  | WArmed => x_open x = true
  | WMust => o_phase o = PhHeld /\ taken_over_live c h0 = true
  | WCancelled => (is_armed o \/ srcE s c) -> taken_over_live c h0 = true /\ (is_armed o -> 0 < w_delay (o_will o))
  | WPending t due => o_phase o = PhDone /\ due = (t + Z.of_N (minN (x_delay x) (eff k x)))%Z /\
                      (forall id d, In (id, d) (st_wills s) -> d_conn d = c -> d_due d = (t + Z.of_N (stored_delay p))%Z)
  | WPublished | WNormal => o_phase o = PhDone /\ ~ srcE s c
  | WFailed => o_phase o = PhDone /\ (srcE s c -> taken_over_live c h0 = true \/ (eff k x <? stored_delay p) = true)
  end.

Record pcr (k : caps) (s : state) (h0 : list obs) (x : sconn) (o : cobj) (p : cparams) : Prop := {
  pc_get : get_obj (x_conn x) (st_objs s) = Some o;
  pc_par : params_of (x_conn x) h0 = Some p;
  pc_id : x_id x = o_id o;
  pc_ver : x_ver x = cp_ver p;
  pc_over : o_ver o = cp_ver p;
  pc_clean : x_clean x = cp_clean p;
  pc_will : x_will x = will_of p;
  pc_delay : x_delay x = delay0 p;
  pc_open : x_open x = o_open o;
  pc_live : x_open x = true -> x_req x = req0 k p /\ o_sei o = req0 k p /\ (x_wst x = WNone \/ x_wst x = WArmed);
  pc_flag : w_flag (o_will o) = true -> cp_willflag p = true /\ will_msg (o_will o) = will_of p /\ w_delay (o_will o) = stored_delay p;
  pc_ent : forall id d, In (id, d) (st_wills s) -> d_conn d = x_conn x -> cp_willflag p = true /\ d_msg d = will_of p /\ 0 < stored_delay p;
  pc_view : exists xv, view_of k (x_conn x) None h0 = Some xv /\ x_ver xv = x_ver x /\ x_clean xv = x_clean x /\
                       x_req xv = x_req x /\ x_delay xv = x_delay x /\ x_id xv = x_id x;
  pc_sane : cp_ver p <> 5 -> cp_willdelay p = 0;
  pc_st : status_ok k s h0 p o x }.

Arguments pc_delay {k s h0 x o p}.
Arguments pc_ent {k s h0 x o p}.
Arguments pc_flag {k s h0 x o p}.
Arguments pc_get {k s h0 x o p}.
Arguments pc_id {k s h0 x o p}.
Arguments pc_live {k s h0 x o p}.
Arguments pc_open {k s h0 x o p}.
Arguments pc_over {k s h0 x o p}.
Arguments pc_par {k s h0 x o p}.
Arguments pc_st {k s h0 x o p}.
Arguments pc_ver {k s h0 x o p}.
Arguments pc_view {k s h0 x o p}.
Arguments pc_will {k s h0 x o p}.

Definition pc (k : caps) (s : state) (h0 : list obs) (x : sconn) : Prop := exists o p, pcr k s h0 x o p.

Record KI (k : caps) (m : m16) (s : state) (h0 : list obs) : Prop := {
  ki_inv : inv s;
  ki_wwf : wwf s;
  ki_nd : NoDup (map x_conn (d_conns m));
  ki_x : forall c x, find_x c (d_conns m) = Some x -> pc k s h0 x;
  ki_o : forall c o, get_obj c (st_objs s) = Some o -> exists x, find_x c (d_conns m) = Some x;
  ki_fresh : forall c, memN c (st_used s) = false -> params_of c h0 = None /\ view_of k c None h0 = None }.

Lemma KI_init k : KI k {| d_conns := [] |} init [].
Proof.
  split; [apply inv_init|apply wwf_init|constructor|intros c x F; discriminate F|intros c o G; discriminate G|intros; split; reflexivity].
Qed.

Lemma ki_found k m s h0 c x : KI k m s h0 -> find_x c (d_conns m) = Some x ->
  x_conn x = c /\ exists o p, get_obj c (st_objs s) = Some o /\ pcr k s h0 x o p.
Proof.
  intros K F. pose proof (find_x_conn _ _ _ F) as XC. destruct (ki_x _ _ _ _ K c x F) as (o & p & P).
  split; [exact XC|]. exists o, p. split; [rewrite <- XC; apply P|exact P].
Qed.

Lemma ki_entry k m s h0 c o : KI k m s h0 -> get_obj c (st_objs s) = Some o ->
  exists x p, find_x c (d_conns m) = Some x /\ x_conn x = c /\ pcr k s h0 x o p.
Proof.
  intros K G. destruct (ki_o _ _ _ _ K c o G) as (x & F). destruct (ki_found k m s h0 c x K F) as (XC & o' & p & G' & P).
  exists x, p. rewrite G in G'. inversion G'; subst o'. auto.
Qed.

Definition uncovered (t : N) : bool := (t =? V16_missing) || (t =? V16_missing_takeover) || (t =? V16_late) || (t =? V16_retain).

(* what a step can establish about a violation it reports: the known-finding predicates of LifeKF on the history
   up to the step ([hp]) and its observation ([b]), the later history being unknown; [expl_good] carries it to
   every longer history *)
Definition expl (k : caps) (hp : list obs) (b : obs) (v : viol) : Prop :=
  uncovered (v_tag v) = true \/
  ((v_tag v = V16_cancelled \/ v_tag v = V16_once) /\ late_registrant (v_conn v) hp = true) \/
  (v_tag v = V16_once /\ exists p xv, params_of (v_conn v) hp = Some p /\ view_of k (v_conn v) None hp = Some xv /\
                                      cp_willflag p = true /\ (eff k xv <? stored_delay p) = true) \/
  (v_tag v = V16_early /\ exists p xv, params_of (v_conn v) hp = Some p /\ view_of k (v_conn v) None hp = Some xv /\
                                       cp_willflag p = true /\ (stored_delay p <? minN (x_delay xv) (eff k xv)) = true) \/
  (v_tag v = V16_lost_clean /\ exists c t p a id, b_op b = OConnect c t p a id /\ cp_clean p = true).

Definition good (k : caps) (h : list obs) (v : viol) : Prop := uncovered (v_tag v) = true \/ kf_of k h v <> None.

Lemma expl_good k h b v : expl k (upto (v_step v) h) b v -> nth_obs (v_step v) h = Some b -> good k h v.
Proof.
  intros E NB. destruct E as [U|[[T L]|[(T & p & xv & P & VW & WF & LT)|[(T & p & xv & P & VW & WF & LT)|(T & c & t & p & a & id & OP & CL)]]]].
  - left. exact U.
  - right. unfold kf_of. assert (K : KF_C16_takeover_delayed k h v = true).
    { unfold KF_C16_takeover_delayed. rewrite L. destruct T as [-> | ->]; cbn; reflexivity. }
    rewrite K. discriminate.
  - right. unfold kf_of. destruct (KF_C16_takeover_delayed k h v); [discriminate|].
    assert (K : KF_C16_delay_uncapped k h v = true).
    { unfold KF_C16_delay_uncapped. rewrite P, VW, WF, LT, T. reflexivity. }
    rewrite K. discriminate.
  - right. unfold kf_of. destruct (KF_C16_takeover_delayed k h v); [discriminate|]. destruct (KF_C16_delay_uncapped k h v); [discriminate|].
    assert (K : KF_C16_delay_fixed_at_connect k h v = true).
    { unfold KF_C16_delay_fixed_at_connect. rewrite P, VW, WF, LT, T. reflexivity. }
    rewrite K. discriminate.
  - right. unfold kf_of. destruct (KF_C16_takeover_delayed k h v); [discriminate|]. destruct (KF_C16_delay_uncapped k h v); [discriminate|].
    destruct (KF_C16_delay_fixed_at_connect k h v); [discriminate|].
    assert (K : KF_C16_clean_reconnect k h v = true).
    { unfold KF_C16_clean_reconnect. rewrite NB, OP, CL, T. reflexivity. }
    rewrite K. discriminate.
Qed.

Lemma find_some_in c l x : find_x c l = Some x -> In x l.
Proof.
  induction l as [|y r IH]; cbn; [discriminate|]. destruct (x_conn y =? c); [intro H; inversion H; left; reflexivity|intro H; right; apply IH, H].
Qed.

Lemma find_none_keys c l : find_x c l = None <-> ~ In c (map x_conn l).
Proof.
  induction l as [|y r IH]; cbn; [tauto|]. destruct (x_conn y =? c) eqn:E.
  - apply N.eqb_eq in E. split; [discriminate|intro H; exfalso; apply H; left; exact E].
  - apply N.eqb_neq in E. rewrite IH. tauto.
Qed.

Lemma find_in c l x : NoDup (map x_conn l) -> In x l -> x_conn x = c -> find_x c l = Some x.
Proof.
  induction l as [|y r IH]; cbn; [intros _ []|]. intros ND I E. inversion ND as [|? ? NI ND']; subst.
  destruct I as [->|I]; [rewrite N.eqb_refl; reflexivity|].
  destruct (x_conn y =? x_conn x) eqn:EE; [apply N.eqb_eq in EE; exfalso; apply NI; rewrite EE; apply in_map, I|apply IH; auto].
Qed.

Lemma put_keys_same x l y : find_x (x_conn x) l = Some y -> map x_conn (put_x x l) = map x_conn l.
Proof.
  induction l as [|z r IH]; cbn; [discriminate|]. destruct (x_conn z =? x_conn x) eqn:E; cbn.
  - intros _. apply N.eqb_eq in E. congruence.
  - intro F. rewrite (IH F). reflexivity.
Qed.

Lemma put_keys_new x l : find_x (x_conn x) l = None -> map x_conn (put_x x l) = map x_conn l ++ [x_conn x].
Proof.
  induction l as [|z r IH]; cbn; [reflexivity|]. destruct (x_conn z =? x_conn x) eqn:E; cbn; [discriminate|].
  intro F. rewrite (IH F). reflexivity.
Qed.

Lemma nodup_put x l : NoDup (map x_conn l) -> NoDup (map x_conn (put_x x l)).
Proof.
  intro ND. destruct (find_x (x_conn x) l) as [y|] eqn:F.
  - rewrite (put_keys_same x l y F). exact ND.
  - rewrite (put_keys_new x l F). apply nodup_snoc; [exact ND|apply find_none_keys, F].
Qed.

Lemma map_keys (f : sconn -> sconn) l : (forall x, x_conn (f x) = x_conn x) -> map x_conn (map f l) = map x_conn l.
Proof. intro H. rewrite map_map. apply map_ext. exact H. Qed.

Definition vstat (i : nat) (b : obs) (x : sconn) (c : N) : list viol :=
  match x_wst x with
  | WPublished | WFailed => [mkv V16_once i c (x_id x)]
  | WNormal => [mkv V16_after_normal i c (x_id x)]
  | WCancelled => [mkv V16_cancelled i c (x_id x)]
  | WNone => [mkv V16_unexpected i c (x_id x)]
  | WArmed => [mkv V16_unexpected i c (x_id x)]
  | WMust => []
  | WPending _ due =>
      match op_now (b_op b) with
      | Some now => if (due <=? now)%Z then [] else [mkv V16_early i c (x_id x)]
      | None => [mkv V16_unexpected i c (x_id x)]
      end
  end.
Definition vcont (i : nat) (x : sconn) (c : N) (mm : msg) : list viol :=
  if beq_msg mm (x_will x) then [] else [mkv V16_content i c (x_id x)].
Definition vret (k : caps) (i : nat) (b : obs) (x : sconn) (c : N) (mm : msg) (r : list (N * msg)) : list viol :=
  if m_retain mm && k_retain k && negb (existsb (fun w => beq_bytes (m_topic (snd w)) (m_topic mm) && m_retain (snd w)) r) then
    match aget (m_topic mm) (sn_retained (b_post b)) with
    | Some pl => if beq_bytes pl (m_payload mm) then [] else [mkv V16_retain i c (x_id x)]
    | None => match m_payload mm with [] => [] | _ => [mkv V16_retain i c (x_id x)] end
    end
  else [].

Lemma m16_pubs_none k i b conns c mm r : find_x c conns = None ->
  m16_pubs k i b conns ((c, mm) :: r) = (fst (m16_pubs k i b conns r), mkv V16_unexpected i c [] :: snd (m16_pubs k i b conns r)).
Proof. intro F. cbn [m16_pubs]. rewrite F. destruct (m16_pubs k i b conns r); reflexivity. Qed.

Lemma m16_pubs_some k i b conns c mm r x : find_x c conns = Some x ->
  m16_pubs k i b conns ((c, mm) :: r) =
  (fst (m16_pubs k i b (put_x (set_wst x WPublished) conns) r),
   vstat i b x c ++ vcont i x c mm ++ vret k i b x c mm r ++ snd (m16_pubs k i b (put_x (set_wst x WPublished) conns) r)).
Proof. intro F. cbn [m16_pubs]. rewrite F. cbv zeta. destruct (m16_pubs k i b (put_x (set_wst x WPublished) conns) r); reflexivity. Qed.

Lemma vret_tag k i b x c mm r : Forall (fun v => v = mkv V16_retain i c (x_id x)) (vret k i b x c mm r).
Proof.
  unfold vret. destruct (_ && _); [|constructor]. destruct (aget _ _); [destruct (beq_bytes _ _); repeat constructor|].
  destruct (m_payload mm); repeat constructor.
Qed.

Lemma m16_pubs_ok k i b (Q : viol -> Prop) :
  (forall c id, Q (mkv V16_retain i c id)) ->
  forall ws conns, NoDup (map fst ws) ->
   (forall c mm, In (c, mm) ws -> match find_x c conns with
        | None => Q (mkv V16_unexpected i c [])
        | Some x => Forall Q (vstat i b x c) /\ Forall Q (vcont i x c mm) end) ->
   Forall Q (snd (m16_pubs k i b conns ws)) /\
   (forall c, find_x c (fst (m16_pubs k i b conns ws)) =
              match find_x c conns with Some x => Some (if memN c (map fst ws) then set_wst x WPublished else x) | None => None end) /\
   map x_conn (fst (m16_pubs k i b conns ws)) = map x_conn conns.
Proof.
  intro QR. induction ws as [|[c mm] r IH]; intros conns ND H.
  - cbn [m16_pubs fst snd map]. split; [constructor|]. split; [|reflexivity]. intro c. destruct (find_x c conns); reflexivity.
  - inversion ND as [|? ? NI ND']; subst. pose proof (H c mm (or_introl eq_refl)) as HC.
    destruct (find_x c conns) as [x|] eqn:F.
    + rewrite (m16_pubs_some k i b conns c mm r x F). cbn [fst snd].
      assert (XC : x_conn (set_wst x WPublished) = c) by (cbn; apply (find_x_conn _ _ _ F)).
      destruct (IH (put_x (set_wst x WPublished) conns) ND') as (A & B & C).
      { intros c2 mm2 I2. assert (NE : c2 <> c) by (intro E; subst c2; apply NI; apply (in_map fst) in I2; exact I2).
        rewrite find_put, XC. destruct (c =? c2) eqn:E; [apply N.eqb_eq in E; congruence|]. apply (H c2 mm2). right. exact I2. }
      split; [|split].
      * destruct HC as [HS HT]. apply Forall_app. split; [exact HS|]. apply Forall_app. split; [exact HT|]. apply Forall_app. split; [|exact A].
        eapply Forall_impl; [|apply vret_tag]. intros v T. rewrite T. apply QR.
      * intro c2. rewrite B, find_put, XC. cbn [map fst]. rewrite memN_cons. destruct (c =? c2) eqn:E.
        -- apply N.eqb_eq in E. subst c2. rewrite F, N.eqb_refl. cbn [orb].
           assert (M : memN c (map fst r) = false) by (destruct (memN c (map fst r)) eqn:M; [apply memN_true in M; contradiction|reflexivity]).
           rewrite M. reflexivity.
        -- rewrite N.eqb_sym, E. cbn [orb]. reflexivity.
      * rewrite C. apply (put_keys_same _ conns x). rewrite XC. exact F.
    + rewrite (m16_pubs_none k i b conns c mm r F). cbn [fst snd].
      destruct (IH conns ND') as (A & B & C).
      { intros c2 mm2 I2. apply (H c2 mm2). right. exact I2. }
      split; [constructor; [exact HC|exact A]|]. split; [|exact C].
      intro c2. rewrite B. cbn [map fst]. rewrite memN_cons. destruct (find_x c2 conns) as [y|] eqn:F2; [|reflexivity].
      destruct (c2 =? c) eqn:E; [apply N.eqb_eq in E; congruence|]. reflexivity.
Qed.

Lemma tol_mono c h r : taken_over_live c h = true -> taken_over_live c (h ++ r) = true.
Proof. intro H. rewrite tol_app, H. reflexivity. Qed.

Lemma set_wst_same x : set_wst x (x_wst x) = x.
Proof. destruct x; reflexivity. Qed.

(* the status clause only looks at the object of the connection, at its entries of the table and at
   whether it was taken over alive; it survives when the object keeps everything but possibly loses
   its will ([cleared]), the entries shrink and the history grows *)
Lemma status_ok_mono k s s' h h' p o o' x :
  cleared o o' ->
  (forall id d, In (id, d) (st_wills s') -> d_conn d = x_conn x -> In (id, d) (st_wills s)) ->
  (taken_over_live (x_conn x) h = true -> taken_over_live (x_conn x) h' = true) ->
  status_ok k s h p o x -> status_ok k s' h' p o' x.
Proof.
  intros CR SUB TM ST. pose proof CR as [K WW]. destruct (wkn_fields _ _ K) as (_ & _ & _ & _ & KP).
  assert (SE : srcE s' (x_conn x) -> srcE s (x_conn x)).
  { intros (id & d & II & DC). exists id, d. split; [apply SUB; assumption|exact DC]. }
  unfold status_ok in *. destruct (x_wst x).
  - destruct ST as [A B]. split; [destruct WW as [WW|WW]; congruence|intro H; apply B, SE, H].
  - exact ST.
  - destruct ST as [A B]. split; [congruence|apply TM, B].
  - destruct ST as (A & B & C). split; [congruence|]. split; [exact B|]. intros id d II DC. apply (C id d); [apply SUB; assumption|exact DC].
  - destruct ST as [A B]. split; [congruence|intro H; apply B, SE, H].
  - destruct ST as [A B]. split; [congruence|intro H; apply B, SE, H].
  - intros [AR|SR].
    + destruct (is_armed_back o o' CR AR) as [AR0 EW]. destruct (ST (or_introl AR0)) as [T D]. split; [apply TM, T|]. intros _. rewrite EW. apply D, AR0.
    + destruct (ST (or_intror (SE SR))) as [T D]. split; [apply TM, T|]. intro AR. destruct (is_armed_back o o' CR AR) as [AR0 EW]. rewrite EW. apply D, AR0.
  - destruct ST as [A B]. split; [congruence|]. intro H. destruct (B (SE H)) as [T|U]; [left; apply TM, T|right; exact U].
Qed.

Definition same_but_status (y yf : sconn) : Prop :=
  x_conn yf = x_conn y /\ x_id yf = x_id y /\ x_ver yf = x_ver y /\ x_clean yf = x_clean y /\ x_will yf = x_will y /\
  x_delay yf = x_delay y /\ x_req yf = x_req y.

Lemma same_but_set_wst y w : same_but_status y (set_wst y w).
Proof. repeat split. Qed.

(* The coupling of an entry across a step, in three versions from the general to the special.  pc_frame4 (the
   connection taken over): the entry changes at most in status and open flag, the object keeps identifier and
   version, its expiry while it stays open, and its will unless that is disarmed.  pc_frame2: only the status is
   set and the object at most loses its will.  pc_frame: the entry stays, the status clause by status_ok_mono.
   In each the table gains no entry of the connection and the observation leaves the view of the finding
   predicates as it is. *)
Lemma pc_frame4 k s s' h0 b y yf oy py o' :
  pcr k s h0 y oy py -> same_but_status y yf ->
  get_obj (x_conn y) (st_objs s') = Some o' -> o_id o' = o_id oy -> o_ver o' = o_ver oy -> x_open yf = o_open o' ->
  (x_open yf = true -> o_sei o' = o_sei oy /\ x_open y = true /\ (x_wst yf = WNone \/ x_wst yf = WArmed)) ->
  (o_will o' = o_will oy \/ w_flag (o_will o') = false) ->
  (forall id d, In (id, d) (st_wills s') -> d_conn d = x_conn y -> In (id, d) (st_wills s)) ->
  (forall xv, view_of k (x_conn y) None h0 = Some xv -> view_step k (x_conn y) (Some xv) b = Some xv) ->
  status_ok k s' (h0 ++ [b]) py o' yf ->
  pc k s' (h0 ++ [b]) yf.
Proof.
  intros [G PA I V OV CL WI DL OP LV FL EN (xv & VW & VX) SN ST] (EC & EI & EV & ECl & EW & ED & ER) G' KI1 KV XO' LV' WW SUB VS ST'.
  exists o', py. split; try (rewrite ?EC, ?EI, ?EV, ?ECl, ?EW, ?ED, ?ER; congruence); try assumption.
  - rewrite EC, params_of_app, PA. reflexivity.
  - intro XO. destruct (LV' XO) as (A & B & C). destruct (LV B) as (A1 & B1 & _). rewrite ER. split; [exact A1|split; [congruence|exact C]].
  - intro F'. destruct WW as [WW|WW]; [|congruence]. rewrite WW in *. apply FL, F'.
  - intros id d II DC. rewrite EC in DC. apply (EN id d); [apply SUB; assumption|exact DC].
  - exists xv. rewrite EC, EV, ECl, ER, ED, EI. split; [|exact VX]. rewrite view_of_app, VW. cbn [view_of]. apply VS, VW.
Qed.

Lemma pc_frame2 k s s' h0 b x o p o' st' :
  pcr k s h0 x o p ->
  get_obj (x_conn x) (st_objs s') = Some o' -> cleared o o' ->
  (forall id d, In (id, d) (st_wills s') -> d_conn d = x_conn x -> In (id, d) (st_wills s)) ->
  (forall xv, view_of k (x_conn x) None h0 = Some xv -> view_step k (x_conn x) (Some xv) b = Some xv) ->
  (x_open x = true -> st' = WNone \/ st' = WArmed) ->
  status_ok k s' (h0 ++ [b]) p o' (set_wst x st') ->
  pc k s' (h0 ++ [b]) (set_wst x st').
Proof.
  intros P G' [K WW] SUB VS LV' ST'. destruct (wkn_fields _ _ K) as (KI1 & KV & KS & KO & _).
  apply (pc_frame4 k s s' h0 b x _ o p o' P (same_but_set_wst x st') G' KI1 KV); try assumption.
  - cbn. rewrite KO. apply (pc_open P).
  - intro XO. split; [exact KS|]. split; [exact XO|apply LV', XO].
Qed.

Lemma pc_frame k s s' h0 b x o p :
  pcr k s h0 x o p ->
  (exists o', get_obj (x_conn x) (st_objs s') = Some o' /\ cleared o o') ->
  (forall id d, In (id, d) (st_wills s') -> d_conn d = x_conn x -> In (id, d) (st_wills s)) ->
  (forall xv, view_of k (x_conn x) None h0 = Some xv -> view_step k (x_conn x) (Some xv) b = Some xv) ->
  pc k s' (h0 ++ [b]) x.
Proof.
  intros P (o' & G' & CR) SUB VS. rewrite <- (set_wst_same x).
  apply (pc_frame2 k s s' h0 b x o p o' (x_wst x) P G' CR SUB VS).
  - intro XO. apply (pc_live P XO).
  - rewrite set_wst_same. apply (status_ok_mono k s s' h0 _ p o o' x CR SUB (tol_mono _ h0 [b]) (pc_st P)).
Qed.

Lemma pc_reading k s h0 x o p : wf s -> pcr k s h0 x o p -> x_open x = true -> reading s (x_conn x) = Some o.
Proof.
  intros W P XO. pose proof (pc_get P) as G. pose proof (pc_open P) as OP. rewrite XO in OP. symmetry in OP.
  destruct (wf_open s W _ o G OP) as (_ & PH & _). unfold reading. rewrite G, PH, OP. reflexivity.
Qed.

Lemma live_in_reading s c ob : wf s -> reading s c = Some ob -> live_in c (o_id ob) (snap_of s) = true.
Proof.
  intros W R. destruct (reading_wf s c ob W R) as (G & OO & A). unfold live_in. rewrite (find_client_snap s _ W), A, G. cbn.
  rewrite (get_obj_conn G), N.eqb_refl, OO. reflexivity.
Qed.

Lemma live_in_open s c id : wf s -> live_in c id (snap_of s) = true -> exists ob, reading s c = Some ob /\ o_id ob = id /\ aget id (st_clients s) = Some c.
Proof.
  intros W L. unfold live_in in L. rewrite (find_client_snap s _ W) in L.
  destruct (aget id (st_clients s)) as [c'|] eqn:A; [|discriminate]. destruct (wf_reg s W id c' A) as (o & G & I & _). rewrite G in L. cbn in L.
  apply andb_true_iff in L. destruct L as [E OO]. apply N.eqb_eq in E. rewrite (get_obj_conn G) in E. subst c'.
  destruct (wf_open s W c o G OO) as (_ & PH & _). exists o. split; [unfold reading; rewrite G, PH, OO; reflexivity|auto].
Qed.

Lemma step_used_mono k s o c : memN c (st_used s) = true -> memN c (st_used (fst (step k s o))) = true.
Proof. intro M. rewrite step_used. destruct (is_new_conn s o); [rewrite memN_cons, M; apply orb_true_r|exact M]. Qed.

Lemma step_used_new k s o c :
  (match o with OConnect c' _ _ _ _ | OBadFirst c' _ => c' = c | _ => False end) -> memN c (st_used (fst (step k s o))) = true.
Proof.
  intro H. destruct (memN c (st_used s)) eqn:M; [apply step_used_mono, M|].
  assert (NEW : is_new_conn s o = Some c) by (destruct o; try destruct H; subst; cbn; rewrite M; reflexivity).
  rewrite step_used, NEW, memN_cons, N.eqb_refl. reflexivity.
Qed.

Lemma fresh_step k s o h0 :
  (forall c, memN c (st_used s) = false -> params_of c h0 = None /\ view_of k c None h0 = None) ->
  forall c, memN c (st_used (fst (step k s o))) = false ->
    params_of c (h0 ++ [obs_of (tstep_of k s o)]) = None /\ view_of k c None (h0 ++ [obs_of (tstep_of k s o)]) = None.
Proof.
  intros F c M'.
  assert (M : memN c (st_used s) = false).
  { destruct (memN c (st_used s)) eqn:M; [|reflexivity]. rewrite (step_used_mono k s o c M) in M'. discriminate. }
  destruct (F c M) as [P V]. rewrite params_of_app, P, view_of_app, V. cbn [params_of view_of]. unfold view_step. cbn [obs_of tstep_of b_op t_op].
  destruct o; auto.
  - destruct (c0 =? c) eqn:E; [|auto]. apply N.eqb_eq in E. subst c0.
    rewrite (step_used_new k s (OConnect c now p auth_ok effid) c eq_refl) in M'. discriminate.
  - destruct (c0 =? c); auto.
Qed.

Lemma m16_end_closed k i conns b :
  (forall c t n x, ends_conn (b_op b) = Some (c, t, n) -> find_x c conns = Some x -> x_open x = false) -> m16_end k i conns b = (conns, []).
Proof.
  intro H. unfold m16_end. destruct (ends_conn (b_op b)) as [[[c t] n]|]; [|reflexivity].
  destruct (find_x c conns) as [x|] eqn:F; [rewrite (H c t n x eq_refl F)|]; reflexivity.
Qed.

Lemma m16_new_none k i conns b :
  match b_op b with OConnect c _ _ _ _ => success_connack (pkts_to c (b_outs b)) = None | _ => True end ->
  m16_new k i conns b = (conns, []).
Proof. intro H. unfold m16_new. destruct (b_op b); try reflexivity. rewrite H. reflexivity. Qed.

Definition f_dead (b : obs) (x : sconn) : sconn :=
  match x_wst x, ends_conn (b_op b) with
  | WMust, Some (c, _, _) => if (c =? x_conn x) && x_open x then set_wst x WFailed else x
  | _, _ => x
  end.

Lemma m16_dead_default i conns b :
  match b_op b with OTeardown _ _ | OTickWill _ => False | _ => True end -> m16_dead i conns b = (map (f_dead b) conns, []).
Proof. intro H. unfold m16_dead, f_dead. destruct (b_op b); try destruct H; reflexivity. Qed.

Lemma f_dead_conn b x : x_conn (f_dead b x) = x_conn x.
Proof. unfold f_dead. destruct (x_wst x); try reflexivity. destruct (ends_conn (b_op b)) as [[[c t] n]|]; [|reflexivity]. destruct (_ && _); reflexivity. Qed.

Lemma m16_mark_conn b x : x_conn (m16_mark b x) = x_conn x.
Proof. unfold m16_mark. destruct (_ && _); reflexivity. Qed.

Lemma f_dead_id k s h0 b x : pc k s h0 x -> f_dead b x = x.
Proof.
  intros (o & p & P). unfold f_dead. destruct (x_wst x) eqn:ST; try reflexivity.
  destruct (ends_conn (b_op b)) as [[[c t] n]|]; [|reflexivity]. destruct (x_open x) eqn:XO; [|rewrite andb_false_r; reflexivity].
  (* an open connection has no will or an armed one *)
  destruct (pc_live P XO) as (_ & _ & [E|E]); congruence.
Qed.

Lemma f_dead_open k s h0 b x : pc k s h0 x -> x_wst x = WMust -> f_dead b x = x.
Proof. intros P _. exact (f_dead_id k s h0 b x P). Qed.

Lemma find_map_id (f : sconn -> sconn) c l : (forall x, x_conn (f x) = x_conn x) ->
  (forall x, find_x c l = Some x -> f x = x) -> find_x c (map f l) = find_x c l.
Proof. intros H1 H2. rewrite (find_map f c l H1). destruct (find_x c l) as [x|] eqn:F; [cbn; rewrite (H2 x eq_refl)|]; reflexivity. Qed.

(* what each case of the step has to establish: the part of the invariant that speaks of the entries,
   and that the violations of the step are explained *)
Definition KI_conns (k : caps) (m' : m16) (s' : state) (h : list obs) : Prop :=
  NoDup (map x_conn (d_conns m')) /\
  (forall c x, find_x c (d_conns m') = Some x -> pc k s' h x) /\
  (forall c o, get_obj c (st_objs s') = Some o -> exists x, find_x c (d_conns m') = Some x).

Definition case_ok (k : caps) (m : m16) (s' : state) (h0 : list obs) (b : obs) : Prop :=
  KI_conns k (fst (m16_step k (length h0) m b)) s' (h0 ++ [b]) /\
  Forall (fun v => v_step v = length h0 /\ expl k (h0 ++ [b]) b v) (snd (m16_step k (length h0) m b)).

Lemma ki_quiet k m s h0 o s' outs b :
  KI k m s h0 -> b_op b = o -> b_outs b = outs -> b_pre b = snap_of s ->
  wsame s s' -> st_wills s' = st_wills s -> wills_of outs = [] ->
  (forall c, In c (closes outs) -> hasobj s c = false) -> quiet_op s o outs ->
  KI_conns k (fst (m16_step k (length h0) m b)) s' (h0 ++ [b]) /\ snd (m16_step k (length h0) m b) = [].
Proof.
  intros K BOP BO BPRE WS TW WO CL QO. pose proof K as [[W X] WW ND KX KO KF].
  set (conns := d_conns m) in *.
  (* the monitor takes a DISCONNECT, network close or second CONNECT for the end of a connection whose entry is
     open; such a connection is reading (pc_reading), and the quiet operation found nobody reading *)
  assert (E1 : m16_end k (length h0) conns b = (conns, [])).
  { apply m16_end_closed. intros c t n x EC F. destruct (x_open x) eqn:XO; [|reflexivity]. exfalso.
    destruct (ki_found k m s h0 c x K F) as (XC & ox & px & _ & P). pose proof (pc_reading k s h0 x ox px W P XO) as R. rewrite XC in R.
    rewrite BOP in EC. destruct o; cbn in EC; try discriminate; inversion EC; subst; cbn in QO; congruence. }
  assert (E2 : m16_new k (length h0) conns b = (conns, [])).
  { apply m16_new_none. rewrite BOP, BO. destruct o; auto. }
  assert (E4 : exists conns4, m16_dead (length h0) conns b = (conns4, []) /\ (forall c, find_x c conns4 = find_x c conns) /\
                              map x_conn conns4 = map x_conn conns).
  { destruct (b_op b) eqn:OB.
    5:{ (* OTeardown: it found no held handler, and a WMust entry belongs to one *)
        exists conns. split; [|auto]. unfold m16_dead. rewrite OB.
        destruct (find_x c conns) as [x|] eqn:F; [|reflexivity]. destruct (x_wst x) eqn:ST; try reflexivity. exfalso.
        destruct (ki_found k m s h0 c x K F) as (_ & ox & px & G & P). pose proof (pc_st P) as SO. unfold status_ok in SO. rewrite ST in SO.
        subst o. apply (QO ox G (proj1 SO)). }
    6:{ (* OTickWill, the sixth goal by now: never quiet *) subst o. destruct QO. }
    (* the others: the default branch moves a WMust entry of an open connection, and there is none (f_dead_id) *)
    all: exists (map (f_dead b) conns); (split; [apply m16_dead_default; rewrite OB; exact I|]);
      (split; [|apply map_keys, f_dead_conn]); intro c0; apply find_map_id; [apply f_dead_conn|];
      intros x F; apply (f_dead_id k s h0 b x (KX c0 x F)). }
  destruct E4 as (conns4 & E4 & F4 & K4).
  (* no entry is marked closed: what a quiet operation closes has no object *)
  assert (M5 : forall c, find_x c (map (m16_mark b) conns4) = find_x c conns).
  { intro c. rewrite <- F4. apply find_map_id; [apply m16_mark_conn|]. intros x F. rewrite F4 in F.
    unfold m16_mark. destruct (x_open x && memN (x_conn x) (closes (b_outs b))) eqn:E; [|reflexivity]. exfalso.
    apply andb_true_iff in E. destruct E as [_ E]. apply memN_true in E. rewrite BO in E. apply CL in E.
    destruct (ki_found k m s h0 c x K F) as (XC & ox & px & G & _). unfold hasobj in E. rewrite XC, G in E. discriminate. }
  unfold m16_step. fold conns. rewrite E1, E2, BO, WO. cbn [m16_pubs]. rewrite E4. cbn [fst snd app]. split; [|reflexivity].
  split; [|split]; cbn [d_conns].
  - rewrite (map_keys (m16_mark b) conns4 (m16_mark_conn b)), K4. exact ND.
  - intros c x F. rewrite M5 in F. destruct (KX c x F) as (ox & px & P).
    apply (pc_frame k s s' h0 b x ox px P (wk_cleared_fwd s s' _ ox (WS _) (pc_get P))).
    + intros id d II _. rewrite TW in II. exact II.
    + (* the view of the finding predicates moves at an accepted CONNECT and at the DISCONNECT of a connection that is
         registered and open, hence reading: neither is quiet *)
      intros xv VW. destruct (pc_view P) as (xv' & VW' & _ & _ & _ & _ & XI). rewrite VW in VW'. inversion VW'; subst xv'.
      unfold view_step. rewrite BOP. destruct o; try reflexivity.
      * destruct (c0 =? x_conn x) eqn:EC; [|reflexivity]. apply N.eqb_eq in EC. subst c0. cbn in QO. rewrite BO, QO. reflexivity.
      * destruct (c0 =? x_conn x) eqn:EC; [|reflexivity]. apply N.eqb_eq in EC. subst c0.
        destruct (live_in (x_conn x) (x_id xv) (b_pre b)) eqn:L; [|reflexivity]. exfalso. rewrite BPRE in L.
        destruct (live_in_open s _ _ W L) as (ob & R & _). cbn in QO. congruence.
  - intros c ox' G'. destruct (wk_obj_back s s' _ ox' (WS _) G') as (ox & G & _). destruct (KO c ox G) as (x & F). exists x. rewrite M5. exact F.
Qed.

Lemma beq_msg_refl a : beq_msg a a = true.
Proof. unfold beq_msg. rewrite !bb_refl, N.eqb_refl, Bool.eqb_reflx. reflexivity. Qed.

(* delays and deadlines: minN, capN and stored_delay are rewritten to N.min, on which lia decides *)

Lemma minN_min a b : minN a b = N.min a b.
Proof. unfold minN. destruct (a <? b) eqn:E; [apply N.ltb_lt in E|apply N.ltb_ge in E]; lia. Qed.

Lemma capN_min k v : capN k v = N.min (k_maxsei k) v.
Proof. unfold capN. destruct (k_maxsei k <? v) eqn:E; [apply N.ltb_lt in E|apply N.ltb_ge in E]; lia. Qed.

Lemma capN_pos k v : 0 < capN k v -> 0 < v.
Proof. rewrite capN_min. lia. Qed.

Lemma stored_delay_min p :
  stored_delay p = if cp_ver p =? 5 then (if cp_seiflag p then N.min (cp_sei p) (cp_willdelay p) else cp_willdelay p) else 0.
Proof.
  unfold stored_delay. destruct (cp_ver p =? 5); [|reflexivity]. destruct (cp_seiflag p); [|reflexivity]. cbn [negb andb].
  destruct (cp_sei p <? cp_willdelay p) eqn:E; [apply N.ltb_lt in E|apply N.ltb_ge in E]; lia.
Qed.

Lemma stored_delay_le p : stored_delay p <= delay0 p.
Proof. rewrite stored_delay_min. unfold delay0. destruct (cp_ver p =? 5); [|lia]. destruct (cp_seiflag p); lia. Qed.

Lemma stored_le_delay p : (cp_ver p <> 5 -> cp_willdelay p = 0) -> stored_delay p <= delay0 p.
Proof. intros _. apply stored_delay_le. Qed.

Lemma capN_zero k : capN k 0 = 0.
Proof. rewrite capN_min. lia. Qed.

(* a will that the monitor takes as delayed is stored with a delay *)
Lemma cancel_delay_pos k p z : 0 < minN (delay0 p) (if cp_ver p =? 5 then req0 k p else z) -> 0 < stored_delay p.
Proof.
  rewrite minN_min, stored_delay_min. unfold delay0, req0. destruct (cp_ver p =? 5); [|lia].
  destruct (cp_seiflag p); rewrite ?capN_min; lia.
Qed.

Lemma minN_lt_r a b d : d <= a -> minN a b < d -> b < d.
Proof. rewrite minN_min. lia. Qed.

Lemma not_due_at_end now d : d <> 0 -> (now + Z.of_N d <=? now)%Z = false.
Proof. intro H. apply Z.leb_gt. lia. Qed.

(* of two deadlines counted from the same instant, the one that has passed belongs to the smaller delay *)
Lemma due_order t a b now : (t + Z.of_N a < now)%Z -> (now <= t + Z.of_N b)%Z -> a < b.
Proof. lia. Qed.

Lemma eff_eq k xv x : x_ver xv = x_ver x -> x_clean xv = x_clean x -> x_req xv = x_req x -> eff k xv = eff k x.
Proof. intros A B C. unfold eff. rewrite A, B, C. reflexivity. Qed.

Lemma eff_set_wst k x w : eff k (set_wst x w) = eff k x.
Proof. reflexivity. Qed.

Lemma conn_unique s id1 d1 id2 d2 : wwf s -> In (id1, d1) (st_wills s) -> In (id2, d2) (st_wills s) -> d_conn d1 = d_conn d2 ->
  id1 = id2 /\ d1 = d2.
Proof.
  intros [ND WD] I1 I2 E. destruct (WD id1 d1 I1) as (o1 & G1 & K1 & _). destruct (WD id2 d2 I2) as (o2 & G2 & K2 & _).
  rewrite E in G1. rewrite G1 in G2. assert (EI : id1 = id2) by congruence. split; [exact EI|]. rewrite <- EI in I2.
  pose proof (in_aget_nodup id1 d1 _ ND I1) as A1. pose proof (in_aget_nodup id1 d2 _ ND I2) as A2. congruence.
Qed.

Lemma nodup_map_filter {A B} (f : A -> B) (g : A -> bool) l : NoDup (map f l) -> NoDup (map f (filter g l)).
Proof. apply NoDup_map_filter. Qed.

Lemma nodup_conns s : wwf s -> NoDup (map (fun e => d_conn (snd e)) (st_wills s)).
Proof.
  intro WW. assert (H : forall l, (forall e, In e l -> In e (st_wills s)) -> NoDup (map fst l) -> NoDup (map (fun e => d_conn (snd e)) l)).
  { induction l as [|[id d] r IH]; cbn; intros SUB ND; [constructor|]. inversion ND as [|? ? NI ND']; subst. constructor.
    - intro I. apply in_map_iff in I. destruct I as ([id2 d2] & E & I2). cbn in E.
      destruct (conn_unique s id2 d2 id d WW (SUB _ (or_intror I2)) (SUB _ (or_introl eq_refl)) E) as [-> ->].
      apply NI. apply (in_map fst) in I2. exact I2.
    - apply IH; [intros e I; apply SUB; right; exact I|exact ND']. }
  apply H; [auto|apply (ww_nodup s WW)].
Qed.

Lemma params_snoc c h0 b p : params_of c h0 = Some p -> params_of c (h0 ++ [b]) = Some p.
Proof. intro H. rewrite params_of_app, H. reflexivity. Qed.

Lemma late_reg_intro c hp p : taken_over_live c hp = true -> params_of c hp = Some p -> cp_willflag p = true -> 0 < stored_delay p ->
  late_registrant c hp = true.
Proof. intros T P F D. unfold late_registrant. rewrite T, P, F. cbn. apply N.ltb_lt, D. Qed.

Lemma closed_of_done k s h0 x o p : wf s -> pcr k s h0 x o p -> o_phase o = PhDone -> x_open x = false.
Proof.
  intros W P PD. destruct (x_open x) eqn:XO; [|reflexivity]. rewrite (pc_open P) in XO.
  destruct (wf_open s W _ o (pc_get P) XO) as (_ & PH & _). congruence.
Qed.

(* the tick publishes a due entry: by the status of the connection's entry in the monitor, no such entry can
   exist, or the publication is in order, or a finding accounts for it *)
Lemma tick_pub_ok k s h0 b now x o p id d :
  wf s -> wwf s -> pcr k s h0 x o p -> b_op b = OTickWill now -> In (id, d) (st_wills s) -> d_conn d = x_conn x -> due now (id, d) = true ->
  Forall (fun v => v_step v = length h0 /\ expl k (h0 ++ [b]) b v) (vstat (length h0) b x (x_conn x)) /\
  vcont (length h0) x (x_conn x) (d_msg d) = [] /\ o_phase o = PhDone /\ x_open x = false.
Proof.
  intros W WW P BOP II DC DU.
  assert (SE : srcE s (x_conn x)) by (exists id, d; auto).
  destruct (ww_done s WW id d II) as (od & Gd & _ & PD). rewrite DC, (pc_get P) in Gd. inversion Gd; subst od. clear Gd.
  destruct (pc_ent P id d II DC) as (WF & DM & SD).
  pose proof (closed_of_done k s h0 x o p W P PD) as XC.
  split; [|split; [unfold vcont; rewrite DM, (pc_will P), beq_msg_refl; reflexivity|split; [exact PD|exact XC]]].
  pose proof (pc_st P) as ST. unfold status_ok in ST. unfold vstat.
  pose proof (params_snoc _ h0 b p (pc_par P)) as PAR.
  destruct (pc_view P) as (xv & VW & VV & VC & VR & VD & VI).
  assert (VW' : view_of k (x_conn x) None (h0 ++ [b]) = Some xv).
  { rewrite view_of_app, VW. cbn [view_of]. unfold view_step. rewrite BOP. reflexivity. }
  pose proof (eff_eq k xv x VV VC VR) as EE.
  destruct (x_wst x) as [| | |tend due0| | | |] eqn:XS.
  - (* WNone *) destruct ST as [_ NS]. contradiction.
  - (* WArmed: an open connection, but the handler of an entry is done *) rewrite ST in XC. discriminate.
  - (* WMust *) constructor.
  - (* WPending, and the monitor's deadline has not come: the broker's has, and both count from the end of the
       connection, so the stored delay is below min(delay, session expiry) - KF_C16_delay_fixed_at_connect *)
    destruct ST as (_ & DUE & ENT). rewrite BOP. cbn [op_now]. destruct (due0 <=? now)%Z eqn:LE; [constructor|].
    constructor; [|constructor]. split; [reflexivity|]. right. right. right. left. split; [reflexivity|]. exists p, xv. cbn [v_conn mkv].
    split; [exact PAR|]. split; [exact VW'|]. split; [exact WF|]. rewrite VD, EE.
    pose proof (ENT id d II DC) as DD. unfold due in DU. cbn [snd] in DU. rewrite DD in DU. rewrite DUE in LE.
    apply N.ltb_lt, (due_order tend _ _ now); [apply Z.ltb_lt, DU|apply Z.lt_le_incl, Z.leb_gt, LE].
  - (* WPublished *) destruct ST as [_ NS]. contradiction.
  - (* WNormal *) destruct ST as [_ NS]. contradiction.
  - (* WCancelled: an entry that is there after the cancellation was registered by the teardown of a connection
       taken over alive - KF_C16_takeover_delayed *)
    destruct (ST (or_intror SE)) as [T _]. constructor; [|constructor]. split; [reflexivity|]. right. left. split; [left; reflexivity|].
    cbn [v_conn mkv]. apply (late_reg_intro _ _ p); auto. apply tol_mono, T.
  - (* WFailed: the same, or the stored delay exceeds the session expiry - KF_C16_delay_uncapped *)
    destruct ST as [_ H]. constructor; [|constructor]. split; [reflexivity|]. destruct (H SE) as [T|U].
    + right. left. split; [right; reflexivity|]. cbn [v_conn mkv]. apply (late_reg_intro _ _ p); auto. apply tol_mono, T.
    + right. right. left. split; [reflexivity|]. exists p, xv. cbn [v_conn mkv]. rewrite EE. auto.
Qed.

Definition g_tick (now : Z) (x : sconn) : sconn :=
  match x_wst x with WPending _ due0 => if (due0 <? now)%Z then set_wst x WFailed else x | _ => x end.

Lemma g_tick_conn now x : x_conn (g_tick now x) = x_conn x.
Proof. unfold g_tick. destruct (x_wst x); try reflexivity. destruct (_ <? _)%Z; reflexivity. Qed.

Lemma g_tick_cases now x : g_tick now x = x \/
  exists t due0, x_wst x = WPending t due0 /\ (due0 <? now)%Z = true /\ g_tick now x = set_wst x WFailed.
Proof.
  unfold g_tick. destruct (x_wst x) as [| | |t due0| | | |] eqn:E; auto. destruct (due0 <? now)%Z eqn:L; [|auto].
  right. exists t, due0. auto.
Qed.

Lemma m16_dead_tick i conns b now : b_op b = OTickWill now ->
  m16_dead i conns b =
  (map (g_tick now) conns,
   flat_map (fun x => match x_wst x with
                      | WPending _ due0 => if (due0 <? now)%Z then [mkv V16_late i (x_conn x) (x_id x)] else []
                      | _ => [] end) conns).
Proof. intro H. unfold m16_dead. rewrite H. reflexivity. Qed.

Lemma mark_nil b x : closes (b_outs b) = [] -> m16_mark b x = x.
Proof.
  intro H. unfold m16_mark. rewrite H. destruct (memN (x_conn x) []) eqn:M; [apply memN_true in M; destruct M|]. rewrite andb_false_r. reflexivity.
Qed.

Lemma ki_tick k m s h0 now s' outs b :
  KI k m s h0 -> b_op b = OTickWill now -> b_outs b = outs ->
  wcleared s s' -> (forall x, In x (st_wills s') <-> In x (st_wills s) /\ due now x = false) ->
  wills_of outs = map (fun e => (d_conn (snd e), d_msg (snd e))) (filter (due now) (st_wills s)) -> closes outs = [] ->
  case_ok k m s' h0 b.
Proof.
  intros HK BOP BO WC TI WO CL. pose proof HK as [[W X] WW ND KX KO KF].
  set (conns := d_conns m) in *. set (ws := wills_of (b_outs b)).
  assert (E1 : m16_end k (length h0) conns b = (conns, [])) by (apply m16_end_closed; rewrite BOP; discriminate).
  assert (E2 : m16_new k (length h0) conns b = (conns, [])) by (apply m16_new_none; rewrite BOP; exact I).
  assert (WSE : ws = map (fun e => (d_conn (snd e), d_msg (snd e))) (filter (due now) (st_wills s))) by (subst ws; rewrite BO; exact WO).
  (* a connection has at most one entry in the table, so at most one publication in the tick *)
  assert (NDW : NoDup (map fst ws)).
  { rewrite WSE, map_map. cbn [fst]. apply NoDup_map_filter, nodup_conns, WW. }
  assert (INW : forall c mm, In (c, mm) ws -> exists id d, In (id, d) (st_wills s) /\ due now (id, d) = true /\ d_conn d = c /\ d_msg d = mm).
  { intros c mm II. rewrite WSE in II. apply in_map_iff in II. destruct II as ([id d] & E & II). apply filter_In in II. inversion E. exists id, d. cbn. tauto. }
  destruct (m16_pubs_ok k (length h0) b (fun v => v_step v = length h0 /\ expl k (h0 ++ [b]) b v) (fun c id => conj eq_refl (or_introl eq_refl)) ws conns NDW)
    as (PA & PB & PC).
  { intros c mm II. destruct (INW c mm II) as (id & d & ID & DU & DC & DM).
    destruct (ww_done s WW id d ID) as (od & Gd & _ & _). rewrite DC in Gd.
    destruct (ki_entry k m s h0 c od HK Gd) as (x & px & F & XC & P). fold conns in F. rewrite F.
    destruct (tick_pub_ok k s h0 b now x od px id d W WW P BOP ID (eq_trans DC (eq_sym XC)) DU) as (A & B & _).
    rewrite XC in A, B. rewrite <- DM, B. split; [exact A|constructor]. }
  unfold case_ok, m16_step. fold conns. fold ws. rewrite E1, E2.
  destruct (m16_pubs k (length h0) b conns ws) as [conns3 v_pub]. cbn [fst snd] in PA, PB, PC.
  rewrite (m16_dead_tick (length h0) conns3 b now BOP). cbn [fst snd app].
  assert (F5 : forall c, find_x c (map (m16_mark b) (map (g_tick now) conns3)) = option_map (g_tick now) (find_x c conns3)).
  { intro c. rewrite (find_map_id (m16_mark b) c _ (m16_mark_conn b)); [apply (find_map (g_tick now)), g_tick_conn|].
    intros x _. apply mark_nil. rewrite BO. exact CL. }
  split.
  - split; [|split]; cbn [d_conns].
    + rewrite (map_keys (m16_mark b) _ (m16_mark_conn b)), (map_keys (g_tick now) _ (g_tick_conn now)), PC. exact ND.
    + intros c x5 FF. rewrite F5, PB in FF. destruct (find_x c conns) as [x|] eqn:F; [|discriminate]. cbn [option_map] in FF.
      destruct (KX c x F) as (ox & px & P). pose proof (find_x_conn _ _ _ F) as XC.
      destruct (wcleared_fwd s s' _ ox WC (pc_get P)) as (ox' & G' & CR).
      assert (SUB : forall id d, In (id, d) (st_wills s') -> d_conn d = x_conn x -> In (id, d) (st_wills s)) by (intros id d II _; apply TI in II; tauto).
      assert (VS : forall xv, view_of k (x_conn x) None h0 = Some xv -> view_step k (x_conn x) (Some xv) b = Some xv)
        by (intros xv _; unfold view_step; rewrite BOP; reflexivity).
      destruct (wkn_fields _ _ (proj1 CR)) as (_ & _ & _ & _ & KP).
      destruct (memN c (map fst ws)) eqn:MEM.
      * (* published in this tick: WPublished, and the entry that fired was the only one of the connection *)
        apply memN_true in MEM. apply in_map_iff in MEM. destruct MEM as ([c2 mm] & EC & II). cbn in EC. subst c2.
        destruct (INW c mm II) as (id & d & ID & DU & DC & DM).
        destruct (tick_pub_ok k s h0 b now x ox px id d W WW P BOP ID (eq_trans DC (eq_sym XC)) DU) as (_ & _ & PD & XO).
        assert (GT : g_tick now (set_wst x WPublished) = set_wst x WPublished) by reflexivity. rewrite GT in FF. inversion FF; subst x5.
        apply (pc_frame2 k s s' h0 b x ox px ox' WPublished P G' CR SUB VS); [intro H; congruence|].
        unfold status_ok. cbn [x_wst set_wst x_with x_conn]. split; [congruence|].
        intros (id2 & d2 & I2 & DC2). apply TI in I2. destruct I2 as [I2 D2].
        destruct (conn_unique s id2 d2 id d WW I2 ID) as [-> ->]; [congruence|]. congruence.
      * (* not published *)
        destruct (g_tick_cases now x) as [GT|(t & due0 & XS & LT & GT)]; rewrite GT in FF; inversion FF; subst x5.
        -- apply (pc_frame k s s' h0 b x ox px P); [exists ox'; auto|exact SUB|exact VS].
        -- (* pending and the monitor's deadline has passed: V16_late, which the theorem does not cover, and WFailed.
              An entry that stays was not due for the broker, whose deadline counts the stored delay from the same
              instant: the stored delay exceeds min(delay, session expiry), and being at most the delay, the expiry *)
           pose proof (pc_st P) as ST. unfold status_ok in ST. rewrite XS in ST. destruct ST as (PD & DUE & ENT).
           apply (pc_frame2 k s s' h0 b x ox px ox' WFailed P G' CR SUB VS).
           ++ intro XO. rewrite (closed_of_done k s h0 x ox px W P PD) in XO. discriminate.
           ++ unfold status_ok. cbn [x_wst set_wst x_with x_conn]. split; [congruence|].
              intros (id2 & d2 & I2 & DC2). right. apply TI in I2. destruct I2 as [I2 D2]. pose proof (ENT id2 d2 I2 DC2) as DD.
              unfold due in D2. cbn [snd] in D2. pose proof (stored_delay_le px) as SL.
              rewrite <- (pc_delay P) in SL.
              change (eff k (set_wst x WFailed)) with (eff k x).
              rewrite DUE in LT. rewrite DD in D2.
              apply N.ltb_lt, (minN_lt_r _ _ _ SL), (due_order t _ _ now); [apply Z.ltb_lt, LT|apply Z.ltb_ge, D2].
    + intros c ox' G'. destruct (wcleared_back s s' _ ox' WC G') as (ox & G & _). destruct (KO c ox G) as (x & F).
      rewrite F5, PB, F. cbn. eexists. reflexivity.
  - (* beside the publications' violations: V16_late, which [uncovered] lists *)
    apply Forall_app. split; [exact PA|]. apply Forall_flat_map_in. intros x _.
    destruct (x_wst x); try constructor. destruct (_ <? _)%Z; repeat constructor.
Qed.

(* what the two cases of the end of a handler share (ki_end: its own end; ki_teardown: after a takeover) *)

Lemma mend_entry s r c now ob normal :
  wwf s -> get_obj c (st_objs s) = Some ob -> o_phase ob <> PhDone -> mend s r c now ob normal ->
  forall id d, In (id, d) (st_wills (fst r)) -> d_conn d = c -> normal = false /\ reg_now ob = true /\ d = entry_of c now ob.
Proof.
  intros WW G PH M id d I DC. destruct (mend_table s r c now ob normal id d M I) as [I0|(A & B & _ & C)]; [|auto].
  (* not an old entry: those belong to finished handlers *)
  destruct (ww_done s WW id d I0) as (od & Gd & _ & PD). rewrite DC, G in Gd. inversion Gd; subst od. contradiction.
Qed.

(* the connection whose handler ended: everything but its status clause follows from what it was *)
Lemma pc_ended k s r h0 b c now ob normal x px xf o' :
  wwf s -> pcr k s h0 x ob px -> x_conn x = c -> o_phase ob <> PhDone -> mend s r c now ob normal ->
  get_obj c (st_objs (fst r)) = Some o' ->
  x_conn xf = x_conn x /\ x_id xf = x_id x /\ x_ver xf = x_ver x /\ x_clean xf = x_clean x /\ x_will xf = x_will x /\ x_delay xf = x_delay x ->
  x_open xf = false ->
  (exists xv, view_of k c None (h0 ++ [b]) = Some xv /\ x_ver xv = x_ver xf /\ x_clean xv = x_clean xf /\
              x_req xv = x_req xf /\ x_delay xv = x_delay xf /\ x_id xv = x_id xf) ->
  status_ok k (fst r) (h0 ++ [b]) px o' xf ->
  pc k (fst r) (h0 ++ [b]) xf.
Proof.
  intros WW P XC PH M G' (EC & EI & EV & ECl & EW & ED) XO VW ST.
  pose proof M as (_ & (o'' & G'' & I' & V1' & O' & _ & W') & _). rewrite G' in G''. inversion G''; subst o''.
  pose proof (pc_get P) as G. rewrite XC in G. pose proof (pc_flag P) as FLG.
  exists o', px. split.
  - rewrite EC, XC. exact G'.
  - rewrite EC, params_of_app, (pc_par P). reflexivity.
  - rewrite EI, (pc_id P). congruence.
  - rewrite EV. apply P.
  - rewrite V1'. apply P.
  - rewrite ECl. apply P.
  - rewrite EW. apply P.
  - rewrite ED. apply P.
  - congruence.
  - rewrite XO. discriminate.
  - intro FL'. rewrite W' in *. destruct normal; [discriminate FL'|]. unfold g_lwt in *. destruct (pub_now ob); [discriminate FL'|]. apply FLG, FL'.
  - intros id d II DC. rewrite EC, XC in DC. destruct (mend_entry s r c now ob normal WW G PH M id d II DC) as (_ & RG & ->).
    unfold reg_now in RG. apply andb_true_iff in RG. destruct RG as [FL DL].
    destruct (FLG FL) as (A & B & C). cbn [entry_of d_msg]. rewrite <- C. split; [exact A|split; [exact B|apply N.ltb_lt, DL]].
  - rewrite EC, XC. exact VW.
  - apply P.
  - exact ST.
Qed.

(* the entries after the step, when the monitor changes the entry of that connection only: the other
   connections keep object, entries of the table and view *)
Lemma mend_conns k m s h0 b c now ob normal r m' xf :
  KI k m s h0 -> mend s r c now ob normal ->
  (forall c', find_x c' (d_conns m') = if c' =? c then Some xf else find_x c' (d_conns m)) ->
  map x_conn (d_conns m') = map x_conn (d_conns m) ->
  (forall c' xv, c' <> c -> view_step k c' (Some xv) b = Some xv) ->
  pc k (fst r) (h0 ++ [b]) xf ->
  KI_conns k m' (fst r) (h0 ++ [b]).
Proof.
  intros HK M FF KK VS PX. split; [rewrite KK; apply HK|]. split.
  - intros c' y FY. rewrite FF in FY. destruct (c' =? c) eqn:EQ; [inversion FY; subst y; exact PX|]. apply N.eqb_neq in EQ.
    destruct (ki_found k m s h0 c' y HK FY) as (YC & oy & py & _ & PY). rewrite <- YC in EQ.
    apply (pc_frame k s (fst r) h0 b y oy py PY (wk_cleared_fwd s _ _ oy (proj1 M _ EQ) (pc_get PY))); [|intros xv _; apply VS, EQ].
    intros id d II DC. destruct (mend_table s r c now ob normal id d M II) as [I0|(_ & _ & _ & ->)]; [exact I0|]. destruct (EQ (eq_sym DC)).
  - intros c' oc' GC'. rewrite FF. destruct (c' =? c) eqn:EQ; [eexists; reflexivity|]. apply N.eqb_neq in EQ.
    destruct (wk_obj_back s (fst r) _ oc' (proj1 M _ EQ) GC') as (oc & GC & _). apply (ki_o _ _ _ _ HK c' oc GC).
Qed.

Lemma memN_single c' c : memN c' [c] = (c' =? c).
Proof. rewrite memN_cons. destruct (memN c' []) eqn:M; [apply memN_true in M; destruct M|]. apply orb_false_r. Qed.

Lemma put_put x y l : x_conn y = x_conn x -> put_x y (put_x x l) = put_x y l.
Proof.
  intro E. induction l as [|z r IH]; cbn.
  - rewrite E, N.eqb_refl. reflexivity.
  - destruct (x_conn z =? x_conn x) eqn:EZ; cbn.
    + rewrite E, N.eqb_refl, EZ. reflexivity.
    + rewrite E, EZ. f_equal. exact IH.
Qed.

Lemma put_found x l : find_x (x_conn x) l = Some x -> put_x x l = l.
Proof.
  induction l as [|y r IH]; cbn; [discriminate|]. destruct (x_conn y =? x_conn x) eqn:E.
  - intro H. inversion H. reflexivity.
  - intro H. f_equal. apply IH, H.
Qed.

(* at most one publication, of connection c *)
Lemma m16_pubs_one k i b conns c x ws :
  find_x c conns = Some x -> (ws = [] \/ exists mm, ws = [(c, mm)]) ->
  exists v_pub,
    m16_pubs k i b conns ws = (put_x (set_wst x (match ws with [] => x_wst x | _ => WPublished end)) conns, v_pub) /\
    forall Q : viol -> Prop, (forall c0 id, Q (mkv V16_retain i c0 id)) ->
      (forall mm, ws = [(c, mm)] -> Forall Q (vstat i b x c) /\ Forall Q (vcont i x c mm)) -> Forall Q v_pub.
Proof.
  intros F [->|(mm & ->)].
  - exists []. split; [|intros; constructor]. cbn [m16_pubs]. rewrite set_wst_same. f_equal.
    symmetry. apply put_found. rewrite (find_x_conn _ _ _ F). exact F.
  - rewrite (m16_pubs_some k i b conns c mm [] x F). cbn [m16_pubs fst snd]. eexists. split; [reflexivity|].
    intros Q QR H. destruct (H mm eq_refl) as [HS HC]. apply Forall_app. split; [exact HS|]. apply Forall_app. split; [exact HC|].
    rewrite app_nil_r. eapply Forall_impl; [|apply vret_tag]. intros v T. rewrite T. apply QR.
Qed.

Definition sei_of (o : op) (x : sconn) : option N :=
  match o with ODisconnect _ _ _ s => if x_ver x =? 5 then s else None | _ => None end.

(* what the monitor computes when the connection c of an open entry x ends and at most its own will is published:
   that entry alone moves, through the statuses st1 (pass 1, m16_end), st3 (pass 3, the publication) and st4 (pass 4:
   a will that was due at once and has not come, WMust, is WFailed, V16_missing having been reported in pass 1) *)
Lemma end_spec k i m b c now n0 x ws :
  ends_conn (b_op b) = Some (c, now, n0) -> find_x c (d_conns m) = Some x -> x_open x = true ->
  closes (b_outs b) = [c] -> wills_of (b_outs b) = ws -> (ws = [] \/ exists mm, ws = [(c, mm)]) ->
  (forall c' y, find_x c' (d_conns m) = Some y -> c' <> c -> f_dead b y = y) ->
  let sei' := sei_of (b_op b) x in
  let nrm := n0 && negb (raise_attempt x sei') in
  let req' := if x_ver x =? 5 then req_after k x sei' else x_req x in
  let xe := fun st => x_with x req' true (Some now) st in
  let dd := minN (x_delay x) (eff k (xe (x_wst x))) in
  let st1 := match x_wst x with
             | WArmed => if nrm then WNormal else if dd =? 0 then WMust else WPending now (now + Z.of_N dd)%Z
             | w => w end in
  let st3 := match ws with [] => st1 | _ => WPublished end in
  let st4 := match st3 with WMust => WFailed | w => w end in
  (forall c', find_x c' (d_conns (fst (m16_step k i m b))) =
              if c' =? c then Some (x_with x req' false (Some now) st4) else find_x c' (d_conns m)) /\
  map x_conn (d_conns (fst (m16_step k i m b))) = map x_conn (d_conns m) /\
  forall Q : viol -> Prop, (forall id, Q (mkv V16_missing i c id)) -> (forall c0 id, Q (mkv V16_retain i c0 id)) ->
    (forall mm, ws = [(c, mm)] -> Forall Q (vstat i b (xe st1) c) /\ Forall Q (vcont i (xe st1) c mm)) ->
    Forall Q (snd (m16_step k i m b)).
Proof.
  intros EC F XO CL WS WSC FD sei' nrm req' xe dd st1 st3 st4.
  set (conns := d_conns m) in *. pose proof (find_x_conn _ _ _ F) as XC.
  assert (E1 : exists v_end, m16_end k i conns b = (put_x (xe st1) conns, v_end) /\
                             forall Q : viol -> Prop, (forall id, Q (mkv V16_missing i c id)) -> Forall Q v_end).
  { unfold m16_end. rewrite EC, F, XO. fold (sei_of (b_op b) x). fold sei'. fold nrm. fold req'. subst st1 dd xe. cbv beta.
    destruct (x_wst x) eqn:XS; try (eexists; split; [reflexivity|intros; constructor]).
    destruct nrm; [eexists; split; [reflexivity|intros; constructor]|].
    destruct (minN (x_delay x) (eff k (x_with x req' true (Some now) WArmed)) =? 0) eqn:DZ.
    - eexists. split; [reflexivity|]. intros Q HQ. destruct (published_in (wills_of (b_outs b)) c); repeat constructor. apply HQ.
    - eexists. split; [reflexivity|intros; constructor]. }
  destruct E1 as (v_end & E1 & QE).
  set (conns1 := put_x (xe st1) conns) in *.
  assert (XE : forall st, x_conn (xe st) = c) by (intro st; exact XC).
  assert (E2 : m16_new k i conns1 b = (conns1, [])).
  { apply m16_new_none. destruct (b_op b); try exact I. discriminate EC. }
  assert (F1 : find_x c conns1 = Some (xe st1)) by (subst conns1; rewrite <- (XE st1) at 1; apply find_put_same).
  pose proof (m16_pubs_one k i b conns1 c (xe st1) ws F1 WSC) as E3.
  change (set_wst (xe st1) (match ws with [] => x_wst (xe st1) | _ => WPublished end)) with (xe st3) in E3.
  destruct E3 as (v_pub & E3 & QP).
  set (conns3 := put_x (xe st3) conns1) in *.
  assert (E4 : m16_dead i conns3 b = (map (f_dead b) conns3, [])).
  { apply m16_dead_default. destruct (b_op b); try exact I; discriminate EC. }
  assert (F3 : forall c', find_x c' conns3 = if c' =? c then Some (xe st3) else find_x c' conns).
  { intro c'. subst conns3 conns1. rewrite !find_put, !XE. rewrite (N.eqb_sym c c'). destruct (c' =? c); reflexivity. }
  assert (FDC : f_dead b (xe st3) = xe st4).
  { unfold f_dead. rewrite EC. subst st4. cbn [x_wst xe x_with]. destruct st3; try reflexivity.
    rewrite (XE WMust), N.eqb_refl. reflexivity. }
  unfold m16_step. fold conns. rewrite E1, E2, WS, E3, E4. cbn [fst snd d_conns app].
  split; [|split].
  - intro c'. rewrite (find_map (m16_mark b) c' _ (m16_mark_conn b)), (find_map (f_dead b) c' _ (f_dead_conn b)), F3.
    destruct (c' =? c) eqn:E.
    + cbn [option_map]. rewrite FDC. f_equal. unfold m16_mark. cbn [x_open x_conn x_with xe]. rewrite CL, XC, memN_single, N.eqb_refl. reflexivity.
    + destruct (find_x c' conns) as [y|] eqn:FY; [|reflexivity]. cbn [option_map]. apply N.eqb_neq in E.
      rewrite (FD c' y FY E). f_equal. unfold m16_mark. rewrite CL, memN_single, (find_x_conn _ _ _ FY).
      destruct (c' =? c) eqn:EQ; [apply N.eqb_eq in EQ; congruence|]. rewrite andb_false_r. reflexivity.
  - rewrite (map_keys (m16_mark b) _ (m16_mark_conn b)), (map_keys (f_dead b) _ (f_dead_conn b)).
    subst conns3 conns1. rewrite (put_keys_same (xe st3) _ (xe st1)); [apply (put_keys_same (xe st1) conns x); rewrite XE; exact F|].
    rewrite XE. rewrite <- (XE st1) at 1. apply find_put_same.
  - intros Q QM QR H. apply Forall_app. split; [apply QE, QM|]. cbn [app]. rewrite app_nil_r. apply (QP Q QR H).
Qed.

Definition end_op (o : op) (c : N) (now : Z) (ob : cobj) (normal : bool) : Prop :=
  (exists rc sei, o = ODisconnect c now rc sei /\ normal = negb (raises ob sei) && (rc =? 0)) \/
  (o = ONetClose c now /\ normal = false) \/ (o = OSecondConnect c now /\ normal = false).

(* the monitor's "normal" is the model's: an open entry has the expiry of the object (pc_live), and sane_op lets a
   DISCONNECT carry an expiry on MQTT 5 only, where the monitor reads it *)
Lemma end_normal_mon k s h0 o c now ob normal x p :
  end_op o c now ob normal -> sane_op s o -> reading s c = Some ob -> pcr k s h0 x ob p -> x_open x = true ->
  exists n0, ends_conn o = Some (c, now, n0) /\ n0 && negb (raise_attempt x (sei_of o x)) = normal.
Proof.
  intros EO SO R P XO. destruct (pc_live P XO) as (RQ & OS & _).
  destruct EO as [(rc & sei & -> & ->)|[[-> ->]|[-> ->]]]; cbn [ends_conn sei_of]; eexists; (split; [reflexivity|]); try reflexivity.
  unfold raises, raise_attempt. destruct sei as [v|].
  - cbn in SO. rewrite (pc_ver P), <- (pc_over P), (SO ob R). cbn [N.eqb Pos.eqb].
    rewrite RQ, OS. apply andb_comm.
  - destruct (x_ver x =? 5); cbn; rewrite andb_true_r; reflexivity.
Qed.

(* the view of the connection used by the finding predicates follows the monitor's *)
Lemma end_view k s h0 b o c now ob normal x p xv :
  wf s -> end_op o c now ob normal -> b_op b = o -> b_pre b = snap_of s -> reading s c = Some ob -> pcr k s h0 x ob p -> x_conn x = c ->
  view_of k c None h0 = Some xv -> x_ver xv = x_ver x -> x_req xv = x_req x ->
  exists xv1, view_of k c None (h0 ++ [b]) = Some xv1 /\ x_ver xv1 = x_ver xv /\ x_clean xv1 = x_clean xv /\ x_delay xv1 = x_delay xv /\
              x_id xv1 = x_id xv /\ x_req xv1 = (if x_ver x =? 5 then req_after k x (sei_of o x) else x_req x).
Proof.
  intros W EO BOP BPRE R P XC VW VV VR. rewrite view_of_app, VW. cbn [view_of]. unfold view_step. rewrite BOP.
  destruct EO as [(rc & sei & -> & _)|[[-> _]|[-> _]]]; cbn [sei_of].
  - rewrite N.eqb_refl. rewrite BPRE.
    assert (L : live_in c (x_id xv) (snap_of s) = true).
    { destruct (pc_view P) as (xv' & VW' & _ & _ & _ & _ & XI). rewrite XC, VW in VW'. inversion VW'; subst xv'.
      rewrite XI, (pc_id P). apply live_in_reading; assumption. }
    rewrite L. eexists. split; [reflexivity|]. cbn. rewrite VV. repeat split; auto.
    destruct (x_ver x =? 5); [|exact VR]. unfold req_after. rewrite VR. reflexivity.
  - exists xv. repeat split; auto. rewrite VR. destruct (x_ver x =? 5); reflexivity.
  - exists xv. repeat split; auto. rewrite VR. destruct (x_ver x =? 5); reflexivity.
Qed.

Lemma eff_with k x r o e w : eff k (x_with x r o e w) = (if x_ver x =? 5 then r else if x_clean x then 0 else k_maxsei k).
Proof. reflexivity. Qed.

Lemma pub_reg_excl ob : pub_now ob = true -> reg_now ob = true -> False.
Proof. unfold pub_now, reg_now. destruct (w_flag (o_will ob)); cbn; [|discriminate]. destruct (0 <? w_delay (o_will ob)); cbn; discriminate. Qed.

Lemma ki_end k m s h0 o s' outs b c now ob normal :
  KI k m s h0 -> sane_op s o -> b_op b = o -> b_outs b = outs -> b_pre b = snap_of s ->
  end_op o c now ob normal -> reading s c = Some ob -> mend s (s', outs) c now ob normal ->
  case_ok k m s' h0 b.
Proof.
  intros HK SO BOP BO BPRE EO R M. pose proof HK as [[W X] WW ND KX KO KF].
  pose proof M as (_ & (o' & G' & I' & V1' & O' & P' & W') & _ & WSm & CLm). cbn [fst snd] in *.
  destruct (reading_obj s c ob R) as [G OO]. rewrite OO in CLm.
  destruct (ki_entry k m s h0 c ob HK G) as (x & px & F & XC & P).
  assert (XO : x_open x = true) by (rewrite (pc_open P); exact OO).
  destruct (pc_live P XO) as (RQ & OS & ST01).
  destruct (end_normal_mon k s h0 o c now ob normal x px EO SO R P XO) as (n0 & EC & NRM).
  assert (ENT : forall id d, In (id, d) (st_wills s') -> d_conn d = c -> normal = false /\ reg_now ob = true /\ d = entry_of c now ob).
  { apply (mend_entry s (s', outs) c now ob normal); auto. rewrite (proj2 (reading_phase s c ob R)). discriminate. }
  set (ws := if normal then [] else if pub_now ob then [(c, will_msg (o_will ob))] else []) in *.
  assert (WSC : ws = [] \/ exists mm, ws = [(c, mm)]) by (subst ws; destruct normal; [auto|destruct (pub_now ob); eauto]).
  rewrite <- BO in WSm, CLm.
  assert (ECb : ends_conn (b_op b) = Some (c, now, n0)) by (rewrite BOP; exact EC).
  pose proof (end_spec k (length h0) m b c now n0 x ws ECb F XO CLm WSm WSC
                (fun c' y FY _ => f_dead_id k s h0 b y (KX c' y FY))) as ES.
  cbv zeta in ES. rewrite BOP, NRM in ES.
  set (req' := if x_ver x =? 5 then req_after k x (sei_of o x) else x_req x) in *.
  rewrite eff_with in ES.
  set (ee := if x_ver x =? 5 then req' else if x_clean x then 0 else k_maxsei k) in *.
  set (dd := minN (x_delay x) ee) in *.
  destruct ES as (FF & KK & QQ).
  (* what the finding predicates will read off the history with b: the CONNECT parameters, and a view whose expiry
     is the one the monitor has computed, ee *)
  pose proof (params_snoc _ h0 b px (pc_par P)) as PAR. rewrite XC in PAR.
  destruct (pc_view P) as (xv & VW & VV & VC & VR & VD & VI). rewrite XC in VW.
  destruct (end_view k s h0 b o c now ob normal x px xv W EO BOP BPRE R P XC VW VV VR) as (xv1 & VW1 & VV1 & VC1 & VD1 & VI1 & VR1).
  fold req' in VR1.
  assert (EFF1 : eff k xv1 = ee) by (unfold eff; rewrite VV1, VV, VC1, VC, VR1; reflexivity).
  pose proof (stored_delay_le px) as SL. rewrite <- (pc_delay P) in SL.
  assert (FLG : w_flag (o_will ob) = true -> cp_willflag px = true /\ will_msg (o_will ob) = will_of px /\ w_delay (o_will ob) = stored_delay px)
    by apply (pc_flag P).
  split.
  - apply (mend_conns k m s h0 b c now ob normal (s', outs) _ _ HK M FF KK).
    + intros c' xvy NE. unfold view_step. rewrite BOP.
      destruct EO as [(rc & sei & -> & _)|[[-> _]|[-> _]]]; try reflexivity.
      destruct (c =? c') eqn:E2; [apply N.eqb_eq in E2; congruence|reflexivity].
    + apply (pc_ended k s (s', outs) h0 b c now ob normal x px _ o' WW P XC ltac:(rewrite (proj2 (reading_phase s c ob R)); discriminate) M G');
        [repeat split|reflexivity|exists xv1; cbn [x_id x_ver x_clean x_delay x_req x_with]; repeat split; congruence|].
      (* the status clause of the new entry: the old one was WNone or WArmed, the connection being open; then by what
         the handler did with the will *)
      unfold status_ok. cbn [x_conn x_wst x_with x_open x_delay]. rewrite XC, eff_with. fold ee.
      pose proof (pc_st P) as ST. unfold status_ok in ST.
      assert (NSE : reg_now ob = false \/ normal = true -> ~ srcE s' c).
      { intros H (id & d & II & DC). destruct (ENT id d II DC) as (A & B & _). destruct H; congruence. }
      destruct ST01 as [XS|XS]; rewrite XS in *.
      * (* WNone: no will, nothing published or registered *)
        destruct ST as [NF _]. assert (WE : ws = []) by (subst ws; destruct normal; [reflexivity|]; unfold pub_now; rewrite NF; reflexivity).
        rewrite WE. cbn beta iota. split.
        -- rewrite W'. destruct normal; [reflexivity|]. unfold g_lwt, pub_now. rewrite NF. cbn. exact NF.
        -- apply NSE. left. unfold reg_now. rewrite NF. reflexivity.
      * destruct normal.
        -- (* WNormal: a normal DISCONNECT deletes the entry of the identifier *)
           subst ws. cbn beta iota. split; [exact P'|apply NSE; auto].
        -- destruct (pub_now ob) eqn:PN.
           ++ (* published at once: WPublished, and nothing is registered beside *)
              subst ws. cbn beta iota. split; [exact P'|]. apply NSE. left. destruct (reg_now ob) eqn:RG; [destruct (pub_reg_excl ob PN RG)|reflexivity].
           ++ subst ws. cbn beta iota. destruct (dd =? 0) eqn:DZ; cbn beta iota.
              ** (* for the monitor the will was due at once (WMust, V16_missing, WFailed).  If the broker has registered it
                    instead, its stored delay is positive while min(delay, expiry) is 0; being at most the delay, it exceeds
                    the expiry, which is what WFailed admits (KF_C16_delay_uncapped) *)
                 split; [exact P'|]. intros (id & d & II & DC). right. destruct (ENT id d II DC) as (_ & RG & _).
                 unfold reg_now in RG. apply andb_true_iff in RG. destruct RG as [FL DL]. destruct (FLG FL) as (_ & _ & C).
                 apply N.eqb_eq in DZ. apply N.ltb_lt in DL. apply N.ltb_lt. rewrite C, <- DZ in DL. exact (minN_lt_r _ _ _ SL DL).
              ** (* WPending: the entry, if the broker has registered one, counts the stored delay *)
                 split; [exact P'|]. split; [reflexivity|]. intros id d II DC. destruct (ENT id d II DC) as (_ & RG & ->).
                 unfold reg_now in RG. apply andb_true_iff in RG. destruct RG as [FL _]. destruct (FLG FL) as (_ & _ & C).
                 cbn [entry_of d_due]. rewrite C. reflexivity.
  - (* V16_missing and V16_retain are [uncovered].  A will published at once has stored delay 0; the monitor objects
       if its own delay dd is positive (V16_early), and 0 < dd is KF_C16_delay_fixed_at_connect *)
    apply QQ.
    + intro id. split; [reflexivity|left; reflexivity].
    + intros c0 id. split; [reflexivity|left; reflexivity].
    + intros mm WE. assert (NPN : normal = false /\ pub_now ob = true /\ mm = will_msg (o_will ob)).
      { subst ws. destruct normal; [discriminate|]. destruct (pub_now ob); [|discriminate]. inversion WE. auto. }
      destruct NPN as (-> & PN & ->). unfold pub_now in PN. apply andb_true_iff in PN. destruct PN as [FL DL]. destruct (FLG FL) as (A & B & C).
      split.
      * unfold vstat. cbn [x_wst x_with x_id]. pose proof (pc_st P) as ST. unfold status_ok in ST.
        destruct ST01 as [XS|XS]; rewrite XS in *; [destruct ST as [NF _]; congruence|].
        destruct (dd =? 0) eqn:DZ; [constructor|]. rewrite BOP.
        assert (ON : op_now o = Some now) by (destruct EO as [(rc & sei & -> & _)|[[-> _]|[-> _]]]; reflexivity). rewrite ON.
        apply N.eqb_neq in DZ. rewrite (not_due_at_end now dd DZ).
        constructor; [|constructor]. split; [reflexivity|]. right. right. right. left. split; [reflexivity|]. exists px, xv1. cbn [v_conn mkv].
        split; [exact PAR|]. split; [exact VW1|]. split; [exact A|]. rewrite EFF1, VD1, VD. fold dd. rewrite <- C.
        apply negb_true_iff in DL. apply N.ltb_ge, N.le_0_r in DL. apply N.ltb_lt. rewrite DL. apply N.neq_0_lt_0, DZ.
      * unfold vcont. cbn [x_will x_with]. rewrite (pc_will P), B, beq_msg_refl. constructor.
Qed.

Lemma put_same_id x l : find_x (x_conn x) l = Some x -> NoDup (map x_conn l) -> forall c, find_x c (put_x x l) = find_x c l.
Proof.
  intros F _ c. rewrite find_put. destruct (x_conn x =? c) eqn:E; [|reflexivity]. apply N.eqb_eq in E. subst c. symmetry. exact F.
Qed.

(* the same for the teardown of a connection taken over: no pass 1; in pass 4 a WMust that is still there is reported
   (V16_missing_takeover) and is WFailed *)
Lemma teardown_spec k i m b c now x ws :
  b_op b = OTeardown c now -> find_x c (d_conns m) = Some x -> closes (b_outs b) = [] -> wills_of (b_outs b) = ws ->
  (ws = [] \/ exists mm, ws = [(c, mm)]) ->
  let st3 := match ws with [] => x_wst x | _ => WPublished end in
  let st4 := match st3 with WMust => WFailed | w => w end in
  (forall c', find_x c' (d_conns (fst (m16_step k i m b))) = if c' =? c then Some (set_wst x st4) else find_x c' (d_conns m)) /\
  map x_conn (d_conns (fst (m16_step k i m b))) = map x_conn (d_conns m) /\
  forall Q : viol -> Prop, (forall id, Q (mkv V16_missing_takeover i c id)) -> (forall c0 id, Q (mkv V16_retain i c0 id)) ->
    (forall mm, ws = [(c, mm)] -> Forall Q (vstat i b x c) /\ Forall Q (vcont i x c mm)) ->
    Forall Q (snd (m16_step k i m b)).
Proof.
  intros BOP F CL WS WSC st3 st4. set (conns := d_conns m) in *. pose proof (find_x_conn _ _ _ F) as XC.
  assert (E1 : m16_end k i conns b = (conns, [])) by (apply m16_end_closed; rewrite BOP; discriminate).
  assert (E2 : m16_new k i conns b = (conns, [])) by (apply m16_new_none; rewrite BOP; exact I).
  assert (XS : forall st, x_conn (set_wst x st) = c) by (intro st; exact XC).
  pose proof (m16_pubs_one k i b conns c x ws F WSC) as E3. fold st3 in E3.
  destruct E3 as (v_pub & E3 & QP).
  set (conns3 := put_x (set_wst x st3) conns) in *.
  assert (F3 : find_x c conns3 = Some (set_wst x st3)) by (subst conns3; rewrite <- (XS st3) at 1; apply find_put_same).
  assert (E4 : exists v_dead, m16_dead i conns3 b = (put_x (set_wst x st4) conns3, v_dead) /\
               forall Q : viol -> Prop, (forall id, Q (mkv V16_missing_takeover i c id)) -> Forall Q v_dead).
  { unfold m16_dead. rewrite BOP, F3. cbn [x_wst set_wst x_with]. subst st4. destruct st3 eqn:S3.
    3:{ (* WMust *) eexists. split; [reflexivity|]. intros Q HQ. repeat constructor. apply HQ. }
    all: exists []; (split; [|intros; constructor]); f_equal; symmetry; subst conns3; apply put_put; reflexivity. }
  destruct E4 as (v_dead & E4 & QD).
  unfold m16_step. fold conns. rewrite E1, E2, WS, E3, E4. cbn [fst snd d_conns app].
  assert (MK : forall l, map (m16_mark b) l = l).
  { intro l. induction l as [|y r IH]; cbn; [reflexivity|]. rewrite (mark_nil b y CL), IH. reflexivity. }
  rewrite MK. split; [|split].
  - intro c'. subst conns3. rewrite !find_put, !XS. rewrite (N.eqb_sym c c'). destruct (c' =? c); reflexivity.
  - subst conns3. rewrite (put_keys_same (set_wst x st4) _ (set_wst x st3)); [apply (put_keys_same (set_wst x st3) conns x); rewrite XS; exact F|].
    rewrite XS. exact F3.
  - intros Q QM QR H. apply Forall_app. split; [apply (QP Q QR H)|apply QD, QM].
Qed.

Lemma ki_teardown k m s h0 s' outs b c now ob :
  KI k m s h0 -> b_op b = OTeardown c now -> b_outs b = outs ->
  get_obj c (st_objs s) = Some ob -> o_phase ob = PhHeld -> mend s (s', outs) c now ob false ->
  case_ok k m s' h0 b.
Proof.
  intros HK BOP BO G PH M. pose proof HK as [[W X] WW ND KX KO KF].
  pose proof M as (_ & (o' & G' & I' & V1' & O' & P' & W') & _ & WSm & CLm). cbn [fst snd] in *.
  assert (OC : o_open ob = false).
  { destruct (o_open ob) eqn:OO; [|reflexivity]. destruct (wf_open s W c ob G OO) as (_ & PR & _). congruence. }
  rewrite OC in CLm.
  destruct (ki_entry k m s h0 c ob HK G) as (x & px & F & XC & P).
  assert (XO : x_open x = false) by (rewrite (pc_open P); exact OC).
  assert (ENT : forall id d, In (id, d) (st_wills s') -> d_conn d = c -> reg_now ob = true /\ d = entry_of c now ob).
  { intros id d II DC. apply (mend_entry s (s', outs) c now ob false WW G ltac:(congruence) M id d II DC). }
  set (ws := if pub_now ob then [(c, will_msg (o_will ob))] else []) in *.
  assert (WSC : ws = [] \/ exists mm, ws = [(c, mm)]) by (subst ws; destruct (pub_now ob); eauto).
  rewrite <- BO in WSm, CLm.
  destruct (teardown_spec k (length h0) m b c now x ws BOP F CLm WSm WSC) as (FF & KK & QQ).
  assert (FLG : w_flag (o_will ob) = true -> cp_willflag px = true /\ will_msg (o_will ob) = will_of px /\ w_delay (o_will ob) = stored_delay px)
    by apply (pc_flag P).
  assert (ARM : w_flag (o_will ob) = true -> is_armed ob) by (intro FL; split; [exact FL|congruence]).
  pose proof (pc_st P) as ST. unfold status_ok in ST. rewrite XC in ST.
  (* the statuses a held handler can have: it is not open (WArmed) and not done (WPending and the final ones); if its
     will was cancelled and is still armed it has a delay, so it is not published now *)
  assert (STS : (x_wst x = WNone /\ pub_now ob = false) \/ x_wst x = WMust \/ (x_wst x = WCancelled /\ pub_now ob = false)).
  { destruct (x_wst x) eqn:XS; try (pose proof (proj1 ST); congruence).
    - left. split; [reflexivity|]. unfold pub_now. rewrite (proj1 ST). reflexivity.
    - congruence.
    - right. left. reflexivity.
    - right. right. split; [reflexivity|]. destruct (pub_now ob) eqn:PN; [|reflexivity]. exfalso. unfold pub_now in PN. apply andb_true_iff in PN.
      destruct PN as [FL DL]. destruct (ST (or_introl (ARM FL))) as [_ D]. specialize (D (ARM FL)). apply negb_true_iff, N.ltb_ge in DL. exact (N.lt_irrefl _ (N.lt_le_trans _ _ _ D DL)). }
  split.
  - apply (mend_conns k m s h0 b c now ob false (s', outs) _ _ HK M FF KK).
    + intros c' xvy _. unfold view_step. rewrite BOP. reflexivity.
    + apply (pc_ended k s (s', outs) h0 b c now ob false x px _ o' WW P XC ltac:(congruence) M G'); [repeat split|exact XO| |].
      * destruct (pc_view P) as (xv & VW & VX). exists xv. split; [|exact VX].
        rewrite <- XC, view_of_app, VW. cbn [view_of]. unfold view_step. rewrite BOP. reflexivity.
      * unfold status_ok. cbn [x_conn x_wst x_with set_wst]. rewrite XC.
        destruct STS as [[XS PN]|[XS|[XS PN]]]; rewrite XS in *.
        -- (* WNone *) subst ws. rewrite PN. cbn beta iota. destruct ST as [NF _]. split.
           ++ rewrite W', PN. exact NF.
           ++ intros (id & d & II & DC). destruct (ENT id d II DC) as (RG & _). unfold reg_now in RG. rewrite NF in RG. discriminate.
        -- (* WMust: published now (WPublished, nothing registered beside), or not (WFailed): what the teardown may have
              registered instead is the entry of a connection taken over alive, which WFailed admits *)
           destruct ST as [_ TOL]. subst ws. destruct (pub_now ob) eqn:PN; cbn beta iota.
           ++ split; [exact P'|]. intros (id & d & II & DC). destruct (ENT id d II DC) as (RG & _). destruct (pub_reg_excl ob PN RG).
           ++ split; [exact P'|]. intros _. left. apply tol_mono, TOL.
        -- (* WCancelled stays.  The handler is done, so nothing is armed; an entry is there if the teardown has registered
              the will, after the cancellation: the connection was taken over alive, as the clause held for the armed
              object before (KF_C16_takeover_delayed) *)
           subst ws. rewrite PN. cbn beta iota. intros [[_ AR]|(id & d & II & DC)]; [congruence|].
           destruct (ENT id d II DC) as (RG & _). unfold reg_now in RG. apply andb_true_iff in RG. destruct RG as [FL _].
           destruct (ST (or_introl (ARM FL))) as [TOL _]. split; [apply tol_mono, TOL|]. intros [_ AR]. congruence.
  - (* V16_missing_takeover and V16_retain are [uncovered]; a will is published only from WMust, where it is due *)
    apply QQ.
    + intro id. split; [reflexivity|left; reflexivity].
    + intros c0 id. split; [reflexivity|left; reflexivity].
    + intros mm WE. assert (NPN : pub_now ob = true /\ mm = will_msg (o_will ob)).
      { subst ws. destruct (pub_now ob); [|discriminate]. inversion WE. auto. }
      destruct NPN as (PN & ->). destruct STS as [[_ PN']|[XS|[_ PN']]]; try congruence.
      unfold pub_now in PN. apply andb_true_iff in PN. destruct PN as [FL DL]. destruct (FLG FL) as (A & B & C).
      split; [unfold vstat; rewrite XS; constructor|]. unfold vcont. rewrite (pc_will P), B, beq_msg_refl. constructor.
Qed.

Lemma takeover_same k ws c p e y : same_but_status y (m16_takeover k ws c p e y) /\ x_open (m16_takeover k ws c p e y) = x_open y.
Proof.
  unfold m16_takeover, same_but_status. destruct (_ && _); [|auto 10]. destruct (x_wst y); auto 10.
  - destruct (x_open y) eqn:XO; [|auto 10]. destruct (_ && _); cbn; rewrite ?XO; auto 10.
  - destruct (cp_clean p); [|cbn; auto 10]. destruct (published_in ws (x_conn y)); cbn; auto 10.
Qed.

Lemma takeover_conn k ws c p e x : x_conn (m16_takeover k ws c p e x) = x_conn x.
Proof. apply takeover_same. Qed.

Lemma f_dead_none b x : ends_conn (b_op b) = None -> f_dead b x = x.
Proof. intro E. unfold f_dead. rewrite E. destruct (x_wst x); reflexivity. Qed.

(* what pass 2 of the monitor reports at an accepted CONNECT; [] stands for the wills of the step, an accepted CONNECT
   publishing none (so below, in m16_takeover) *)
Definition lost_viols (i : nat) (c : N) (p : cparams) (e : bytes) (conns : list sconn) : list viol :=
  flat_map (fun x =>
    if beq_bytes (x_id x) e && negb (x_conn x =? c) && cp_clean p && negb (published_in [] (x_conn x)) then
      match x_wst x with WPending _ _ => [mkv V16_lost_clean i (x_conn x) e] | _ => [] end
    else []) conns.

Lemma accept_spec k i m b c now p a e sp :
  b_op b = OConnect c now p a e -> success_connack (pkts_to c (b_outs b)) = Some sp -> wills_of (b_outs b) = [] ->
  find_x c (d_conns m) = None ->
  (forall c', find_x c' (d_conns (fst (m16_step k i m b))) =
              if c' =? c then Some (m16_mark b (x_new k c p e))
              else option_map (fun y => m16_mark b (m16_takeover k [] c p e y)) (find_x c' (d_conns m))) /\
  map x_conn (d_conns (fst (m16_step k i m b))) = map x_conn (d_conns m) ++ [c] /\
  snd (m16_step k i m b) = lost_viols i c p e (d_conns m).
Proof.
  intros BOP SC WS FN. set (conns := d_conns m) in *.
  assert (E1 : m16_end k i conns b = (conns, [])) by (apply m16_end_closed; rewrite BOP; discriminate).
  assert (E2 : m16_new k i conns b = (put_x (x_new k c p e) (map (m16_takeover k [] c p e) conns), lost_viols i c p e conns)).
  { unfold m16_new. rewrite BOP, SC, WS. reflexivity. }
  assert (E4 : forall l, m16_dead i l b = (l, [])).
  { intro l. rewrite m16_dead_default by (rewrite BOP; exact I). f_equal. induction l as [|y r IH]; cbn; [reflexivity|].
    rewrite f_dead_none by (rewrite BOP; reflexivity). rewrite IH. reflexivity. }
  unfold m16_step. fold conns. rewrite E1, E2, WS. cbn [m16_pubs]. rewrite E4. cbn [fst snd d_conns app]. rewrite app_nil_r.
  assert (FT : find_x c (map (m16_takeover k [] c p e) conns) = None).
  { rewrite (find_map _ c conns (takeover_conn k [] c p e)), FN. reflexivity. }
  split; [|split; [|reflexivity]].
  - intro c'. rewrite (find_map (m16_mark b) c' _ (m16_mark_conn b)), find_put. cbn [x_conn x_new].
    rewrite (N.eqb_sym c c'). destruct (c' =? c); [reflexivity|].
    rewrite (find_map _ c' conns (takeover_conn k [] c p e)). destruct (find_x c' conns); reflexivity.
  - rewrite (map_keys (m16_mark b) _ (m16_mark_conn b)), put_keys_new by exact FT.
    rewrite (map_keys _ conns (takeover_conn k [] c p e)). reflexivity.
Qed.

Lemma takeover_wst k c p e y :
  x_wst (m16_takeover k [] c p e y) =
  if beq_bytes (x_id y) e && negb (x_conn y =? c) then
    match x_wst y with
    | WArmed => if x_open y then (if negb (cp_clean p) && (0 <? minN (x_delay y) (eff k y)) then WCancelled else WMust) else WArmed
    | WPending _ _ => if cp_clean p then WFailed else WCancelled
    | w => w
    end
  else x_wst y.
Proof.
  unfold m16_takeover. destruct (_ && _); [|reflexivity]. destruct (x_wst y) eqn:XS; cbn beta iota; try exact XS.
  - destruct (x_open y); [|exact XS]. destruct (_ && _); reflexivity.
  - destruct (cp_clean p); reflexivity.
Qed.

Lemma takeover_cases k c p e y :
  m16_takeover k [] c p e y = y \/
  (x_id y = e /\
   (x_open y = true \/
    exists t d, x_wst y = WPending t d /\ m16_takeover k [] c p e y = set_wst y (if cp_clean p then WFailed else WCancelled))).
Proof.
  unfold m16_takeover. destruct (beq_bytes (x_id y) e) eqn:BE; [|auto]. destruct (x_conn y =? c); [auto|]. cbn [negb andb].
  apply bb_eq in BE. destruct (x_wst y) as [| | |t d| | | |] eqn:XS; auto.
  - destruct (x_open y); auto.
  - right. split; [exact BE|]. right. exists t, d. destruct (cp_clean p); auto.
Qed.

Lemma mark_same b z : same_but_status z (m16_mark b z) /\ x_wst (m16_mark b z) = x_wst z /\
  x_open (m16_mark b z) = x_open z && negb (memN (x_conn z) (closes (b_outs b))).
Proof.
  unfold m16_mark, same_but_status. destruct (x_open z) eqn:XO; cbn [andb].
  - destruct (memN (x_conn z) (closes (b_outs b))); cbn; rewrite ?XO; auto 12.
  - rewrite XO. auto 12.
Qed.

Lemma same_but_trans a b c : same_but_status a b -> same_but_status b c -> same_but_status a c.
Proof. unfold same_but_status. intros (A1 & A2 & A3 & A4 & A5 & A6 & A7) (B1 & B2 & B3 & B4 & B5 & B6 & B7). repeat split; congruence. Qed.

Lemma pc_new k s' h0 b c now p e sp n2 xn :
  params_of c h0 = None -> view_of k c None h0 = None -> (cp_ver p <> 5 -> cp_willdelay p = 0) ->
  b_op b = OConnect c now p true e -> success_connack (pkts_to c (b_outs b)) = Some sp ->
  get_obj c (st_objs s') = Some n2 -> o_id n2 = e -> o_ver n2 = cp_ver p -> o_sei n2 = capN k (o_sei (parse_connect c p e)) ->
  o_open n2 = true -> o_will n2 = o_will (parse_connect c p e) ->
  (forall id d, In (id, d) (st_wills s') -> d_conn d <> c) ->
  same_but_status (x_new k c p e) xn -> x_open xn = true -> x_wst xn = x_wst (x_new k c p e) ->
  pc k s' (h0 ++ [b]) xn.
Proof.
  intros PN VN SN BOP SC G2 I2 V2 S2 O2 W2 NOE (EC & EI & EV & ECl & EW & ED & ER) XO XS.
  cbn [x_conn x_id x_ver x_clean x_will x_delay x_req x_new] in *.
  exists n2, p. split; try congruence.
  - rewrite EC, params_of_app, PN. cbn [params_of]. rewrite BOP, N.eqb_refl. reflexivity.
  - rewrite EW. reflexivity.
  - rewrite ED. reflexivity.
  - intros _. rewrite ER. split; [reflexivity|]. split.
    + rewrite S2. cbn [o_sei parse_connect]. unfold req0. destruct (cp_seiflag p); [reflexivity|apply capN_zero].
    + rewrite XS. cbn [x_wst x_new]. destruct (cp_willflag p); auto.
  - intro FL. rewrite W2 in *. cbn [o_will parse_connect] in *. destruct (cp_willflag p); [|discriminate FL]. split; [reflexivity|]. split; [reflexivity|].
    cbn [w_delay]. unfold stored_delay. destruct (cp_ver p =? 5) eqn:V5; cbn [negb]; [reflexivity|].
    rewrite (SN ltac:(intro H; rewrite H in V5; discriminate)). destruct (cp_seiflag p && (cp_sei p <? 0)) eqn:E; [|reflexivity].
    apply andb_true_iff in E. destruct E as [_ E]. apply N.ltb_lt in E. destruct (N.nlt_0_r _ E).
  - intros id d II DC. rewrite EC in DC. destruct (NOE id d II DC).
  - exists (x_new k c p e). rewrite EC, EV, ECl, ER, ED, EI. split; [|auto 10].
    rewrite view_of_app, VN. cbn [view_of]. unfold view_step. rewrite BOP, N.eqb_refl, SC. reflexivity.
  - exact SN.
  - unfold status_ok. rewrite XS. cbn [x_wst x_new]. destruct (cp_willflag p) eqn:WF; [exact XO|]. split.
    + rewrite W2. cbn [o_will parse_connect]. rewrite WF. reflexivity.
    + intros (id & d & II & DC). rewrite EC in DC. destruct (NOE id d II DC).
Qed.

Lemma tol_here s b c now p a e sp eo h0 :
  wf s -> b_op b = OConnect c now p a e -> b_pre b = snap_of s -> success_connack (pkts_to c (b_outs b)) = Some sp ->
  client_of s e = Some eo -> o_open eo = true -> o_conn eo <> c -> taken_over_live (o_conn eo) (h0 ++ [b]) = true.
Proof.
  intros W BOP BPRE SC CO OO NE. rewrite tol_app. apply orb_true_iff. right. cbn [taken_over_live]. rewrite BOP, SC, BPRE.
  destruct (client_of_reg s e eo W CO) as (A & G & _). rewrite (find_client_snap s e W), A, G. cbn [option_map sclient_of sc_conn sc_open].
  rewrite N.eqb_refl, OO. destruct (c =? o_conn eo) eqn:E; [apply N.eqb_eq in E; congruence|reflexivity].
Qed.

Lemma ki_accept k m s h0 s' outs b c now p e sp :
  KI k m s h0 -> (cp_ver p <> 5 -> cp_willdelay p = 0) -> b_op b = OConnect c now p true e -> b_outs b = outs -> b_pre b = snap_of s ->
  hasobj s c = false -> memN c (st_used s) = false -> success_connack (pkts_to c outs) = Some sp -> maccept k s (s', outs) c now p e ->
  case_ok k m s' h0 b.
Proof.
  intros [V WW ND KX KO KF] SN BOP BO BPRE HS MU SC ((n2 & G2 & I2 & V2 & S2 & O2 & W2) & OTH & TKO & CL & T & WSm).
  cbn [fst snd] in *. destruct V as [W X].
  assert (FN : find_x c (d_conns m) = None).
  { destruct (find_x c (d_conns m)) as [x|] eqn:F; [|reflexivity]. destruct (KX c x F) as (ox & px & P).
    pose proof (pc_get P) as G. rewrite (find_x_conn _ _ _ F) in G. unfold hasobj in HS. rewrite G in HS. discriminate. }
  destruct (KF c MU) as [PN VN].
  rewrite <- BO in SC, WSm, CL.
  destruct (accept_spec k (length h0) m b c now p true e sp BOP SC WSm FN) as (FF & KK & VV).
  (* attachClient deletes the entry of the identifier; entries stand under their own connection's identifier (ww_done),
     so afterwards no connection of that identifier has one (GONE) *)
  assert (SUBW : forall id d, In (id, d) (st_wills s') -> In (id, d) (st_wills s) /\ id <> e).
  { intros id d II. rewrite T in II. apply in_adel in II. exact II. }
  assert (NOC : forall id d, In (id, d) (st_wills s') -> d_conn d <> c).
  { intros id d II E. destruct (SUBW id d II) as [I0 _]. destruct (ww_done s WW id d I0) as (od & Gd & _).
    rewrite E in Gd. unfold hasobj in HS. rewrite Gd in HS. discriminate. }
  assert (GONE : forall c' oc, get_obj c' (st_objs s) = Some oc -> o_id oc = e -> ~ srcE s' c').
  { intros c' oc GC IE (id & d & II & DC). destruct (SUBW id d II) as [I0 NE]. destruct (ww_done s WW id d I0) as (od & Gd & Id & _).
    rewrite DC, GC in Gd. inversion Gd; subst od. congruence. }
  set (cl := closes (b_outs b)) in *.
  (* the one connection closed is the open holder of the identifier *)
  assert (CLS : forall c', memN c' cl = true -> exists eo, client_of s e = Some eo /\ c' = o_conn eo /\ o_open eo = true).
  { intros c' M. apply memN_true in M. rewrite CL in M. destruct (client_of s e) as [eo|]; [|destruct M].
    destruct (o_open eo) eqn:OO; [|destruct M]. destruct M as [<-|[]]. exists eo. auto. }
  assert (CLS2 : forall eo, client_of s e = Some eo -> o_open eo = true -> memN (o_conn eo) cl = true).
  { intros eo CO OO. rewrite CL, CO, OO. apply memN_true. left. reflexivity. }
  assert (NCC : memN c cl = false).
  { destruct (memN c cl) eqn:M; [|reflexivity]. destruct (CLS c M) as (eo & CO & EE & _). destruct (client_of_reg s e eo W CO) as (_ & GE & _).
    rewrite <- EE in GE. unfold hasobj in HS. rewrite GE in HS. discriminate. }
  split.
  - split; [|split].
    + rewrite KK. apply nodup_snoc; [exact ND|apply find_none_keys, FN].
    + intros c' yf FY. rewrite FF in FY. destruct (c' =? c) eqn:EQ.
      * apply N.eqb_eq in EQ. subst c'. inversion FY; subst yf. clear FY.
        destruct (mark_same b (x_new k c p e)) as (SB & XS & XO). cbn [x_conn x_new x_open] in XO. fold cl in XO. rewrite NCC in XO.
        apply (pc_new k s' h0 b c now p e sp n2 _ PN VN SN BOP SC G2 I2 V2 S2 O2 W2 NOC SB XO XS).
      * apply N.eqb_neq in EQ. destruct (find_x c' (d_conns m)) as [y|] eqn:FY0; [|discriminate]. cbn [option_map] in FY. inversion FY; subst yf. clear FY.
        destruct (KX c' y FY0) as (oy & py & PY). pose proof (find_x_conn _ _ _ FY0) as YC. pose proof (pc_get PY) as GY. rewrite YC in GY.
        set (y1 := m16_takeover k [] c p e y).
        destruct (takeover_same k [] c p e y) as (SB1 & XO1). fold y1 in SB1, XO1.
        destruct (mark_same b y1) as (SB2 & XS2 & XO2).
        pose proof (same_but_trans _ _ _ SB1 SB2) as SB. pose proof (pc_st PY) as ST. unfold status_ok in ST. rewrite YC in ST.
        assert (Y1C : x_conn y1 = c') by (destruct SB1 as (A & _); congruence).
        assert (VS : forall xv, view_of k (x_conn y) None h0 = Some xv -> view_step k (x_conn y) (Some xv) b = Some xv).
        { intros xv _. unfold view_step. rewrite BOP, YC. destruct (c =? c') eqn:E2; [apply N.eqb_eq in E2; congruence|reflexivity]. }
        assert (SUBY : forall id d, In (id, d) (st_wills s') -> d_conn d = x_conn y -> In (id, d) (st_wills s)) by (intros id d II _; apply SUBW, II).
        destruct (holder_or_not s e c') as [(eo & CO & EE)|NR].
        -- (* the connection registered under the identifier: taken over; its object is stopped and, if it was reading,
              held (KP), its will untouched (KW); by the status of its entry *)
           destruct (client_of_reg s e eo W CO) as (AE & GE & IE). rewrite <- EE in GE. rewrite GY in GE. inversion GE; subst oy. clear GE.
           destruct (TKO eo CO ltac:(congruence)) as (o' & G' & KI1 & KV & KO' & KW & KP). rewrite <- EE in G'.
           assert (XOF : x_open (m16_mark b y1) = false).
           { rewrite XO2, XO1, Y1C. fold cl. destruct (x_open y) eqn:XY; [|reflexivity]. rewrite (pc_open PY) in XY. rewrite EE, (CLS2 eo CO XY). reflexivity. }
           assert (NSE : ~ srcE s' c') by (apply (GONE c' eo GY IE)).
           assert (CND : beq_bytes (x_id y) e && negb (x_conn y =? c) = true).
           { rewrite (pc_id PY), IE, bb_refl, YC. destruct (c' =? c) eqn:E2; [apply N.eqb_eq in E2; congruence|reflexivity]. }
           pose proof G' as G'y. rewrite <- YC in G'y.
           refine (pc_frame4 k s s' h0 b y _ eo py o' PY SB G'y KI1 KV (eq_trans XOF (eq_sym KO')) _ (or_introl KW) SUBY VS _).
           ++ intro H. congruence.
           ++ unfold status_ok. rewrite XS2. destruct SB as (CF & _). rewrite CF, YC. unfold y1. rewrite takeover_wst, CND.
              destruct (x_wst y) as [| | |t due0| | | |] eqn:XS; cbn beta iota.
              ** (* WNone *) destruct ST as [NF _]. split; [congruence|exact NSE].
              ** (* WArmed: open, so taken over alive, and held from now on.  The monitor cancels the will if the session is
                    resumed and min(delay, expiry) is positive: then the delay the broker stored is positive too
                    (cancel_delay_pos), as WCancelled asks of an armed will; otherwise WMust *)
                 assert (OO : o_open eo = true) by (rewrite <- (pc_open PY); exact ST).
                 destruct (wf_open s W c' eo GY OO) as (_ & PR & _). rewrite PR in KP.
                 destruct (pc_live PY ST) as (RQ & _ & _).
                 assert (TOL : taken_over_live c' (h0 ++ [b]) = true) by (rewrite EE; apply (tol_here s b c now p true e sp eo h0 W BOP BPRE SC CO OO); congruence).
                 rewrite ST. destruct (negb (cp_clean p) && (0 <? minN (x_delay y) (eff k y))) eqn:CN.
                 --- intros _. split; [exact TOL|]. intros [FL _]. rewrite KW in FL |- *. destruct (pc_flag PY FL) as (_ & _ & WD). rewrite WD.
                     apply andb_true_iff in CN. destruct CN as [_ CN]. apply N.ltb_lt in CN.
                     rewrite (pc_delay PY) in CN. unfold eff in CN. rewrite (pc_ver PY), RQ in CN.
                     apply (cancel_delay_pos k py _ CN).
                 --- split; [exact KP|exact TOL].
              ** (* WMust *) destruct ST as [PHH TOL]. rewrite PHH in KP. split; [exact KP|apply tol_mono, TOL].
              ** (* WPending: WFailed at a clean start, else WCancelled; the handler is done and the entry gone *)
                 destruct ST as (PD & _). rewrite PD in KP. destruct (cp_clean p).
                 --- split; [exact KP|]. intro H. contradiction.
                 --- intros [[_ AR]|H]; [congruence|contradiction].
              ** (* WPublished *) destruct ST as [PD _]. rewrite PD in KP. split; [exact KP|exact NSE].
              ** (* WNormal *) destruct ST as [PD _]. rewrite PD in KP. split; [exact KP|exact NSE].
              ** (* WCancelled: armed only if it was *)
                 intros [AR|H]; [|contradiction]. destruct AR as [FL PHN]. rewrite KW in FL.
                 assert (AR0 : is_armed eo) by (split; [exact FL|intro PD; rewrite PD in KP; congruence]).
                 destruct (ST (or_introl AR0)) as [TOL D]. split; [apply tol_mono, TOL|]. intros _. rewrite KW. apply D, AR0.
              ** (* WFailed *) destruct ST as [PD _]. rewrite PD in KP. split; [exact KP|]. intro H. contradiction.
        -- (* any other connection *)
           assert (FR : pc k s' (h0 ++ [b]) y)
             by (apply (pc_frame k s s' h0 b y oy py PY); [exists oy; rewrite YC, (OTH c' EQ NR); split; [exact GY|apply cleared_refl]|exact SUBY|exact VS]).
           assert (NM : memN c' cl = false).
           { destruct (memN c' cl) eqn:M; [|reflexivity]. destruct (CLS c' M) as (eo & CO & EE & _). destruct (NR eo CO EE). }
           assert (MK : m16_mark b y1 = y1).
           { unfold m16_mark. fold cl. rewrite Y1C, NM, andb_false_r. reflexivity. }
           rewrite MK. unfold y1.
           destruct (takeover_cases k c p e y) as [E1|(IE & [XY|(t & due0 & XS & E1)])]; [rewrite E1; exact FR| |].
           ++ (* open under the identifier: it would be the registered one *)
              exfalso. rewrite (pc_open PY) in XY. destruct (wf_open s W c' oy GY XY) as (AO & _).
              rewrite <- (pc_id PY), IE in AO. apply (NR oy); [unfold client_of; rewrite AO; exact GY|symmetry; apply (get_obj_conn GY)].
           ++ (* its pending will is cancelled (WCancelled), or dropped by a clean start (WFailed); the entry is gone *)
              pose proof GY as GY'. rewrite <- (OTH c' EQ NR), <- YC in GY'.
              rewrite XS in ST. destruct ST as (PD & _).
              assert (NSE : ~ srcE s' c') by (apply (GONE c' oy GY); rewrite <- (pc_id PY); exact IE).
              rewrite E1.
              refine (pc_frame2 k s s' h0 b y oy py oy _ PY GY' (cleared_refl oy) SUBY VS _ _).
              ** intro H. rewrite (closed_of_done k s h0 y oy py W PY PD) in H. discriminate.
              ** unfold status_ok. cbn [x_wst set_wst x_with x_conn]. rewrite YC. destruct (cp_clean p).
                 --- split; [congruence|]. intro H. contradiction.
                 --- intros [[_ AR]|H]; [congruence|contradiction].
    + intros c' oc' GC'. rewrite FF. destruct (c' =? c) eqn:EQ; [eexists; reflexivity|]. apply N.eqb_neq in EQ.
      assert (EXS : exists oc, get_obj c' (st_objs s) = Some oc).
      { destruct (holder_or_not s e c') as [(eo & CO & ->)|NR]; [exists eo; apply (client_of_obj CO)|].
        exists oc'. rewrite <- (OTH c' EQ NR). exact GC'. }
      destruct EXS as (oc & GC). destruct (KO c' oc GC) as (y & FY). rewrite FY. eexists. reflexivity.
  - (* V16_lost_clean is reported at a CONNECT with Clean Start only, which is all KF_C16_clean_reconnect asks *)
    rewrite VV. unfold lost_viols. apply Forall_flat_map_in. intros x _.
    destruct (beq_bytes (x_id x) e && negb (x_conn x =? c) && cp_clean p && negb (published_in [] (x_conn x))) eqn:CND; [|constructor].
    destruct (x_wst x); try (constructor; fail). constructor; [|constructor]. split; [reflexivity|]. right. right. right. right. split; [reflexivity|].
    exists c, now, p, true, e. split; [exact BOP|]. apply andb_true_iff in CND. destruct CND as [CND _]. apply andb_true_iff in CND. tauto.
Qed.

(* Part 5: the step theorem and the theorems over all histories *)

Theorem m16_step_KI k m s h0 o :
  KI k m s h0 -> sane_op s o ->
  KI k (fst (m16_step k (length h0) m (obs_of (tstep_of k s o)))) (fst (step k s o)) (h0 ++ [obs_of (tstep_of k s o)]) /\
  Forall (fun v => v_step v = length h0 /\ expl k (h0 ++ [obs_of (tstep_of k s o)]) (obs_of (tstep_of k s o)) v)
         (snd (m16_step k (length h0) m (obs_of (tstep_of k s o)))).
Proof.
  intros K SO. pose proof (ki_inv _ _ _ _ K) as V. pose proof (ki_wwf _ _ _ _ K) as WW.
  pose proof (step_inv k s o V) as V'. pose proof (step_wwf k s o (proj1 V) WW) as WW'.
  pose proof (fresh_step k s o h0 (ki_fresh _ _ _ _ K)) as KF'.
  pose proof (step_msum k s o) as MS.
  set (b := obs_of (tstep_of k s o)) in *.
  assert (BF : b_op b = o /\ b_outs b = snd (step k s o) /\ b_pre b = snap_of s) by (subst b; unfold obs_of, tstep_of; cbn; auto).
  destruct BF as (BOP & BO & BPRE). clearbody b.
  destruct (step k s o) as [s' outs]. cbn [fst snd] in *.
  enough (SK : case_ok k m s' h0 b) by (destruct SK as ((ND' & KX' & KO') & F); split; [split; assumption|exact F]).
  destruct MS as [WS TW WO CL QO|c now ob EN M|now -> WC T WO CL|c now p e sp -> MU SC MA]; cbn [fst snd] in *.
  - destruct (ki_quiet k m s h0 o s' outs b K BOP BO BPRE WS TW WO (fun c I => unused_noobj s c (proj1 V) (CL c I)) QO) as [KC E]. split; [exact KC|rewrite E; constructor].
  - destruct (ending_obj s o c now ob EN) as [G SH].
    assert (OWN : forall normal, end_op o c now ob normal -> reading s c = Some ob -> normal = end_normal o ob -> case_ok k m s' h0 b).
    { intros normal EO R ->. apply (ki_end k m s h0 o s' outs b c now ob _ K SO BOP BO BPRE EO R M). }
    destruct SH as [(R & _ & [(rc & sei & ->)|[->| ->]])|[-> PH]].
    + apply (OWN _ (or_introl (ex_intro _ rc (ex_intro _ sei (conj eq_refl eq_refl)))) R eq_refl).
    + apply (OWN false (or_intror (or_introl (conj eq_refl eq_refl))) R eq_refl).
    + apply (OWN false (or_intror (or_intror (conj eq_refl eq_refl))) R eq_refl).
    + apply (ki_teardown k m s h0 s' outs b c now ob K BOP BO G PH M).
  - apply (ki_tick k m s h0 now s' outs b K BOP BO WC); [|exact WO|exact CL]. intro x. rewrite T. apply tick_table, (ww_nodup s WW).
  - apply (ki_accept k m s h0 s' outs b c now p e sp K SO BOP BO BPRE (unused_noobj s c (proj1 V) MU) MU SC MA).
Qed.

(* From every state that satisfies the invariant, for every history of operations whose DISCONNECT
   properties and will delays are decodable (sane_ops): every violation the C16 monitor reports on
   the model's trace either carries one of the four tags that this theorem does not cover
   (uncovered: the liveness tags V16_missing, V16_missing_takeover, V16_late, and V16_retain) or is a
   known finding (kf_of names the predicate). *)
Theorem mon16_explained_from k m s h0 ops : KI k m s h0 -> sane_ops k s ops ->
  Forall (good k (h0 ++ map obs_of (trace k s ops))) (run_mon (m16_step k) (length h0) m (map obs_of (trace k s ops))).
Proof.
  intros K S. apply (run_mon_hist k (m16_step k) (good k) (KI k)); [|exact K|exact S].
  intros m1 s1 h1 o K1 SO. destruct (m16_step_KI k m1 s1 h1 o K1 SO) as [K' F]. split; [exact K'|].
  eapply Forall_impl; [|exact F]. intros v [VS E] r. cbn beta in *.
  apply (expl_good k _ (obs_of (tstep_of k s1 o)) v); rewrite VS; [rewrite upto_app; exact E|apply nth_obs_app].
Qed.

Theorem mon16_explained k ops : sane_ops k init ops ->
  Forall (good k (map obs_of (trace k init ops))) (mon16 k (map obs_of (trace k init ops))).
Proof. apply (mon16_explained_from k _ init [] ops (KI_init k)). Qed.

Lemma kf_none_tag k h v : (v_tag v = V16_unexpected \/ v_tag v = V16_after_normal \/ v_tag v = V16_content) -> kf_of k h v = None.
Proof.
  intro T. unfold kf_of, KF_C16_takeover_delayed, KF_C16_delay_uncapped, KF_C16_delay_fixed_at_connect, KF_C16_clean_reconnect, KF_C16_delayed_retain_gone.
  destruct T as [T|[T|T]]; rewrite T; reflexivity.
Qed.

(* the three clauses without any finding are never violated *)
Theorem mon16_safety_clauses k ops : sane_ops k init ops ->
  Forall (fun v => v_tag v <> V16_unexpected /\ v_tag v <> V16_after_normal /\ v_tag v <> V16_content)
         (mon16 k (map obs_of (trace k init ops))).
Proof.
  intro S. eapply Forall_impl; [|apply (mon16_explained k ops S)]. intros v [U|KFN].
  - repeat split; intro T; rewrite T in U; discriminate U.
  - repeat split; intro T; apply KFN, kf_none_tag; auto.
Qed.

(* Part 6: the order of the delayed-will table is immaterial.  sendDelayedLWT ranges over a Go map, so
   the real broker handles the due entries of one tick in an arbitrary order; the replay engine
   (Session/LifeEngine.v [reorder_wills]) rearranges the model's table into the observed order before a
   tick.  The rearrangement is a permutation ([reorder_wills_perm]), and the invariant [KI] (hence the
   theorems of part 5, which hold from every state satisfying it) does not depend on the order of the
   table ([KI_perm]). *)

Lemma perm_filter_split {A} (p : A -> bool) (l : list A) : Permutation (filter p l ++ filter (fun x => negb (p x)) l) l.
Proof.
  induction l as [|a r IH]; cbn; [constructor|]. destruct (p a); cbn.
  - constructor. exact IH.
  - apply Permutation_sym. apply Permutation_cons_app. apply Permutation_sym. exact IH.
Qed.

Lemma fm_ext_in {A B} (f g : A -> list B) l : (forall a, In a l -> f a = g a) -> flat_map f l = flat_map g l.
Proof. apply flat_map_ext_in. Qed.

Lemma nodup_dedupN l : NoDup (dedupN l).
Proof.
  induction l as [|c r IH]; cbn; [constructor|]. constructor; [|apply NoDup_filter, IH].
  intro H. apply filter_In in H. destruct H as [_ H]. rewrite N.eqb_refl in H. discriminate.
Qed.

Lemma reorder_perm_gen {A} (key : A -> N) (ord : list N) : NoDup ord -> forall l : list A,
  Permutation (flat_map (fun c => filter (fun e => key e =? c) l) ord ++ filter (fun e => negb (memN (key e) ord)) l) l.
Proof.
  induction 1 as [|c r NI ND IH]; intro l.
  - cbn [flat_map app]. rewrite (filter_ext_in _ (fun _ => true)); [|intros a _; destruct (memN (key a) []) eqn:M; [apply memN_true in M; destruct M|reflexivity]].
    clear. induction l; cbn; [constructor|constructor; assumption].
  - cbn [flat_map]. rewrite <- app_assoc.
    set (l' := filter (fun e => negb (key e =? c)) l).
    assert (E1 : flat_map (fun c0 => filter (fun e => key e =? c0) l) r = flat_map (fun c0 => filter (fun e => key e =? c0) l') r).
    { apply fm_ext_in. intros c0 I0. subst l'. clear - NI I0. induction l as [|a t IHl]; cbn; [reflexivity|].
      destruct (key a =? c0) eqn:E0; destruct (key a =? c) eqn:Ec; cbn; rewrite ?E0, ?IHl; try reflexivity.
      apply N.eqb_eq in E0, Ec. exfalso. apply NI. congruence. }
    assert (E2 : filter (fun e => negb (memN (key e) (c :: r))) l = filter (fun e => negb (memN (key e) r)) l').
    { subst l'. clear. induction l as [|a t IHl]; cbn; [reflexivity|]. rewrite memN_cons.
      destruct (key a =? c); cbn; [exact IHl|]. destruct (memN (key a) r); cbn; rewrite IHl; reflexivity. }
    rewrite E1, E2. eapply Permutation_trans; [apply Permutation_app_head, IH|].
    subst l'. apply (perm_filter_split (fun e => key e =? c) l).
Qed.

Lemma reorder_wills_perm order s : Permutation (st_wills (reorder_wills order s)) (st_wills s).
Proof. unfold reorder_wills. cbn [st_wills set_wills]. apply (reorder_perm_gen (fun e => d_conn (snd e)) _ (nodup_dedupN order)). Qed.

Lemma srcE_perm s l c : Permutation l (st_wills s) -> (srcE (set_wills s l) c <-> srcE s c).
Proof.
  intro PM. split; intros (id & d & I & E); exists id, d; (split; [|exact E]).
  - apply (Permutation_in _ PM), I.
  - apply (Permutation_in _ (Permutation_sym PM)), I.
Qed.

(* the invariant looks at the table only through its entries *)
Lemma KI_table k m s h0 l : KI k m s h0 -> NoDup (map fst l) -> (forall x, In x l <-> In x (st_wills s)) -> KI k m (set_wills s l) h0.
Proof.
  intros [V [_ WD] NK KX KO KF] ND IN. split; auto.
  - destruct V as [[U N R O H] X]. split; [split; assumption|exact X].
  - split; [exact ND|]. intros id d I. apply WD, IN, I.
  - intros c x F. destruct (KX c x F) as (o & p & [G PA I V1 OV CL WI DL OP LV FL EN VW SN ST]). exists o, p.
    assert (SUB : forall id d, In (id, d) l -> d_conn d = x_conn x -> In (id, d) (st_wills s)) by (intros id d II _; apply IN, II).
    split; auto.
    + intros id d II DC. apply (EN id d (SUB id d II DC) DC).
    + apply (status_ok_mono k s (set_wills s l) h0 h0 p o o x (cleared_refl o) SUB (fun T => T) ST).
Qed.

Lemma KI_perm k m s h0 l : KI k m s h0 -> Permutation l (st_wills s) -> KI k m (set_wills s l) h0.
Proof.
  intros K PM. apply (KI_table k m s h0 l K).
  - apply (Permutation_NoDup (Permutation_map fst (Permutation_sym PM)) (ww_nodup s (ki_wwf _ _ _ _ K))).
  - intro x. split; [apply (Permutation_in _ PM)|apply (Permutation_in _ (Permutation_sym PM))].
Qed.
