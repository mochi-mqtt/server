(* Proofs for C24: the outbound alias discipline keeps the receiver's table in step with the broker's
   (outside the listed finding), and the inbound resolution is the "last binding on this connection"
   of the specification. *)
From MV Require Import Base.Val Base.BytesEq Session.Pkt Session.Alias Session.AliasSched.
From Coq Require Import Lia ZifyBool.
Open Scope N_scope.

Lemma recv_ok_all tam ws : forall tab,
  recv_ok tam tab ws = match recv_all tam tab ws with Some _ => true | None => false end.
Proof.
  induction ws as [|[[i wt] a] r IH]; intros tab; [reflexivity|].
  cbn [recv_ok recv_all recv_step].
  destruct (a =? 0).
  - destruct (negb (is_empty wt) && beq_bytes wt i); cbn [andb]; [apply IH|reflexivity].
  - destruct (a <=? tam); cbn [negb andb]; [|reflexivity].
    destruct (is_empty wt).
    + destruct (lookup_a a tab) as [t|]; [|reflexivity]. destruct (beq_bytes t i); cbn [andb]; [apply IH|reflexivity].
    + destruct (beq_bytes wt i); cbn [andb]; [apply IH|reflexivity].
Qed.

Lemma recv_all_app tam a : forall tab b,
  recv_all tam tab (a ++ b) = match recv_all tam tab a with Some t => recv_all tam t b | None => None end.
Proof.
  induction a as [|w r IH]; intros tab b; [reflexivity|]. cbn.
  destruct (recv_step tam tab w); [apply IH|reflexivity].
Qed.

(* the PUBLISH publishToClient forms from an answer (a, ex) of Set is accepted when the alias is within the
   receiver's maximum and, if it goes without the topic, the receiver knows the binding; a new alias is learnt *)
Lemma recv_wire_of max rtab (tp : bytes) a ex :
  tp <> [] -> a <= max -> (0 < a -> ex = true -> lookup_a a rtab = Some tp) ->
  recv_step max rtab (wire_of (tp, a, ex)) = Some (if (0 <? a) && negb ex then (a, tp) :: rtab else rtab).
Proof.
  intros NE B K. unfold wire_of, recv_step.
  assert (T : is_empty tp = false) by (destruct tp; [contradiction|reflexivity]).
  destruct (0 <? a) eqn:A0; cbn [andb].
  - replace (a =? 0) with false by lia. replace (a <=? max) with true by lia. cbn [negb]. destruct ex; cbn [negb is_empty].
    + rewrite K by (lia || reflexivity). rewrite beq_bytes_refl. reflexivity.
    + rewrite T, beq_bytes_refl. reflexivity.
  - replace (a =? 0) with true by lia. rewrite T, beq_bytes_refl. reflexivity.
Qed.

(* aliases are handed out in order 1, 2, ... up to the maximum, one per topic *)
Definition tab_ok (t : otab) : Prop :=
  o_cursor t <= o_max t /\
  (forall tp a, lookup_t tp (o_map t) = Some a -> 0 < a <= o_cursor t) /\
  injective t.

Lemma tab_ok_init max : tab_ok (oinit max).
Proof. split; [cbn; lia|]. split; [intros tp a H; discriminate|intros tp1 tp2 a H; discriminate]. Qed.

(* what one Set call does to a well-formed table: it answers from the table (alias 0 when there is none to
   give), or it binds the next alias *)
Lemma out_set_cases {t tp a ex t'} : tab_ok t -> out_set t tp = (a, ex, t') ->
  tab_ok t' /\ o_max t' = o_max t /\ a <= o_max t /\
  ((t' = t /\ if ex then lookup_t tp (o_map t) = Some a else a = 0) \/
   (ex = false /\ a = o_cursor t + 1 /\ lookup_t tp (o_map t) = None /\
    o_map t' = (tp, a) :: o_map t /\ o_cursor t' = a)).
Proof.
  intros T. pose proof T as (Hc & Hr & Hi). unfold out_set.
  destruct (o_max t =? 0) eqn:M0.
  { intro E. injection E as <- <- <-. split; [exact T|]. split; [reflexivity|]. split; [lia|]. left. split; reflexivity. }
  destruct (lookup_t tp (o_map t)) as [i|] eqn:L.
  { intro E. injection E as <- <- <-. split; [exact T|]. split; [reflexivity|]. specialize (Hr _ _ L).
    split; [lia|]. left. split; reflexivity. }
  destruct (o_max t <? o_cursor t + 1) eqn:F.
  { intro E. injection E as <- <- <-. split; [exact T|]. split; [reflexivity|]. split; [lia|]. left. split; reflexivity. }
  intro E. injection E as <- <- <-. split; [|split; [reflexivity|split; [lia|right; repeat split; reflexivity]]].
  (* the new alias is above every alias in use *)
  split; [cbn; lia|]. split.
  - intros tp' a'. cbn. destruct (beq_bytes tp tp'); [intros H; injection H as <-; lia|].
    intros H. specialize (Hr _ _ H). lia.
  - intros tp1 tp2 a'. cbn.
    destruct (beq_bytes tp tp1) eqn:E1; destruct (beq_bytes tp tp2) eqn:E2.
    + apply beq_bytes_eq in E1, E2. congruence.
    + intros H1 H2. injection H1 as <-. specialize (Hr _ _ H2). lia.
    + intros H1 H2. injection H2 as <-. specialize (Hr _ _ H1). lia.
    + apply Hi.
Qed.

Lemma out_step_max t e : o_max (fst (out_step t e)) = o_max t.
Proof.
  destruct e as [topic w|topic]; cbn; [|reflexivity].
  unfold out_set. destruct (o_max t =? 0); [reflexivity|].
  destruct (lookup_t topic (o_map t)); [reflexivity|].
  destruct (o_max t <? o_cursor t + 1); reflexivity.
Qed.

(* the receiver knows every binding the broker has recorded *)
Definition sync (t : otab) (rtab : list (N * bytes)) : Prop :=
  forall topic a, lookup_t topic (o_map t) = Some a -> lookup_a a rtab = Some topic.

Definition out_tab (t : otab) (evs : list oev) : otab := fold_left (fun t e => fst (out_step t e)) evs t.

Theorem out_resolvable : forall evs t rtab,
  tab_ok t -> sync t rtab ->
  Forall (fun e => ev_topic e <> []) evs ->
  out_kf_free t evs = true ->
  exists rtab', recv_all (o_max t) rtab (out_run t evs) = Some rtab'
                /\ tab_ok (out_tab t evs) /\ sync (out_tab t evs) rtab'.
Proof.
  induction evs as [|e r IH]; intros t rtab T S NE KF; [exists rtab; auto|].
  apply Forall_cons_iff in NE. destruct NE as [NEe NEr].
  cbn [out_kf_free] in KF. apply andb_true_iff in KF. destruct KF as [KFe KFr]. apply negb_true_iff in KFe.
  cbn [out_run out_tab fold_left]. fold (out_tab (fst (out_step t e)) r).
  destruct e as [topic w|topic]; cbn [ev_topic out_step KF_C24_binding_dropped] in *.
  - destruct (out_set t topic) as [[a ex] t'] eqn:E. cbn [fst] in KFr |- *.
    destruct (out_set_cases T E) as (T' & M & B & C). rewrite <- M.
    assert (Sent : forall rtab1, sync t' rtab1 ->
              recv_step (o_max t) rtab (wire_of (topic, a, ex)) = Some rtab1 ->
              exists rtab', recv_all (o_max t') rtab (wire_of (topic, a, ex) :: out_run t' r) = Some rtab'
                            /\ tab_ok (out_tab t' r) /\ sync (out_tab t' r) rtab').
    { intros rtab1 S1 R. cbn [recv_all]. rewrite M, R, <- M. apply IH; assumption. }
    destruct C as [[-> C]|(-> & -> & L & Em & Ec)].
    + (* no new binding: the receiver's table stays *)
      destruct w; [|apply IH; assumption]. apply (Sent rtab S).
      rewrite recv_wire_of; [|exact NEe|exact B|intros _ ->; apply S, C].
      destruct ex; [rewrite andb_false_r|subst a]; reflexivity.
    + (* a new alias: it must be announced (a dropped announcement is the known finding) *)
      destruct w; [|lia]. apply (Sent ((o_cursor t + 1, topic) :: rtab)).
      * intros tp x. rewrite Em. cbn [lookup_t lookup_a]. destruct (beq_bytes topic tp) eqn:Et.
        -- apply beq_bytes_eq in Et. subst tp. intro H. injection H as <-. rewrite N.eqb_refl. reflexivity.
        -- intro H. destruct (proj1 (proj2 T) _ _ H). replace (o_cursor t + 1 =? x) with false by lia. apply S, H.
      * rewrite recv_wire_of; [|exact NEe|exact B|discriminate]. replace (0 <? o_cursor t + 1) with true by lia. reflexivity.
  - (* written from the in-flight store: full topic, no alias *)
    cbn [fst] in KFr |- *. change (topic, topic, 0) with (wire_of (topic, 0, false)). cbn [app recv_all].
    rewrite recv_wire_of; [|exact NEe|lia|discriminate]. apply IH; assumption.
Qed.

(* alias values are within the client's maximum, none when it is 0 — also on histories with the finding *)
Theorem out_alias_bounded : forall evs t, tab_ok t -> Forall (fun w : wire => snd w <= o_max t) (out_run t evs).
Proof.
  induction evs as [|e r IH]; intros t T; cbn [out_run]; [constructor|].
  destruct e as [topic w|topic]; cbn [out_step].
  - destruct (out_set t topic) as [[a ex] t'] eqn:E.
    destruct (out_set_cases T E) as (T' & M & B & _). apply Forall_app. split.
    + destruct w; [constructor; [exact B|constructor]|constructor].
    + rewrite <- M. apply IH, T'.
  - cbn [app]. constructor; [apply N.le_0_l|]. apply IH, T.
Qed.

Lemma lookup_set_a a b t m : lookup_a b (set_a a t m) = if a =? b then Some t else lookup_a b m.
Proof.
  induction m as [|[x u] r IH]; cbn.
  - destruct (a =? b); reflexivity.
  - destruct (x =? a) eqn:XA; cbn.
    + apply N.eqb_eq in XA. subst x. destruct (a =? b); reflexivity.
    + destruct (x =? b) eqn:XB.
      * destruct (a =? b) eqn:AB; [lia|reflexivity].
      * exact IH.
Qed.

Lemma last_binding_nonempty {a prev t} : last_binding a prev = Some t -> is_empty t = false.
Proof.
  induction prev as [|[tp x] r IH]; cbn; [discriminate|].
  destruct ((x =? a) && negb (is_empty tp)) eqn:E; [|exact IH].
  intros H. injection H as <-. destruct (is_empty tp); [rewrite andb_false_r in E; discriminate|reflexivity].
Qed.

(* the broker's table is the history's last bindings *)
Definition in_sync (smax : N) (t : itab) (prev : list (bytes * N)) : Prop :=
  i_max t = smax /\ forall a, 0 < a -> lookup_a a (i_map t) = last_binding a prev.

Theorem in_is_spec : forall evs smax t prev,
  in_sync smax t prev -> in_run t evs = spec_run smax prev evs.
Proof.
  induction evs as [|[topic alias] r IH]; intros smax t prev [Hm Hs]; [reflexivity|].
  cbn [in_run spec_run]. unfold in_step, spec_in. rewrite Hm.
  destruct (smax <? alias) eqn:Big; [reflexivity|].
  destruct (is_empty topic) eqn:Et; cbn [andb].
  - destruct (alias =? 0) eqn:A0; [reflexivity|].
    unfold in_set. rewrite Hm. destruct (smax =? 0) eqn:S0; [lia|]. rewrite Et.
    rewrite (Hs alias) by lia.
    destruct (last_binding alias prev) as [x|] eqn:L.
    + rewrite (last_binding_nonempty L). f_equal. apply IH. split; [exact Hm|].
      intros a Ha. cbn [last_binding]. rewrite Et. rewrite andb_false_r. apply Hs, Ha.
    + reflexivity.
  - destruct (alias =? 0) eqn:A0.
    + f_equal. apply IH. split; [exact Hm|]. intros a Ha. cbn [last_binding].
      replace (alias =? a) with false by lia. cbn [andb]. apply Hs, Ha.
    + unfold in_set. rewrite Hm. destruct (smax =? 0) eqn:S0; [lia|]. rewrite Et, Et. f_equal.
      apply IH. split; [reflexivity|]. intros a Ha. cbn [i_map last_binding]. rewrite lookup_set_a, Et.
      cbn [negb]. rewrite andb_true_r. destruct (alias =? a); [reflexivity|apply Hs, Ha].
Qed.
