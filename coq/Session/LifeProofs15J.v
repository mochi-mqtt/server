(* C15 — the behavioural clause: every PUBLISH a connection receives is justified by a subscription
   made by the CURRENT session of its client identifier (made after the last discard / clean
   start).  Proved for the monitor clause V15_unjustified of mon15 on every trace of the model. *)
From MV Require Import Base.Val Base.ListMisc Session.Lifecycle Session.LifeSpec Session.LifeBase Session.LifeStep Session.LifeInv
  Session.LifeProofs13 Session.LifeProofs14 Session.LifeProofs15.
Open Scope N_scope.

Definition keys (o : cobj) : list bytes := map fst (o_subs o).

(* the invariant behind the messages a resumed session is sent again: the subscriptions it inherits justify them *)
Definition isub (s : state) : Prop :=
  forall c o, get_obj c (st_objs s) = Some o -> forall mm, In mm (o_infl o) -> In (m_topic mm) (keys o).

Definition same_sess (s s' : state) : Prop :=
  forall c, option_map (fun o => (o_subs o, o_infl o)) (get_obj c (st_objs s')) =
            option_map (fun o => (o_subs o, o_infl o)) (get_obj c (st_objs s)).

Lemma isub_same_sess s s' : same_sess s s' -> isub s -> isub s'.
Proof.
  intros K I c o' G mm IN. specialize (K c). rewrite G in K. cbn in K.
  destruct (get_obj c (st_objs s)) as [o|] eqn:G0; [|discriminate]. cbn in K. inversion K as [[KS KI]].
  unfold keys. rewrite KS. rewrite KI in IN. apply (I c o G0 mm IN).
Qed.

(* the condition of isub on one object: isub s is sess_ok o for every object o of s *)
Definition sess_ok (o : cobj) : Prop := forall mm, In mm (o_infl o) -> In (m_topic mm) (keys o).

Lemma sess_ok_deliv s dl c x : ixinv s -> justified s dl -> get_obj c (st_objs s) = Some x -> sess_ok x -> sess_ok (deliv dl x).
Proof.
  intros X J G H mm IN. cbn in IN. apply in_app_or in IN. destruct IN as [IN|IN]; [exact (H mm IN)|].
  destruct (J _ _ IN) as (id & q & II & A). rewrite (get_obj_conn G) in A. exact (ixinv_obj s id c x _ q X A G II).
Qed.

Theorem step_isub k s o : ixinv s -> isub s -> isub (fst (step k s o)).
Proof.
  intros X I. destruct (step_cases k s o) as [o ID|o c outs NEW R|c now p e s' M T VV A|o c now ob s' outs EN E|now s' outs R|now s' outs R|c f q ob s' RD S|c m ob s' pubs RD P].
  - exact I.
  - exact I.
  - (* the new object has the in-flight messages of the session it resumes, or none; the previous holder has none *)
    intros c' o' G' mm IN. destruct (N.eq_dec c' c) as [->|N].
    + rewrite (ac_new _ _ _ _ _ _ _ A) in G'. inversion G'; subst o'. destruct (new_obj_fields k c p e (client_of s e)) as (_ & _ & _ & _ & _ & NS & NF). unfold keys. rewrite NS. rewrite NF in IN.
      destruct (client_of s e) as [eo|] eqn:CO; [|destruct IN]. destruct (resumes p eo); [|destruct IN]. exact (I _ eo (client_of_obj CO) mm IN).
    + destruct (accepted_old _ _ _ _ _ _ _ c' o' A N G') as (x & Gx & [[-> _]| ->]); [exact (I c' x Gx mm IN)|]. rewrite taken_over_spec in IN. destruct IN.
  - destruct E as [_ _ _ _ (dl & pubs & (J & _) & CH & _)]. refine (changes_all sess_ok _ s s' CH _ I). intros c' x Gx H.
    pose proof (sess_ok_deliv s dl c' x X J Gx H) as H'. unfold at_conn. destruct (_ =? c); [|exact H'].
    intros mm IN. unfold keys. cbn in IN |- *. destruct (ends_session _); [destruct IN|exact (H' mm IN)].
  - clear X. revert I. induction R as [|a l s0 s1 s2 o1 o2 D _ IH]; intro I; [exact I|]. apply IH. destruct D as [_ CH _ _ _ _].
    refine (changes_all sess_ok _ s0 s1 CH _ I). intros c' x _ H. unfold at_conn. destruct (_ =? _); [intros mm []|exact H].
  - revert X I. induction R as [|a l s0 s1 s2 o1 o2 [RG _ (dl & pubs & (J & _) & CH & _)] _ IH]; intros X I; [exact I|].
    apply IH; [exact (quiet_ix _ s0 s1 RG CH (fired_skey _ dl) X)|]. refine (changes_all sess_ok _ s0 s1 CH _ I). intros c' x Gx H.
    pose proof (sess_ok_deliv s0 dl c' x X J Gx H) as H'. destruct (client_of _ _); [unfold at_conn; destruct (_ =? _)|]; exact H'.
  - destruct S as [_ CH _]. refine (changes_all sess_ok _ s s' CH _ I). intros c' x _ H. unfold at_conn. destruct (_ =? c); [|exact H].
    intros mm IN. apply aset_keys. exact (H mm IN).
  - destruct P as [_ _ (dl & J & CH) _]. refine (changes_all sess_ok _ s s' CH _ I). intros c' x Gx. apply (sess_ok_deliv s dl c' x X J Gx).
Qed.

Lemma find_put c x l : find_x c (put_x x l) = if x_conn x =? c then Some x else find_x c l.
Proof.
  induction l as [|y r IH]; cbn; [reflexivity|]. destruct (x_conn y =? x_conn x) eqn:E; cbn.
  - apply N.eqb_eq in E. rewrite E. destruct (x_conn x =? c); reflexivity.
  - rewrite IH. destruct (x_conn y =? c) eqn:E1; [|reflexivity]. destruct (x_conn x =? c) eqn:E2; [|reflexivity].
    apply N.eqb_eq in E1, E2. rewrite E1, E2, N.eqb_refl in E. discriminate.
Qed.
Lemma find_put_same x l : find_x (x_conn x) (put_x x l) = Some x.
Proof. rewrite find_put, N.eqb_refl. reflexivity. Qed.
Lemma find_x_conn c l x : find_x c l = Some x -> x_conn x = c.
Proof.
  induction l as [|y r IH]; cbn; [discriminate|]. destruct (x_conn y =? c) eqn:E; [intro H; inversion H; subst; apply N.eqb_eq, E|exact IH].
Qed.
Lemma find_map (f : sconn -> sconn) c l : (forall x, x_conn (f x) = x_conn x) -> find_x c (map f l) = option_map f (find_x c l).
Proof.
  intro H. induction l as [|y r IH]; cbn; [reflexivity|]. rewrite H. destruct (x_conn y =? c); [reflexivity|exact IH].
Qed.

Lemma j2_other id gone j1 : ~ In id (map sc_id gone) -> jsubs_of id (m15_j2 gone j1) = jsubs_of id j1.
Proof.
  unfold m15_j2. revert j1. induction gone as [|r t IH]; intros j1 NI; cbn [fold_left]; [reflexivity|].
  rewrite IH by (intro H; apply NI; right; exact H). unfold jsubs_of. rewrite aget_aset_other; [reflexivity|].
  intro E. apply NI. left. symmetry. exact E.
Qed.

Lemma has_client_in id l : has_client id l = true <-> exists r, In r l /\ sc_id r = id.
Proof.
  unfold has_client. induction l as [|r t IH]; cbn; [split; [discriminate|intros (r & [] & _)]|].
  destruct (beq_bytes (sc_id r) id) eqn:E.
  - split; [intros _; exists r; split; [left; reflexivity|apply bb_eq, E]|reflexivity].
  - rewrite IH. split; intros (r' & I & EQ).
    + exists r'. split; [right; exact I|exact EQ].
    + destruct I as [<-|I]; [rewrite EQ, bb_refl in E; discriminate|exists r'; auto].
Qed.

(* a registered identifier is not among those the step has discarded, so that the monitor has forgotten nothing of it *)
Lemma j2_registered (b : obs) s' id c j1 : b_post b = snap_of s' -> wf s' -> aget id (st_clients s') = Some c ->
  jsubs_of id (m15_j2 (m15_gone b) j1) = jsubs_of id j1.
Proof.
  intros EP W' A. apply j2_other. intro I. apply in_map_iff in I. destruct I as (r & E & IR).
  unfold m15_gone in IR. rewrite EP in IR. apply filter_In in IR. destruct IR as [_ F]. apply negb_true_iff in F.
  unfold has_client in F. rewrite (find_client_snap s' _ W'), E, A in F. destruct (wf_reg s' W' id c A) as (o & G & _).
  rewrite G in F. discriminate.
Qed.

(* the monitor's state covers the model's: it knows at least the connections that have an object ([ji_conn]) and
   holds justified at least the subscriptions of the registered sessions ([ji_subs]) *)
Record ji (m : m15) (s : state) : Prop := {
  ji_inv : inv s;
  ji_isub : isub s;
  ji_conn : forall c o, get_obj c (st_objs s) = Some o ->
              exists x, find_x c (c_conns m) = Some x /\ x_id x = o_id o /\ (o_open o = true -> x_open x = true);
  ji_subs : forall id c o, aget id (st_clients s) = Some c -> get_obj c (st_objs s) = Some o ->
              forall f, In f (keys o) -> In f (jsubs_of id (c_jsubs m)) }.

Lemma ji_init : ji {| c_conns := []; c_jsubs := [] |} init.
Proof. split; [apply inv_init|intros c o G; discriminate G|intros c o G; discriminate G|intros id c o A; discriminate A]. Qed.

(* [m15_conns2] marks the connections closed in the step, as [m16_mark] does *)
Lemma mark_fields b x : x_conn (m16_mark b x) = x_conn x /\ x_id (m16_mark b x) = x_id x /\
  (x_open (m16_mark b x) = false -> x_open x = true -> memN (x_conn x) (closes (b_outs b)) = true).
Proof.
  unfold m16_mark. destruct (x_open x && memN (x_conn x) (closes (b_outs b))) eqn:E; cbn; repeat split; auto.
  - intros _ _. apply andb_true_iff in E. tauto.
  - intros A B. congruence.
Qed.

Lemma conns2_entry k m s o c o' x1 :
  objs_used s -> get_obj c (st_objs (fst (step k s o))) = Some o' ->
  find_x c (m15_conns1 k m (obs_of (tstep_of k s o))) = Some x1 -> x_id x1 = o_id o' -> (o_open o' = true -> x_open x1 = true) ->
  exists x, find_x c (m15_conns2 k m (obs_of (tstep_of k s o))) = Some x /\ x_id x = o_id o' /\ (o_open o' = true -> x_open x = true).
Proof.
  intros W G' F1 XI XO. set (b := obs_of (tstep_of k s o)) in *. destruct (mark_fields b x1) as (_ & MI & MO).
  exists (m16_mark b x1). split; [unfold m15_conns2; rewrite (find_map (m16_mark b)), F1 by (intro x; apply (mark_fields b x)); reflexivity|].
  split; [congruence|]. intro OO. destruct (x_open (m16_mark b x1)); [reflexivity|]. exfalso.
  (* an entry marked in this step is that of a connection the broker has closed, and then the object is closed *)
  pose proof (MO eq_refl (XO OO)) as MM. rewrite (find_x_conn _ _ _ F1) in MM. apply memN_true, in_closes in MM.
  destruct (proj1 (proj2 (step_conns k s o W)) c MM) as [CC _]. unfold openc in CC. rewrite G' in CC. congruence.
Qed.

(* operations on existing connections keep the entries of the spec view, up to the end stamp *)
Lemma conns1_old k m b c x :
  (match b_op b with OConnect c0 _ _ _ _ => success_connack (pkts_to c0 (b_outs b)) = None | _ => True end) ->
  find_x c (c_conns m) = Some x ->
  exists x1, find_x c (m15_conns1 k m b) = Some x1 /\ x_id x1 = x_id x /\ x_open x1 = x_open x.
Proof.
  intros NC F. unfold m15_conns1.
  (* the end of connection c0: its entry gets the end stamp *)
  assert (END : forall c0 (g : sconn -> sconn), (forall y, x_conn (g y) = x_conn y /\ x_id (g y) = x_id y /\ x_open (g y) = x_open y) ->
            exists x1, find_x c (match find_x c0 (c_conns m) with
                                 | Some y => if x_open y then put_x (g y) (c_conns m) else c_conns m
                                 | None => c_conns m end) = Some x1 /\ x_id x1 = x_id x /\ x_open x1 = x_open x).
  { intros c0 g Hg. destruct (find_x c0 (c_conns m)) as [y|] eqn:FY; [|exists x; auto]. destruct (x_open y); [|exists x; auto].
    destruct (Hg y) as (GC & GI & GO). destruct (N.eq_dec c c0) as [->|NE].
    - rewrite F in FY. inversion FY; subst y. exists (g x). split; [|auto].
      rewrite <- (find_x_conn _ _ _ F) at 1. rewrite <- GC. apply find_put_same.
    - rewrite find_put, GC, (find_x_conn _ _ _ FY), (proj2 (N.eqb_neq c0 c)) by congruence. exists x. auto. }
  destruct (b_op b); try (exists x; auto; fail).
  - rewrite NC. exists x. auto.
  - apply (END c0 (fun y => x_with y _ (x_open y) (Some now) (x_wst y))). intro y. auto.
  - apply (END c0 (fun y => x_with y _ (x_open y) (Some now) (x_wst y))). intro y. auto.
  - apply (END c0 (fun y => x_with y _ (x_open y) (Some now) (x_wst y))). intro y. auto.
Qed.

Lemma jsubs_aset_same id l j : jsubs_of id (aset id l j) = l.
Proof. unfold jsubs_of. rewrite aget_aset_same. reflexivity. Qed.
Lemma jsubs_aset_other id id' l j : id' <> id -> jsubs_of id' (aset id l j) = jsubs_of id' j.
Proof. intro N. unfold jsubs_of. rewrite aget_aset_other by exact N. reflexivity. Qed.

(* a step keeps [ji], and the clause of [m15_step] on unjustified deliveries reports nothing *)
Lemma ji_step k i m s o :
  ji m s ->
  let b := obs_of (tstep_of k s o) in
  ji {| c_conns := m15_conns2 k m b; c_jsubs := m15_j2 (m15_gone b) (m15_j1 m b) |} (fst (step k s o)) /\
  m15_vjust i (m15_conns1 k m b) (m15_j1 m b) (b_outs b) = [].
Proof.
  intros [V IS A D] b.
  pose proof (step_inv k s o V) as V'. pose proof (step_isub k s o (proj2 V) IS) as IS'.
  destruct V as [W X]. destruct V' as [W' X']. pose proof (wf_used s W) as WU.
  assert (BO : b_outs b = snd (step k s o) /\ b_op b = o /\ b_post b = snap_of (fst (step k s o))) by (subst b; unfold obs_of, tstep_of; cbn; auto).
  destruct BO as (BO & BOP & BP).
  destruct (is_new_conn s o) as [c|] eqn:NEW.
  2:{ (* an operation on existing connections: identifiers stay, nothing reopens, subscriptions and Clients entries only
         go, except by the SUBSCRIBE itself *)
    destruct (step_old k s o NEW) as (_ & CL & OBJ & SO).
    (* an old CONNECT is a no-op *)
    assert (NC : match b_op b with OConnect c0 _ _ _ _ => success_connack (pkts_to c0 (b_outs b)) = None | _ => True end).
    { rewrite BOP, BO. destruct o; auto. cbn [is_new_conn] in NEW. cbn [step]. destruct (memN c (st_used s)); [reflexivity|discriminate]. }
    (* the justified subscriptions only grow by the operation itself *)
    assert (J1 : forall id f, In f (jsubs_of id (c_jsubs m)) -> In f (jsubs_of id (m15_j1 m b))).
    { intros id f IN. unfold m15_j1. rewrite BOP in *. destruct o; auto.
      - cbn beta iota in NC. rewrite NC. exact IN.
      - destruct (find_x c (c_conns m)) as [x|]; [|exact IN]. destruct (x_open x); [|exact IN].
        destruct (bb_dec id (x_id x)) as [->|NE]; [rewrite jsubs_aset_same; right; exact IN|rewrite jsubs_aset_other by exact NE; exact IN]. }
    split.
    - split; [split; assumption|exact IS'| |].
      + intros c o' G'. destruct (OBJ c o' G') as (ob & G & ID & OPN & _).
        destruct (A c ob G) as (x & F & XI & XO).
        destruct (conns1_old k m b c x NC F) as (x1 & F1 & I1 & O1).
        apply (conns2_entry k m s o c o' x1 WU G' F1); [congruence|].
        intro OO'. rewrite O1. apply XO, OPN, OO'.
      + intros id c o' AC' G' f IN. cbn [c_jsubs]. rewrite (j2_registered b (fst (step k s o)) id c _ BP W' AC').
        pose proof (CL id c AC') as AC.
        destruct (OBJ c o' G') as (ob & G & _ & _ & KS).
        destruct (KS f IN) as [INK|(q & EO & RD)]; [apply J1, (D id c ob AC G f INK)|].
        (* the filter subscribed in this very step *)
        unfold m15_j1. rewrite BOP, EO. destruct (A c ob G) as (x & F & XI & XO). rewrite F.
        destruct (reading_wf s c ob W RD) as (_ & OB & AR). rewrite (XO OB).
        assert (EI : x_id x = id).
        { rewrite XI. apply (wf_reg_obj s id c ob W AC G). }
        rewrite EI, jsubs_aset_same. left. reflexivity.
    - unfold m15_vjust. apply flat_map_nil. intros x IN. destruct x; try reflexivity. destruct p; try reflexivity.
      rewrite BO in IN. destruct (SO _ IN) as (_ & _ & id & q & II & AC).
      destruct (X id (m_topic m0) q II) as (c' & ob & AC2 & G & FK). rewrite AC in AC2. inversion AC2; subst c'.
      destruct (A c ob G) as (xx & F & XI & XO). destruct (conns1_old k m b c xx NC F) as (x1 & F1 & I1 & O1). rewrite F1.
      assert (EI : x_id x1 = id).
      { rewrite I1, XI. apply (wf_reg_obj s id c ob W AC G). }
      rewrite EI.
      assert (M : memB (m_topic m0) (jsubs_of id (m15_j1 m b)) = true) by (apply memB_in, J1, (D id c ob AC G), FK).
      rewrite M. reflexivity. }
  destruct (step_new_cases k s o c NEW WU) as (M & _ & [[ES R]|(now & p & e & -> & T & VV & AC & EO)]).
  - (* refused: nothing changes *)
    assert (NS : success_connack (pkts_to c (b_outs b)) = None) by (rewrite BO; apply refusal_obs, R).
    assert (C1 : m15_conns1 k m b = c_conns m /\ m15_j1 m b = c_jsubs m).
    { unfold m15_conns1, m15_j1. rewrite BOP. destruct o; cbn [is_new_conn] in NEW; try discriminate; [|auto].
      destruct (memN c0 (st_used s)); try discriminate. inversion NEW; subst c0. rewrite NS. auto. }
    destruct C1 as [C1 J1]. rewrite C1, J1. split.
    + split; [split; assumption|exact IS'| |].
      * intros c' o' G'. pose proof G' as G0. rewrite ES in G0. destruct (A c' o' G0) as (x & F & XI & XO).
        apply (conns2_entry k m s o c' o' x WU G'); [fold b; rewrite C1; exact F|exact XI|exact XO].
      * intros id c' o' AC' G' f IN. cbn [c_jsubs]. rewrite (j2_registered b _ id c' _ BP W' AC').
        rewrite ES in AC', G'. exact (D id c' o' AC' G' f IN).
    + unfold m15_vjust. apply flat_map_nil. intros x IN. destruct x; try reflexivity. destruct p; try reflexivity.
      exfalso. rewrite BO in IN. destruct R as [E|(code & _ & E)]; rewrite E in IN; cbn in IN; intuition discriminate.
  - (* accepted: the holder of the identifier is taken over, the new object registered under it *)
    pose proof (client_of_wf s e W) as OLD. destruct (new_obj_fields k c p e (client_of s e)) as (_ & NK & _ & _ & _ & NS & NF).
    destruct (accept_obs c p (client_of s e)) as (_ & _ & PKC).
    set (old := client_of s e) in *. set (sp := match old with Some eo => resumes p eo | None => false end) in *. injection NK as NI _ NO _ _.
    assert (EOUT : b_outs b = accept_outs c p old) by (rewrite BO; exact EO).
    assert (C1 : m15_conns1 k m b = put_x (x_new k c p e) (c_conns m)) by (unfold m15_conns1; rewrite BOP, EOUT, PKC; reflexivity).
    assert (J1 : m15_j1 m b = if sp then c_jsubs m else aset e [] (c_jsubs m)) by (unfold m15_j1; rewrite BOP, EOUT, PKC; destruct sp; reflexivity).
    (* a resumed session is the one registered under the identifier *)
    assert (RES : sp = true -> exists eo, old = Some eo /\ resumes p eo = true /\ aget e (st_clients s) = Some (o_conn eo) /\ get_obj (o_conn eo) (st_objs s) = Some eo).
    { subst sp. destruct old as [eo|]; [|discriminate]. intro R. exists eo. destruct OLD as (AE & GE & _). auto. }
    split.
    + split; [split; assumption|exact IS'| |].
      * intros c' o' G'. cbn [c_conns]. destruct (N.eq_dec c' c) as [->|NE].
        -- apply (conns2_entry k m s _ c o' (x_new k c p e) WU G'); [fold b; rewrite C1; apply (find_put_same (x_new k c p e))| |reflexivity].
           rewrite (ac_new _ _ _ _ _ _ _ AC) in G'. inversion G' as [Q]. cbn [x_id x_new]. symmetry. exact NI.
        -- destruct (accepted_old _ _ _ _ _ _ _ c' o' AC NE G') as (ob & G & TO). destruct (A c' ob G) as (x & F & XI & XO).
           apply (conns2_entry k m s _ c' o' x WU G'); [fold b; rewrite C1, find_put; cbn [x_conn x_new]; rewrite (proj2 (N.eqb_neq c c')) by congruence; exact F| |];
             destruct TO as [[-> _]| ->]; rewrite ?taken_over_spec; auto; discriminate.
      * intros id c' o' AC' G' f IN. cbn [c_jsubs]. rewrite (j2_registered b _ id c' _ BP W' AC').
        rewrite (ac_clients _ _ _ _ _ _ _ AC) in AC'. rewrite J1. destruct (bb_dec id e) as [->|NE].
        -- rewrite aget_aset_same in AC'. inversion AC'; subst c'. rewrite (ac_new _ _ _ _ _ _ _ AC) in G'. inversion G'; subst o'.
           unfold keys in IN. fold old in IN. rewrite NS in IN. destruct sp eqn:SP.
           ++ destruct (RES eq_refl) as (eo & EQ & R & AE & GE). rewrite EQ, R in IN. exact (D e _ eo AE GE f IN).
           ++ subst sp. destruct old as [eo|]; [rewrite SP in IN|]; destruct IN.
        -- rewrite aget_aset_other in AC' by exact NE. destruct (wf_reg s W id c' AC') as (oo & GG & II & _).
           destruct (accepted_keep k c now p e s _ M AC W id c' oo NE AC' GG) as [_ G2]. rewrite G2 in G'. inversion G'; subst o'.
           assert (IN0 : In f (jsubs_of id (c_jsubs m))) by exact (D id c' oo AC' GG f IN).
           destruct sp; [exact IN0|rewrite jsubs_aset_other by exact NE; exact IN0].
    + (* the only PUBLISH packets are the in-flight messages of the resumed session, sent again *)
      unfold m15_vjust. apply flat_map_nil. intros x IN. destruct x as [c' pk| | | | |]; try reflexivity. destruct pk as [| |mm d|]; try reflexivity.
      rewrite EOUT in IN. destruct (accept_publishes c p old c' mm d IN) as (-> & _ & eo & EQ & R & INM).
      rewrite C1. change c with (x_conn (x_new k c p e)) at 1. rewrite find_put_same. cbn [x_id x_new].
      assert (SP : sp = true) by (subst sp; rewrite EQ; exact R). destruct (RES SP) as (eo' & EQ' & _ & AE & GE). rewrite EQ in EQ'. inversion EQ'; subst eo'.
      assert (MM : memB (m_topic mm) (jsubs_of e (m15_j1 m b)) = true).
      { rewrite J1, SP. apply memB_in. apply (D e _ eo AE GE). exact (IS _ eo GE mm INM). }
      rewrite MM. reflexivity.
Qed.

Theorem m15_step_ji k i m s o :
  ji m s ->
  ji (fst (m15_step k i m (obs_of (tstep_of k s o)))) (fst (step k s o)) /\
  Forall (fun v => v_tag v <> V15_stale_index /\ v_tag v <> V15_unjustified) (snd (m15_step k i m (obs_of (tstep_of k s o)))).
Proof.
  intro J. destruct (ji_step k i m s o J) as [J' VJ]. split; [exact J'|].
  apply (m15_tags _ k i m s o (ji_inv _ _ J)); [auto|]. rewrite VJ. constructor.
Qed.

(* After every history of the model, the C15 monitor reports neither a stale index entry nor an
   unjustified delivery: every PUBLISH the broker forwards (or re-sends on resumption) goes to a
   connection whose session - the current session of its identifier, i.e. the one begun after the
   last discard or clean start - has subscribed to the topic. *)
Theorem mon15_nothing_left k ops :
  Forall (fun v => v_tag v <> V15_stale_index /\ v_tag v <> V15_unjustified) (mon15 k (map obs_of (trace k init ops))).
Proof.
  unfold mon15. apply (run_mon_inv k (m15_step k) _ (fun m s _ => ji m s)).
  - intros i m s o r J. apply m15_step_ji, J.
  - apply ji_init.
Qed.
