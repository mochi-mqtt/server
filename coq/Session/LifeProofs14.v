(* C14 — proofs: for every history of operations the life-cycle model never violates the C14
   monitor (session present, resume keeps, clean start drops, taken-over connection silent). *)
From MV Require Import Base.Val Base.ListMisc Session.Lifecycle Session.LifeSpec Session.LifeBase Session.LifeStep Session.LifeInv Session.LifeProofs13.
From Coq Require Import Lia.
Open Scope N_scope.

Lemma find_client_of s id : forall l,
  (forall id' c', In (id', c') l -> exists o, get_obj c' (st_objs s) = Some o) ->
  find_client id (clients_of s l) =
  match aget id l with Some c => option_map (sclient_of id) (get_obj c (st_objs s)) | None => None end.
Proof.
  induction l as [|[id' c'] r IH]; intro H; cbn [clients_of aget find_client]; [reflexivity|].
  destruct (H id' c' (or_introl eq_refl)) as (o & G). rewrite G. cbn [find_client sclient_of sc_id].
  destruct (beq_bytes id' id) eqn:E.
  - apply bb_eq in E. subst id'. rewrite G. reflexivity.
  - apply IH. intros i c I. apply (H i c). right. exact I.
Qed.

Lemma find_client_snap s id : wf s ->
  find_client id (sn_clients (snap_of s)) =
  match aget id (st_clients s) with Some c => option_map (sclient_of id) (get_obj c (st_objs s)) | None => None end.
Proof.
  intro W. cbn. apply find_client_of. intros id' c' I.
  assert (A : aget id' (st_clients s) = Some c') by (apply in_aget_nodup; [apply (wf_nodup s W)|exact I]).
  destruct (wf_reg s W id' c' A) as (o & G & _). exists o. exact G.
Qed.

Lemma success_connack_resend sp l : success_connack (PConnack 0 sp :: map (fun m => PPublish m true) l) = Some sp.
Proof. reflexivity. Qed.

Lemma memB_in x l : memB x l = true <-> In x l.
Proof. exact (existsb_eqb_In beq_bytes bb_eq x l). Qed.

Lemma subB_refl l : subB l l = true.
Proof. unfold subB. apply forallb_forall. intros x I. apply memB_in, I. Qed.
Lemma msubB_refl l : msubB l l = true.
Proof. unfold msubB. apply forallb_forall. intros x I. apply Nat.leb_refl. Qed.

Lemma in_closes c outs : In c (closes outs) <-> In (OClose c) outs.
Proof.
  unfold closes. rewrite in_flat_map. split.
  - intros (x & I & H). destruct x; cbn in H; try contradiction. destruct H as [H|[]]. subst. exact I.
  - intro I. exists (OClose c). split; [exact I|left; reflexivity].
Qed.

Record inv14 (m : m14) (s : state) : Prop := {
  i14_inv : inv s;
  i14_closed : forall c, memN c (b_closed m) = true -> openc s c = false /\ memN c (st_used s) = true }.

Lemma closed_update (m : m14) k s o :
  inv14 m s -> forall c, memN c (closes (snd (step k s o)) ++ b_closed m) = true ->
  openc (fst (step k s o)) c = false /\ memN c (st_used (fst (step k s o))) = true.
Proof.
  intros [V CL] c M. destruct (step_conns k s o (wf_used s (proj1 V))) as (_ & CLS & OPN).
  rewrite memN_app in M. apply orb_true_iff in M. destruct M as [M|M].
  - apply memN_true, in_closes in M. apply (CLS c M).
  - (* a closed connection stays closed: nothing reopens, and its number is not fresh *)
    destruct (CL c M) as [O U]. split.
    + destruct (openc (fst (step k s o)) c) eqn:E; [|reflexivity]. destruct (OPN c E) as [H|H]; [congruence|].
      apply is_new_conn_fresh in H. congruence.
    + rewrite step_used. destruct (is_new_conn s o); [rewrite memN_cons, U; apply orb_true_r|exact U].
Qed.

Definition dropped_of (id : bytes) (h : hev) : list bytes :=
  match h with HDropped i pl => if beq_bytes i id then [pl] else [] | _ => [] end.
Definition unsub_of (id : bytes) (h : hev) : list bytes :=
  match h with HUnsub i f => if beq_bytes i id then [f] else [] | _ => [] end.

Lemma clean_hooks_lists e (subs : list (bytes * N)) (infl : list msg) :
  flat_map (dropped_of e) (map (fun fq => HUnsub e (fst fq)) subs ++ map (fun m => HDropped e (m_payload m)) infl) = map m_payload infl /\
  flat_map (unsub_of e) (map (fun fq => HUnsub e (fst fq)) subs ++ map (fun m => HDropped e (m_payload m)) infl) = map fst subs.
Proof.
  rewrite !flat_map_app. split.
  - assert (A : flat_map (dropped_of e) (map (fun fq => HUnsub e (fst fq)) subs) = []) by (induction subs; cbn; auto).
    rewrite A. cbn [app]. induction infl as [|m r IH]; cbn; [reflexivity|]. rewrite bb_refl. cbn. f_equal. exact IH.
  - assert (A : flat_map (unsub_of e) (map (fun m => HDropped e (m_payload m)) infl) = []) by (induction infl; cbn; auto).
    rewrite A, app_nil_r. induction subs as [|fq r IH]; cbn; [reflexivity|]. rewrite bb_refl. cbn. f_equal. exact IH.
Qed.

Lemma sp_clause_ok (cleanp cleane : bool) (ver sei : N) :
  negb cleanp && ((ver <? 5) && negb cleane || (ver =? 5) && (0 <? sei)) && negb (negb (cleanp || cleane && (ver <? 5)))
  || (cleanp || (ver <? 5) && cleane) && negb (cleanp || cleane && (ver <? 5)) = false.
Proof.
  destruct cleanp; destruct cleane; destruct (ver <? 5) eqn:L5; destruct (ver =? 5) eqn:E5; destruct (0 <? sei);
  cbn; try reflexivity; apply N.ltb_lt in L5; apply N.eqb_eq in E5; lia.
Qed.

Lemma takeover_pk_ok (ver : N) :
  (if ver =? 5
   then match [PDisconnect (if ver <? 5 then 0 else 142)] with [PDisconnect 142] => true | _ => false end
   else match [PDisconnect (if ver <? 5 then 0 else 142)] with [] => true | [PDisconnect _] => true | _ => false end) = true.
Proof. destruct (ver =? 5) eqn:E5; destruct (ver <? 5) eqn:L5; try reflexivity. apply N.ltb_lt in L5. apply N.eqb_eq in E5. lia. Qed.

Lemma no_index_of e (ix : list (bytes * bytes * N)) : (forall f q, ~ In (e, f, q) ix) -> existsb (fun x => beq_bytes (fst (fst x)) e) ix = false.
Proof.
  intro H. destruct (existsb _ ix) eqn:EX; [|reflexivity]. apply existsb_exists in EX.
  destruct EX as ([[id f] q] & IN & B). cbn in B. apply bb_eq in B. subst id. destruct (H f q IN).
Qed.

(* on an accepted CONNECT the clauses of [m14_step] about the CONNECT report nothing: what is left is the clause on
   packets to closed connections *)
Lemma m14_accept_ok k i s s' c now p e (cl : list N) :
  inv s -> memN c (st_used s) = false -> cp_trunc p = false -> validate_connect k p = 0 ->
  accepted k c now p e s s' -> wf s' ->
  let b := obs_of {| t_op := OConnect c now p true e; t_outs := accept_outs c p (client_of s e);
                     t_hooks := hook_events k s (OConnect c now p true e); t_pre := s; t_post := s' |} in
  snd (m14_step i {| b_closed := cl |} b) =
  flat_map (fun o => match o with OPkt c _ => if memN c cl then [mkv V14_old_after i c []] else [] | _ => [] end)
           (accept_outs c p (client_of s e)).
Proof.
  intros [W X] M T V AC W' b. subst b. unfold m14_step, obs_of.
  cbn [snd b_closed b_outs b_op b_hooks b_pre b_post t_op t_outs t_hooks t_pre t_post].
  rewrite <- (app_nil_r (flat_map _ _)) at 2. f_equal.
  assert (HS : hasobj s c = false).
  { destruct (hasobj s c) eqn:H; [apply (wf_used s W) in H; congruence|reflexivity]. }
  (* the session registered under e afterwards is the new object *)
  pose proof (find_client_snap s e W) as PRE. pose proof (find_client_snap s' e W') as POST.
  rewrite (ac_clients _ _ _ _ _ _ _ AC), aget_aset_same, (ac_new _ _ _ _ _ _ _ AC) in POST. cbn [option_map] in POST.
  rewrite PRE, POST, (accept_hooks k s c now p e M T V). clear PRE POST.
  destruct (accept_obs c p (client_of s e)) as (_ & CLO & PKC). rewrite PKC.
  destruct (new_obj_fields k c p e (client_of s e)) as (NC & _ & _ & _ & _ & NS & NF).
  pose proof (ac_index _ _ _ _ _ _ _ AC) as IX.
  pose proof (client_of_wf s e W) as CR. destruct (client_of s e) as [eo|] eqn:CO.
  - destruct CR as (A & G & IE & TE). rewrite A, G. cbn [option_map]. rewrite TE, IE in IX.
    assert (NEC : (o_conn eo) <> c) by (intro E; unfold hasobj in HS; rewrite <- E, G in HS; discriminate).
    assert (NEC' : ((o_conn eo) =? c) = false) by (apply N.eqb_neq, NEC).
    unfold persistent.
    cbn [sclient_of sc_ver sc_clean sc_sei sc_open sc_conn sc_subs sc_infl snap_of sn_index].
    rewrite NC, NS, NF, IX. unfold resumes in *.
    apply app_nils; [|apply app_nils; [|apply app_nils; [|apply app_nils]]].
    + (* session present *)
      rewrite sp_clause_ok. reflexivity.
    + (* resume keeps *)
      destruct (negb (cp_clean p || o_clean eo && (o_ver eo <? 5))); [|reflexivity].
      apply if_true_nil. rewrite N.eqb_refl, subB_refl, msubB_refl, andb_true_r. cbn [andb].
      apply forallb_forall. intros f F.
      destruct (fold_ix_add_has e f (o_subs eo) (st_index s) (or_introl F)) as (q & INq).
      apply existsb_exists. exists (e, f, q). split; [exact INq|]. cbn. rewrite !bb_refl. reflexivity.
    + (* clean start drops *)
      destruct (cp_clean p) eqn:CP; [|reflexivity]. cbn [orb negb] in *.
      apply if_true_nil. rewrite N.eqb_refl. cbn [andb map]. apply negb_true_iff, no_index_of. intros f q IN.
      apply in_ix_del_all in IN. destruct IN as [IN C']. cbn in C'.
      destruct C' as [C'|C']; [congruence|exact (C' (ixinv_obj s e _ eo f q X A G IN))].
    + (* the hooks hear of the discarded session *)
      rewrite (andb_comm (o_ver eo <? 5) (o_clean eo)).
      destruct (cp_clean p || o_clean eo && (o_ver eo <? 5)); [|reflexivity]. cbn [negb].
      change (fun h : hev => match h with HDropped i0 pl => if beq_bytes i0 e then [pl] else [] | HUnsub _ _ => [] end) with (dropped_of e).
      change (fun h : hev => match h with HDropped _ _ => [] | HUnsub i0 f => if beq_bytes i0 e then [f] else [] end) with (unsub_of e).
      destruct (clean_hooks_lists e (o_subs eo) (o_infl eo)) as [DD UU]. rewrite DD, UU, msubB_refl, subB_refl. reflexivity.
    + (* the previous holder: DISCONNECT 0x8E and nothing else, closed *)
      destruct (o_open eo) eqn:OE; [|reflexivity]. rewrite NEC'. cbn [negb andb].
      apply if_true_nil. fold (resumes p eo). rewrite (accept_pkts_holder c p eo NEC), CLO, OE, takeover_pk_ok. apply memN_true. left. reflexivity.
  - rewrite CR. cbn [andb orb negb app]. rewrite !app_nil_r.
    destruct (cp_clean p); [|reflexivity].
    cbn [sclient_of sc_conn sc_subs sc_infl snap_of sn_index].
    rewrite NC, NS, NF, IX. cbn [map].
    apply if_true_nil. rewrite N.eqb_refl. cbn [andb]. apply negb_true_iff, no_index_of. intros f q IN.
    destruct (X e f q IN) as (c2 & _ & A2 & _). congruence.
Qed.

(* the clause of [m14_step] on packets to closed connections: a closed connection is not open, and its number not fresh *)
Lemma v_after_nil (i : nat) m k s o : inv14 m s ->
  flat_map (fun x => match x with
                     | OPkt c _ => if memN c (b_closed m) then [mkv V14_old_after i c []] else []
                     | _ => [] end) (snd (step k s o)) = [].
Proof.
  intros [V CL]. apply flat_map_nil. intros x I. destruct x as [c p| | | | |]; try reflexivity.
  destruct (memN c (b_closed m)) eqn:E; [|reflexivity]. destruct (CL c E) as [O U].
  destruct (proj1 (step_conns k s o (wf_used s (proj1 V))) c p I) as [H|H]; [congruence|]. apply is_new_conn_fresh in H. congruence.
Qed.

Theorem m14_step_ok k i m s o :
  inv14 m s ->
  inv14 (fst (m14_step i m (obs_of (tstep_of k s o)))) (fst (step k s o)) /\
  snd (m14_step i m (obs_of (tstep_of k s o))) = [].
Proof.
  intro J. pose proof J as [V CL]. pose proof (step_inv k s o V) as V'. split.
  - split; [exact V'|]. exact (closed_update m k s o J).
  - pose proof (v_after_nil i m k s o J) as VA.
    destruct (is_new_conn s o) as [c|] eqn:NEW.
    + destruct (step_new_cases k s o c NEW (wf_used s (proj1 V))) as (M & _ & [[E R]|(now & p & e & -> & T & VV & AC & EO)]).
      * (* refused: no success CONNACK *)
        unfold m14_step, obs_of, tstep_of. cbn [snd b_closed b_outs b_op b_hooks b_pre b_post t_op t_outs t_hooks t_pre t_post].
        apply app_nils; [exact VA|].
        destruct o; cbn [is_new_conn] in NEW; try discriminate; try reflexivity.
        destruct (memN c0 (st_used s)); try discriminate. inversion NEW; subst c0. rewrite (proj2 (proj2 (refusal_obs c _ R))). reflexivity.
      * unfold tstep_of. rewrite EO in *. destruct m as [cl].
        rewrite (m14_accept_ok k i s _ c now p e cl V M T VV AC (proj1 V')). exact VA.
    + (* an operation on existing connections; a CONNECT on a used connection number does nothing *)
      unfold m14_step, obs_of, tstep_of. cbn [snd b_closed b_outs b_op b_hooks b_pre b_post t_op t_outs t_hooks t_pre t_post].
      apply app_nils; [exact VA|]. destruct o; try reflexivity.
      cbn [is_new_conn] in NEW. cbn [step]. destruct (memN c (st_used s)); [reflexivity|discriminate].
Qed.

Theorem mon14_clean k ops : mon14 (map obs_of (trace k init ops)) = [].
Proof.
  apply (run_mon_clean k m14_step (fun m s _ => inv14 m s) (fun i m s o _ => m14_step_ok k i m s o)).
  split; [apply inv_init|cbn; discriminate].
Qed.
