(* C15 — proofs about the C15 monitor on the traces of the life-cycle model, and about when the
   model discards a session. *)
From MV Require Import Base.Val Base.ListMisc Session.Lifecycle Session.LifeSpec Session.LifeBase Session.LifeStep Session.LifeInv
  Session.LifeProofs13 Session.LifeProofs14.
Open Scope N_scope.

(* the clause [v_index] of [m15_step] *)
Lemma v_index_nil i s : inv s ->
  flat_map (fun e => match find_client (fst (fst e)) (sn_clients (snap_of s)) with
                     | Some r => if memB (snd (fst e)) (sc_subs r) then [] else [mkv V15_stale_index i (sc_conn r) (fst (fst e))]
                     | None => [mkv V15_stale_index i 0 (fst (fst e))]
                     end) (sn_index (snap_of s)) = [].
Proof.
  intros [W X]. apply flat_map_nil. intros [[id f] q] IN. cbn [snap_of sn_index] in IN. cbn [fst snd].
  destruct (X id f q IN) as (c & o & A & G & F).
  rewrite (find_client_snap s id W), A, G. cbn [option_map sclient_of sc_subs].
  assert (M : memB f (map fst (o_subs o)) = true) by (apply memB_in; exact F). rewrite M. reflexivity.
Qed.

(* What one step of mon15 reports on a trace of the model: the index clause reports nothing (v_index_nil);
   the "unjustified" clause m15_vjust is left to the caller; every other clause - those about when a
   session is discarded - reports under a tag of its own, other than V15_stale_index and V15_unjustified,
   and nothing is proved about those tags.  So a property Q that holds for all such tags and for
   m15_vjust holds for the whole report.  The proof splits every if / match of m15_step. *)
Lemma m15_tags (Q : viol -> Prop) k i m s o :
  inv s -> (forall v, v_tag v <> V15_stale_index /\ v_tag v <> V15_unjustified -> Q v) ->
  let b := obs_of (tstep_of k s o) in
  Forall Q (m15_vjust i (m15_conns1 k m b) (m15_j1 m b) (b_outs b)) -> Forall Q (snd (m15_step k i m b)).
Proof.
  intros I HQ b VJ. pose proof (step_inv k s o I) as I'.
  unfold m15_step. cbv zeta. cbn [snd]. subst b. unfold obs_of, tstep_of in *.
  cbn [b_op b_outs b_hooks b_pre b_post t_op t_outs t_hooks t_pre t_post] in *.
  rewrite (v_index_nil i (fst (step k s o)) I').
  repeat (apply Forall_app; split); try exact VJ; try (constructor; fail).
  all: repeat match goal with
         | |- Forall _ [] => constructor
         | |- Forall _ (_ :: _) => constructor
         | |- Forall _ (if ?c then _ else _) => destruct c
         | |- Forall _ (match ?x with _ => _ end) => destruct x
         | |- Forall _ (flat_map _ _) => apply Forall_flat_map_in; intros
         end.
  all: apply HQ; cbn.
  all: repeat match goal with |- context [match ?x with _ => _ end] => destruct x | |- context [if ?c then _ else _] => destruct c end;
       split; discriminate.
Qed.

Lemma m15_vjust_tag i conns j outs : Forall (fun v => v_tag v <> V15_stale_index) (m15_vjust i conns j outs).
Proof.
  unfold m15_vjust. apply Forall_flat_map_in. intros x _. destruct x as [c p| | | | |]; try constructor.
  destruct p; try constructor. destruct (find_x c conns); [destruct (memB _ _)|]; repeat constructor; discriminate.
Qed.

Theorem mon15_no_stale_index k ops :
  Forall (fun v => v_tag v <> V15_stale_index) (mon15 k (map obs_of (trace k init ops))).
Proof.
  unfold mon15. apply (run_mon_inv k (m15_step k) _ (fun _ s _ => inv s)).
  - intros i m s o r I. split; [apply step_inv, I|]. apply (m15_tags _ k i m s o I); [tauto|apply m15_vjust_tag].
  - apply inv_init.
Qed.

Theorem inv_reachable k ops : inv (fold_left (fun s o => fst (step k s o)) ops init).
Proof. apply reach; [apply inv_init|apply step_inv]. Qed.

Theorem index_belongs_to_sessions k ops : ixinv (fold_left (fun s o => fst (step k s o)) ops init).
Proof. apply inv_reachable. Qed.

(* the expiry interval clearExpiredClients applies to a disconnected session *)
Definition interval (k : caps) (o : cobj) : N := if (o_ver o =? 5) && o_seiflag o then o_sei o else k_maxsei k.

Definition removed (s s' : state) (id : bytes) : Prop :=
  aget id (st_clients s) <> None /\ aget id (st_clients s') = None.

(* the entries a run of parts deletes from Clients are among those the parts are for *)
Lemma ran_clients {A} (part : A -> state -> state -> list out -> Prop) (key : A -> option bytes) l :
  (forall a s s' o, part a s s' o -> st_clients s' = match key a with Some id => adel id (st_clients s) | None => st_clients s end) ->
  forall s s' outs id, ran part l s s' outs -> aget id (st_clients s') = None -> aget id (st_clients s) <> None -> exists a, In a l /\ key a = Some id.
Proof.
  intro H. induction l as [|a r IH]; intros s s' outs id R N NA; inversion R; subst; [contradiction|].
  match goal with P : part a s ?s1 _, R' : ran part r ?s1 s' _ |- _ => pose proof (H _ _ _ _ P) as EC; destruct (aget id (st_clients s1)) eqn:A1 end.
  - destruct (IH _ _ _ id ltac:(eassumption) N) as (a' & I & K); [congruence|]. exists a'. split; [right; exact I|exact K].
  - exists a. split; [left; reflexivity|]. rewrite EC in A1. destruct (key a) as [id'|]; [|contradiction].
    destruct (bb_dec id id') as [->|NE]; [reflexivity|]. rewrite aget_adel_other in A1 by exact NE. contradiction.
Qed.

(* C15 (when): a registered session disappears from Clients only
   - by the housekeeping tick, when it is disconnected and more than its interval has elapsed, or
   - at the end of its own connection, when the session ends with the connection (expiry 0 / MQTT 3 clean);
   the teardown of a taken-over connection removes nothing. *)
Theorem discard_when_due k s o id :
  inv s -> removed s (fst (step k s o)) id ->
  match o with
  | OTickClients now =>
      exists c ob, aget id (st_clients s) = Some c /\ get_obj c (st_objs s) = Some ob /\ o_open ob = false /\
                   (o_disc ob + Z.of_N (interval k ob) < now)%Z
  | ODisconnect c _ _ _ | ONetClose c _ | OSecondConnect c _ =>
      aget id (st_clients s) = Some c /\
      exists ob', get_obj c (st_objs (fst (step k s o))) = Some ob' /\ o_id ob' = id /\ expire_cond ob' = true
  | _ => False
  end.
Proof.
  intros [W X] [A R].
  destruct (step_cases k s o) as [o ID|o c outs NEW RF|c now p e s' M T VV AC|o c now ob s' outs EN E|now s' outs RN|now s' outs RN|c f q ob s' RD S|c m ob s' pubs RD P].
  - contradiction.
  - contradiction.
  - (* the entry of the identifier is replaced, the others stay *)
    rewrite (ac_clients _ _ _ _ _ _ _ AC) in R. destruct (bb_dec id e) as [->|NE]; [rewrite aget_aset_same in R; discriminate|].
    rewrite aget_aset_other in R by exact NE. contradiction.
  - (* the end of a handler removes the connection's own entry, when the session ends with the connection *)
    destruct (ending_wf s o c now ob W EN) as [G REG]. destruct (ending_obj s o c now ob EN) as [_ SH].
    destruct E as [_ EC _ _ (dl & pubs & _ & CH & _)]. rewrite EC in R.
    destruct (ends_session (end_sei k o ob ob)) eqn:EX; [|contradiction]. pose proof (ends_session_tko k o ob EX) as NT.
    destruct (bb_dec id (o_id ob)) as [->|NE]; [|rewrite aget_adel_other in R by exact NE; contradiction].
    assert (GOAL : aget (o_id ob) (st_clients s) = Some c /\ exists ob', get_obj c (st_objs s') = Some ob' /\ o_id ob' = o_id ob /\ expire_cond ob' = true).
    { split; [exact (REG NT)|]. rewrite (CH c), G. eexists. split; [reflexivity|]. rewrite at_conn_same by apply (get_obj_conn G).
      split; [reflexivity|]. unfold ends_session in EX. apply andb_true_iff in EX. exact (proj1 EX). }
    destruct SH as [(_ & _ & [(rc & sei & ->)|[->| ->]])|[-> PH]]; try exact GOAL.
    (* a parked handler belongs to an object that was taken over: its session does not end with it *)
    destruct (wf_held s W c ob G PH). congruence.
  - destruct (ran_clients dropped (fun e => Some (fst e)) _ (fun a s0 s1 o0 D => dr_clients a s0 s1 o0 D) s s' outs id RN R A) as ([id' c] & I & K).
    cbn in K. inversion K; subst id'. apply filter_In in I. destruct I as [I EX].
    destruct (expired_entry_wf k now s id c W I EX) as (AG & ob & G & OO & LT). exists c, ob. split; [exact AG|]. split; [exact G|]. split; [exact OO|apply Z.ltb_lt, LT].
  - destruct (ran_clients fired (fun _ => None) _ (fun a s0 s1 o0 F => proj1 (proj2 (fi_reg a s0 s1 o0 F))) s s' outs id RN R A) as (a & _ & K). discriminate.
  - destruct S as [(_ & EC & _) _ _]. congruence.
  - destruct P as [(_ & EC & _) _ _ _]. congruence.
Qed.

(* the form in which C15_when is stated: the teardown among the ends of a connection, although it never removes a session *)
Theorem discard_only_when_due k s o id :
  inv s -> removed s (fst (step k s o)) id ->
  match o with
  | OTickClients now =>
      exists c ob, aget id (st_clients s) = Some c /\ get_obj c (st_objs s) = Some ob /\ o_open ob = false /\
                   (o_disc ob + Z.of_N (interval k ob) < now)%Z
  | ODisconnect c _ _ _ | ONetClose c _ | OSecondConnect c _ | OTeardown c _ =>
      aget id (st_clients s) = Some c /\
      exists ob', get_obj c (st_objs (fst (step k s o))) = Some ob' /\ o_id ob' = id /\ expire_cond ob' = true
  | _ => False
  end.
Proof. intros V R. pose proof (discard_when_due k s o id V R) as H. destruct o; try exact H. destruct H. Qed.

(* C15: a DISCONNECT cannot raise a zero session expiry interval: the attempt is a protocol error,
   the interval stays zero and the session ends with the connection *)
Theorem disconnect_cannot_raise k s c now rc v ob :
  inv s -> reading s c = Some ob -> o_ver ob = 5 -> o_sei ob = 0 -> 0 < v ->
  let s' := fst (do_disconnect k c now rc (Some v) s) in
  aget (o_id ob) (st_clients s') = None /\
  (forall ob', get_obj c (st_objs s') = Some ob' -> o_sei ob' = 0) /\
  In (OPkt c (PDisconnect 130)) (snd (do_disconnect k c now rc (Some v) s)).
Proof.
  intros [W X] RD V5 S0 VP. cbn zeta.
  assert (EN : ending s (ODisconnect c now rc (Some v)) = Some (c, now, ob)) by (cbn; rewrite RD; reflexivity).
  destruct (ending_wf s _ c now ob W EN) as [G REG]. destruct (reading_wf s c ob W RD) as (_ & _ & A). destruct (wf_reg_obj s _ c ob W A G) as [_ TK].
  assert (RA : raises ob (Some v) = true) by (cbn; rewrite S0; cbn; rewrite andb_true_r; apply N.ltb_lt, VP).
  destruct (step_ended k s _ c now ob EN) as [_ EC _ _ (dl & pubs & _ & CH & OUT)]. cbn [step] in *.
  assert (EX : ends_session (end_sei k (ODisconnect c now rc (Some v)) ob ob) = true).
  { unfold ends_session, expire_cond, end_sei, sei_after. rewrite RA. cbn. rewrite V5, S0, TK. reflexivity. }
  rewrite EX in EC. split; [rewrite EC; apply aget_adel_same|]. split.
  - intros ob' G'. rewrite (CH c), G in G'. inversion G'. rewrite at_conn_same by apply (get_obj_conn G). unfold end_sei, sei_after. rewrite RA. exact S0.
  - rewrite OUT. unfold end_outs. rewrite RA, V5. left. reflexivity.
Qed.

Definition capped (k : caps) (s : state) : Prop :=
  forall c o, get_obj c (st_objs s) = Some o -> o_sei o <= k_maxsei k.

Lemma capN_le k v : capN k v <= k_maxsei k.
Proof. unfold capN. destruct (k_maxsei k <? v) eqn:L; [apply N.le_refl|apply N.ltb_ge, L]. Qed.

(* DISCONNECT and CONNECT store the requested interval capped by the server maximum; nothing else writes one *)
Theorem step_capped k s o : capped k s -> capped k (fst (step k s o)).
Proof.
  intro C. assert (SAME : forall e s0 s1, changes e s0 s1 -> (forall x, o_sei (e x) = o_sei x) -> capped k s0 -> capped k s1).
  { intros e s0 s1 CH H C0. refine (changes_all (fun x => o_sei x <= k_maxsei k) e s0 s1 CH _ C0). intros c x _. rewrite H. auto. }
  destruct (step_cases k s o) as [o ID|o c outs NEW RF|c now p e s' M T VV AC|o c now ob s' outs EN E|now s' outs RN|now s' outs RN|c f q ob s' RD S|c m ob s' pubs RD P].
  - exact C.
  - exact C.
  - intros c' o' G'. destruct (N.eq_dec c' c) as [->|N].
    + rewrite (ac_new _ _ _ _ _ _ _ AC) in G'. inversion G'. destruct (new_obj_fields k c p e (client_of s e)) as (_ & _ & _ & -> & _). apply capN_le.
    + destruct (accepted_old _ _ _ _ _ _ _ c' o' AC N G') as (x & Gx & [[-> _]| ->]); [|rewrite taken_over_spec]; apply (C c' x Gx).
  - destruct E as [_ _ _ _ (dl & pubs & _ & CH & _)]. destruct (ending_obj s o c now ob EN) as [G _]. refine (changes_all (fun x => o_sei x <= k_maxsei k) _ s s' CH _ C).
    intros c' x Gx LE. unfold at_conn. cbn [deliv add_infl with_session o_conn]. destruct (_ =? c); [|exact LE]. cbn. unfold sei_after.
    destruct o; try exact (C c ob G). destruct sei as [v|]; [|exact (C c ob G)]. destruct (raises ob (Some v)); [exact (C c ob G)|apply capN_le].
  - revert C. induction RN as [|a l s0 s1 s2 o1 o2 D _ IH]; intro C; [exact C|]. apply IH, (SAME _ s0 s1 (dr_objs _ _ _ _ D)); [|exact C].
    intro x. unfold at_conn. destruct (_ =? _); reflexivity.
  - revert C. induction RN as [|a l s0 s1 s2 o1 o2 F _ IH]; intro C; [exact C|]. destruct F as [_ _ (dl & pubs & _ & CH & _)]. apply IH, (SAME _ s0 s1 CH); [|exact C].
    intro x. destruct (client_of _ _); [unfold at_conn; destruct (_ =? _)|]; reflexivity.
  - apply (SAME _ s s' (su_objs _ _ _ _ _ _ S)); [|exact C]. intro x. unfold at_conn. destruct (_ =? _); reflexivity.
  - destruct P as [_ _ (dl & _ & CH) _]. apply (SAME _ s s' CH); [reflexivity|exact C].
Qed.

Theorem interval_capped k ops : capped k (fold_left (fun s o => fst (step k s o)) ops init).
Proof. apply reach; [intros c o G; discriminate|apply step_capped]. Qed.
