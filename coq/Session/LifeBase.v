(* C13-C16 — the functions of the life-cycle model one at a time, for LifeStep.v to put together.  Every update of
   client objects is stated in one form, [changes edit s s']: one function applied to every object, with [at_conn c f]
   for an edit of the object of one connection.  ClearInflights, UnsubscribeClient, DisconnectClient and
   inheritClientSession each get one lemma of that form; what they do to the registry (connection numbers, Clients,
   the index) and to the delayed-will table is given by equations.  Part 2, from [sends_ok] on, is vocabulary for
   relating the state before an operation with the state after it. *)
From MV Require Import Base.Val Base.BytesEq Base.ListMisc Session.Lifecycle.
From Coq Require Import Lia.
Open Scope N_scope.

Lemma bb_eq (a b : bytes) : beq_bytes a b = true <-> a = b.
Proof. apply beq_bytes_eq. Qed.
Lemma bb_refl a : beq_bytes a a = true.
Proof. apply bb_eq. reflexivity. Qed.
Lemma bb_neq a b : a <> b -> beq_bytes a b = false.
Proof. apply beq_bytes_neq. Qed.
Lemma bb_dec (a b : bytes) : {a = b} + {a <> b}.
Proof. destruct (beq_bytes a b) eqn:E; [left; apply bb_eq, E|right; intro H; apply bb_eq in H; congruence]. Qed.

Lemma nodup_snoc {A} (x : A) (m : list A) : NoDup m -> ~ In x m -> NoDup (m ++ [x]).
Proof.
  intros ND NI. apply NoDup_app_intro; [exact ND|repeat constructor; intros []|].
  intros y I [<-|[]]. exact (NI I).
Qed.

Section Assoc.
  Context {V : Type}.
  Implicit Types l : list (bytes * V).

  Lemma aget_adel_same k l : aget k (adel k l) = None.
  Proof.
    induction l as [|[k' v] r IH]; cbn; [reflexivity|].
    destruct (beq_bytes k' k) eqn:E; cbn; [exact IH|]. rewrite E. exact IH.
  Qed.

  Lemma aget_adel_other k k' l : k' <> k -> aget k' (adel k l) = aget k' l.
  Proof.
    intro N. induction l as [|[k2 v] r IH]; cbn; [reflexivity|].
    destruct (beq_bytes k2 k) eqn:E; cbn.
    - apply bb_eq in E. subst k2. rewrite (bb_neq k k') by congruence. exact IH.
    - destruct (beq_bytes k2 k'); [reflexivity|exact IH].
  Qed.

  Lemma aget_app k l1 l2 : aget k (l1 ++ l2) = match aget k l1 with Some v => Some v | None => aget k l2 end.
  Proof.
    induction l1 as [|[k' v] r IH]; cbn; [reflexivity|]. destruct (beq_bytes k' k); [reflexivity|exact IH].
  Qed.

  Lemma aget_aset_same k v l : aget k (aset k v l) = Some v.
  Proof. unfold aset. rewrite aget_app, aget_adel_same. cbn. rewrite bb_refl. reflexivity. Qed.

  Lemma aget_aset_other k k' v l : k' <> k -> aget k' (aset k v l) = aget k' l.
  Proof.
    intro N. unfold aset. rewrite aget_app, aget_adel_other by exact N.
    destruct (aget k' l); [reflexivity|]. cbn. rewrite (bb_neq k k') by congruence. reflexivity.
  Qed.

  Lemma in_aget_nodup k v l : NoDup (map fst l) -> In (k, v) l -> aget k l = Some v.
  Proof.
    induction l as [|[k' v'] r IH]; cbn; [intros _ []|].
    intros ND [E|I].
    - inversion E; subst. rewrite bb_refl. reflexivity.
    - inversion ND as [|? ? NI ND']; subst. destruct (beq_bytes k' k) eqn:E.
      + apply bb_eq in E. subst. exfalso. apply NI. apply (in_map fst) in I. exact I.
      + apply IH; assumption.
  Qed.

  Lemma adel_keys k l x : In x (map fst (adel k l)) -> In x (map fst l) /\ x <> k.
  Proof.
    unfold adel. rewrite in_map_iff. intros ([k' v] & E & I). cbn in E. subst. apply filter_In in I.
    destruct I as [I F]. cbn in F. split; [apply (in_map fst) in I; exact I|].
    intro H. subst. rewrite bb_refl in F. discriminate.
  Qed.

  Lemma nodup_adel k l : NoDup (map fst l) -> NoDup (map fst (adel k l)).
  Proof.
    induction l as [|[k' v] r IH]; cbn; [constructor|]. intro ND. inversion ND as [|? ? NI ND']; subst.
    destruct (beq_bytes k' k); cbn; [apply IH, ND'|]. constructor; [|apply IH, ND'].
    intro H. apply adel_keys in H. tauto.
  Qed.

  Lemma nodup_aset k v l : NoDup (map fst l) -> NoDup (map fst (aset k v l)).
  Proof.
    intro ND. unfold aset. rewrite map_app. cbn. apply nodup_snoc; [apply nodup_adel, ND|].
    intro I. apply adel_keys in I. tauto.
  Qed.

  Lemma adel_le k l k' v : aget k' (adel k l) = Some v -> aget k' l = Some v.
  Proof. intro A. destruct (bb_dec k' k) as [->|N]; [rewrite aget_adel_same in A; discriminate|rewrite aget_adel_other in A by exact N; exact A]. Qed.

  Lemma in_adel k l x : In x (adel k l) -> In x l /\ fst x <> k.
  Proof.
    unfold adel. intro I. apply filter_In in I. destruct I as [I F]. split; [exact I|].
    intro H. rewrite H, bb_refl in F. discriminate.
  Qed.
End Assoc.

Lemma aset_keys {V} (k : bytes) (v : V) l x : In x (map fst l) -> In x (map fst (aset k v l)).
Proof.
  intro I. unfold aset. rewrite map_app. apply in_or_app. destruct (bb_dec x k) as [->|NE]; [right; left; reflexivity|].
  left. apply in_map_iff in I. destruct I as ([k' v'] & E & I). cbn in E. subst k'.
  apply in_map_iff. exists (x, v'). split; [reflexivity|]. unfold adel. apply filter_In. split; [exact I|].
  cbn. rewrite bb_neq by exact NE. reflexivity.
Qed.

Lemma aset_idem {V} (k0 : bytes) (v : V) l : aset k0 v (aset k0 v l) = aset k0 v l.
Proof.
  unfold aset, adel. rewrite filter_app. cbn. rewrite bb_refl. cbn. rewrite app_nil_r.
  f_equal. induction l as [|[a b] r IH]; cbn; [reflexivity|]. destruct (beq_bytes a k0) eqn:E; cbn; [exact IH|]. rewrite E. cbn. f_equal. exact IH.
Qed.

Lemma in_aset_keys {V} (k : bytes) (v : V) l x : In x (map fst (aset k v l)) -> In x (map fst l) \/ x = k.
Proof.
  unfold aset. rewrite map_app. intro I. apply in_app_or in I. destruct I as [I|[E|[]]]; [|right; symmetry; exact E].
  left. apply adel_keys in I. tauto.
Qed.

Lemma in_ix_del id f l x : In x (ix_del id f l) -> In x l.
Proof. unfold ix_del. intro I. apply filter_In in I. tauto. Qed.

Lemma in_ix_del_all id fs l x : In x (ix_del_all id fs l) <-> In x l /\ (fst (fst x) <> id \/ ~ In (snd (fst x)) fs).
Proof.
  unfold ix_del_all. rewrite filter_In. split; intros [I F]; split; auto.
  - apply negb_true_iff in F. apply andb_false_iff in F. destruct F as [F|F].
    + left. intro E. rewrite E, bb_refl in F. discriminate.
    + right. intro IN. unfold memB in F. assert (existsb (beq_bytes (snd (fst x))) fs = true); [|congruence].
      apply existsb_exists. exists (snd (fst x)). split; [exact IN|apply bb_refl].
  - apply negb_true_iff. apply andb_false_iff. destruct F as [F|F].
    + left. apply bb_neq. exact F.
    + right. unfold memB. destruct (existsb _ fs) eqn:E; [|reflexivity]. apply existsb_exists in E.
      destruct E as (y & IY & EY). apply bb_eq in EY. subst. contradiction.
Qed.

Lemma in_fold_ix_add e l : forall ix x,
  In x (fold_left (fun ix fq => ix_add e (fst fq) (snd fq) ix) l ix) ->
  In x ix \/ exists fq, In fq l /\ x = (e, fst fq, snd fq).
Proof.
  induction l as [|fq r IH]; intros ix x I; cbn in I; [left; exact I|].
  apply IH in I. destruct I as [I|(fq' & I1 & E)].
  - unfold ix_add in I. apply in_app_or in I. destruct I as [I|[I|[]]].
    + left. apply in_ix_del in I. exact I.
    + right. exists fq. split; [left; reflexivity|congruence].
  - right. exists fq'. split; [right; exact I1|exact E].
Qed.

Lemma fold_ix_add_has e f : forall l ix,
  In f (map fst l) \/ (exists q, In (e, f, q) ix) ->
  exists q, In (e, f, q) (fold_left (fun ix fq => ix_add e (fst fq) (snd fq) ix) l ix).
Proof.
  induction l as [|fq r IH]; intros ix H; cbn [fold_left].
  - destruct H as [[]|H]. exact H.
  - apply IH. destruct (bb_dec (fst fq) f) as [E|NE].
    + right. exists (snd fq). unfold ix_add. apply in_or_app. right. left. rewrite E. reflexivity.
    + destruct H as [[E|I]|(q & I)]; [contradiction|left; exact I|].
      right. exists q. unfold ix_add, ix_del. apply in_or_app. left. apply filter_In. split; [exact I|].
      cbn. rewrite bb_refl, (bb_neq f (fst fq)) by congruence. reflexivity.
Qed.

Lemma get_put_same (o : cobj) (l : list cobj) : get_obj (o_conn o) (put_obj o l) = Some o.
Proof.
  induction l as [|x r IH]; cbn.
  - rewrite N.eqb_refl. reflexivity.
  - destruct (o_conn x =? o_conn o) eqn:E; cbn.
    + rewrite N.eqb_refl. reflexivity.
    + rewrite E. exact IH.
Qed.

Lemma get_put_other (o : cobj) (c : N) (l : list cobj) :
  c <> o_conn o -> get_obj c (put_obj o l) = get_obj c l.
Proof.
  intro H. induction l as [|x r IH]; cbn.
  - destruct (o_conn o =? c) eqn:E; [apply N.eqb_eq in E; congruence|reflexivity].
  - destruct (o_conn x =? o_conn o) eqn:E; cbn.
    + apply N.eqb_eq in E. destruct (o_conn o =? c) eqn:E1; [apply N.eqb_eq in E1; congruence|].
      rewrite E. rewrite E1. reflexivity.
    + destruct (o_conn x =? c); [reflexivity|exact IH].
Qed.

Lemma get_obj_conn (c : N) (l : list cobj) (o : cobj) : get_obj c l = Some o -> o_conn o = c.
Proof.
  induction l as [|x r IH]; cbn; [discriminate|].
  destruct (o_conn x =? c) eqn:E; [intro H; inversion H; subst; apply N.eqb_eq; exact E|exact IH].
Qed.
Arguments get_obj_conn {c l o}.

Definition hasobj (s : state) (c : N) : bool :=
  match get_obj c (st_objs s) with Some _ => true | None => false end.
Definition openc (s : state) (c : N) : bool :=
  match get_obj c (st_objs s) with Some o => o_open o | None => false end.

Lemma openc_hasobj s c : openc s c = true -> hasobj s c = true.
Proof. unfold openc, hasobj. destruct (get_obj c (st_objs s)); [reflexivity|discriminate]. Qed.

Lemma client_of_obj s id o : client_of s id = Some o -> get_obj (o_conn o) (st_objs s) = Some o.
Proof.
  unfold client_of. destruct (aget id (st_clients s)) as [c|]; [|discriminate].
  intro G. pose proof (get_obj_conn G) as E. rewrite E. exact G.
Qed.
Arguments client_of_obj {s id o}.

Lemma client_of_aget s id o : client_of s id = Some o -> aget id (st_clients s) = Some (o_conn o).
Proof.
  unfold client_of. destruct (aget id (st_clients s)) as [c|]; [|discriminate]. intro G. rewrite (get_obj_conn G). reflexivity.
Qed.

(* [okey]: the fields LifeInv.wf reads; [skey]: with the subscriptions, which LifeInv.ixinv reads *)
Definition okey (o : cobj) := (o_id o, o_tko o, o_open o, o_phase o, o_disc o).
Definition skey (o : cobj) := (okey o, o_subs o).

Lemma get_upd_same s o : get_obj (o_conn o) (st_objs (upd_obj s o)) = Some o.
Proof. exact (get_put_same o (st_objs s)). Qed.

Lemma get_upd_other s o c : c <> o_conn o -> get_obj c (st_objs (upd_obj s o)) = get_obj c (st_objs s).
Proof. exact (get_put_other o c (st_objs s)). Qed.

Lemma get_upd_at s o c : o_conn o = c -> get_obj c (st_objs (upd_obj s o)) = Some o.
Proof. intros <-. apply get_upd_same. Qed.

Definition changes (edit : cobj -> cobj) (s s' : state) : Prop :=
  forall c, get_obj c (st_objs s') = option_map edit (get_obj c (st_objs s)).

(* [f] on the object of connection [c], the others as they are: ClearInflights, the object part of
   UnsubscribeClient, Stop and the flag updates of the handlers all have this form *)
Definition at_conn (c : N) (f : cobj -> cobj) (o : cobj) : cobj := if o_conn o =? c then f o else o.

Lemma at_conn_same c f o : o_conn o = c -> at_conn c f o = f o.
Proof. unfold at_conn. intros ->. rewrite N.eqb_refl. reflexivity. Qed.
Lemma at_conn_other c f o : o_conn o <> c -> at_conn c f o = o.
Proof. unfold at_conn. intro N. apply N.eqb_neq in N. rewrite N. reflexivity. Qed.

Lemma changes_comp e1 e2 s s1 s2 : changes e1 s s1 -> changes e2 s1 s2 -> changes (fun o => e2 (e1 o)) s s2.
Proof. intros A B c. rewrite (B c), (A c). destruct (get_obj c (st_objs s)); reflexivity. Qed.

Lemma changes_ext e e' s s' :
  (forall c o, get_obj c (st_objs s) = Some o -> e o = e' o) -> changes e s s' -> changes e' s s'.
Proof.
  intros H A c. rewrite (A c). destruct (get_obj c (st_objs s)) as [o|] eqn:G; [|reflexivity]. cbn. rewrite (H c o G). reflexivity.
Qed.

Lemma changes_same e s s' : st_objs s' = st_objs s -> (forall c o, get_obj c (st_objs s) = Some o -> e o = o) -> changes e s s'.
Proof. intros E H c. rewrite E. destruct (get_obj c (st_objs s)) as [o|] eqn:G; [|reflexivity]. cbn. rewrite (H c o G). reflexivity. Qed.

Lemma changes_back e s s' c o' : changes e s s' -> get_obj c (st_objs s') = Some o' ->
  exists o, get_obj c (st_objs s) = Some o /\ o' = e o.
Proof. intros A G. rewrite (A c) in G. destruct (get_obj c (st_objs s)) as [o|]; [|discriminate]. inversion G. exists o. auto. Qed.

(* a property of single objects that the edit keeps, on the objects there are, holds of all objects afterwards *)
Lemma changes_all (P : cobj -> Prop) e s s' : changes e s s' -> (forall c x, get_obj c (st_objs s) = Some x -> P x -> P (e x)) ->
  (forall c x, get_obj c (st_objs s) = Some x -> P x) -> forall c x', get_obj c (st_objs s') = Some x' -> P x'.
Proof. intros CH H A c x' G. destruct (changes_back _ _ _ _ _ CH G) as (x & Gx & ->). exact (H c x Gx (A c x Gx)). Qed.

Lemma changes_hasobj e s s' c : changes e s s' -> hasobj s' c = hasobj s c.
Proof. intro A. unfold hasobj. rewrite (A c). destruct (get_obj c (st_objs s)); reflexivity. Qed.

Lemma changes_openc e s s' c : changes e s s' -> (forall o, o_open (e o) = true -> o_open o = true) -> openc s' c = true -> openc s c = true.
Proof. intros A H. unfold openc. rewrite (A c). destruct (get_obj c (st_objs s)) as [o|]; [apply H|auto]. Qed.

Lemma changes_here c f s s' : changes (at_conn c f) s s' -> get_obj c (st_objs s') = option_map f (get_obj c (st_objs s)).
Proof. intro U. rewrite (U c). destruct (get_obj c (st_objs s)) as [o|] eqn:G; [|reflexivity]. cbn. rewrite (at_conn_same c f o (get_obj_conn G)). reflexivity. Qed.

Lemma changes_other c f s s' c' : changes (at_conn c f) s s' -> c' <> c -> get_obj c' (st_objs s') = get_obj c' (st_objs s).
Proof.
  intros U N. rewrite (U c'). destruct (get_obj c' (st_objs s)) as [o|] eqn:G; [|reflexivity]. cbn. rewrite at_conn_other; [reflexivity|].
  rewrite (get_obj_conn G). exact N.
Qed.

Lemma changes_upd c f s o : get_obj c (st_objs s) = Some o -> o_conn (f o) = c -> changes (at_conn c f) s (upd_obj s (f o)).
Proof.
  intros G C c'. destruct (N.eq_dec c' c) as [->|N].
  - rewrite G. cbn. rewrite (at_conn_same c f o (get_obj_conn G)). apply get_upd_at, C.
  - rewrite get_upd_other by congruence. destruct (get_obj c' (st_objs s)) as [x|] eqn:Gx; [|reflexivity]. cbn. rewrite at_conn_other; [reflexivity|].
    rewrite (get_obj_conn Gx). exact N.
Qed.

Lemma changes_fix c f s s' :
  st_objs s' = st_objs s -> (forall o, get_obj c (st_objs s) = Some o -> f o = o) -> changes (at_conn c f) s s'.
Proof.
  intros E H. apply (changes_same _ s s' E). intros c' o G. unfold at_conn. destruct (o_conn o =? c) eqn:Q; [|reflexivity].
  apply H. apply N.eqb_eq in Q. rewrite <- Q, (get_obj_conn G). exact G.
Qed.

(* [d] is the identity or the deliveries of a publication (LifeStep.deliv), which in the description of every
   operation come before the edits at [c] *)
Lemma changes_twice c f g (d : cobj -> cobj) s s1 s2 : changes (fun x => at_conn c f (d x)) s s1 -> changes (at_conn c g) s1 s2 ->
  (forall x, o_conn (d x) = o_conn x) -> changes (fun x => at_conn c (fun y => g (f y)) (d x)) s s2.
Proof.
  intros A B K. refine (changes_ext _ _ _ _ _ (changes_comp _ _ _ _ _ A B)). intros c' o G.
  pose proof (A c') as G1. rewrite G in G1. apply get_obj_conn in G1. rewrite <- (get_obj_conn G), <- (K o) in G1.
  unfold at_conn in *. destruct (o_conn (d o) =? c) eqn:E; [rewrite G1, E|rewrite E]; reflexivity.
Qed.
Arguments changes_twice {c f g d s s1 s2}.

Lemma changes_at c f g (d : cobj -> cobj) s s' ob : get_obj c (st_objs s) = Some ob -> f (d ob) = g (d ob) -> (forall x, o_conn (d x) = o_conn x) ->
  changes (fun x => at_conn c f (d x)) s s' -> changes (fun x => at_conn c g (d x)) s s'.
Proof.
  intros G E K. apply changes_ext. intros c' x Gx. unfold at_conn. rewrite K, (get_obj_conn Gx). destruct (c' =? c) eqn:Q; [|reflexivity].
  apply N.eqb_eq in Q. subst c'. assert (x = ob) by congruence. subst x. exact E.
Qed.

Definition modify (c : N) (f : cobj -> cobj) (s : state) : state :=
  match get_obj c (st_objs s) with Some x => upd_obj s (f x) | None => s end.

Lemma changes_modify c f s : (forall x, o_conn (f x) = o_conn x) -> changes (at_conn c f) s (modify c f s).
Proof.
  intro K. unfold modify. destruct (get_obj c (st_objs s)) as [o|] eqn:G.
  - apply changes_upd; [exact G|]. rewrite K. apply (get_obj_conn G).
  - apply changes_fix; [reflexivity|]. intros o E. rewrite G in E. discriminate.
Qed.

Definition closed_at (o : cobj) (t : Z) : cobj :=
  {| o_conn := o_conn o; o_id := o_id o; o_ver := o_ver o; o_clean := o_clean o; o_sei := o_sei o;
     o_seiflag := o_seiflag o; o_will := o_will o; o_open := false; o_disc := t; o_tko := o_tko o;
     o_subs := o_subs o; o_infl := o_infl o; o_phase := o_phase o |}.

Lemma stopped_spec o now : stopped o now = closed_at o (if o_open o then now else o_disc o).
Proof. destruct o as [c i v cl se sf w op d t su inf ph]. destruct op; reflexivity. Qed.

Lemma stopped_conn o now : o_conn (stopped o now) = o_conn o.
Proof. rewrite stopped_spec. reflexivity. Qed.
Lemma stopped_open o now : o_open (stopped o now) = false.
Proof. rewrite stopped_spec. reflexivity. Qed.

Lemma clear_inflights_upd c s : changes (at_conn c (fun o => with_session o (o_subs o) [])) s (clear_inflights c s).
Proof. apply changes_modify. intro x. reflexivity. Qed.

Lemma unsubscribe_client_upd c s : changes (at_conn c (fun o => with_session o [] (o_infl o))) s (unsubscribe_client c s).
Proof.
  unfold unsubscribe_client. destruct (get_obj c (st_objs s)) as [o|] eqn:G.
  - pose proof (changes_upd c (fun o => with_session o [] (o_infl o)) s o G (get_obj_conn G)) as U.
    destruct (o_tko o); exact U.
  - apply changes_fix; [reflexivity|]. intros o E. rewrite G in E. discriminate.
Qed.

Lemma disconnect_client_upd now c code s : changes (at_conn c (fun o => stopped o now)) s (fst (disconnect_client now c code s)).
Proof.
  unfold disconnect_client. destruct (get_obj c (st_objs s)) as [o|] eqn:G.
  - destruct (o_open o) eqn:OO; cbn [fst].
    + apply (changes_upd c (fun o => stopped o now) s o G). rewrite stopped_conn. apply (get_obj_conn G).
    + apply changes_fix; [reflexivity|]. intros x E. rewrite G in E. inversion E; subst x.
      unfold stopped. rewrite OO. reflexivity.
  - apply changes_fix; [reflexivity|]. intros o E. rewrite G in E. discriminate.
Qed.

Lemma disconnect_client_out now c code s :
  snd (disconnect_client now c code s) =
  match get_obj c (st_objs s) with
  | Some o => if o_open o then [OPkt c (PDisconnect (if o_ver o <? 5 then 0 else code)); OClose c] else []
  | None => []
  end.
Proof. unfold disconnect_client. destruct (get_obj c (st_objs s)) as [o|]; [destruct (o_open o)|]; reflexivity. Qed.

Lemma hasobj_upd s o c : hasobj (upd_obj s o) c = hasobj s c || (c =? o_conn o).
Proof.
  unfold hasobj. destruct (c =? o_conn o) eqn:E.
  - apply N.eqb_eq in E. subst c. rewrite get_upd_same, orb_true_r. reflexivity.
  - apply N.eqb_neq in E. rewrite get_upd_other by exact E. rewrite orb_false_r. reflexivity.
Qed.

Definition reg_eq (s s' : state) : Prop :=
  st_used s' = st_used s /\ st_clients s' = st_clients s /\ st_index s' = st_index s.

Definition reg_le (s s' : state) : Prop :=
  (forall id c, aget id (st_clients s') = Some c -> aget id (st_clients s) = Some c) /\ incl (st_index s') (st_index s).

Lemma reg_eq_refl s : reg_eq s s.
Proof. repeat split. Qed.
Lemma reg_eq_trans a b c : reg_eq a b -> reg_eq b c -> reg_eq a c.
Proof. intros (U1 & C1 & I1) (U2 & C2 & I2). repeat split; congruence. Qed.
Lemma reg_eq_le s s' : reg_eq s s' -> reg_le s s'.
Proof. intros (_ & C & I). unfold reg_le. rewrite C, I. split; [auto|apply incl_refl]. Qed.
Lemma reg_le_refl s : reg_le s s.
Proof. apply reg_eq_le, reg_eq_refl. Qed.
Lemma reg_le_trans a b c : reg_le a b -> reg_le b c -> reg_le a c.
Proof.
  intros (C1 & I1) (C2 & I2). split; [auto|]. eapply incl_tran; eassumption.
Qed.

Lemma modify_reg c f s : reg_eq s (modify c f s).
Proof. unfold modify. destruct (get_obj c (st_objs s)); repeat split. Qed.

Lemma clear_inflights_reg c s : reg_eq s (clear_inflights c s).
Proof. apply modify_reg. Qed.

Lemma disconnect_client_reg now c code s : reg_eq s (fst (disconnect_client now c code s)).
Proof. unfold disconnect_client. destruct (get_obj c (st_objs s)) as [o|]; [destruct (o_open o)|]; repeat split. Qed.

Lemma unsubscribe_client_index c s :
  st_index (unsubscribe_client c s) =
  match get_obj c (st_objs s) with
  | Some o => if o_tko o then st_index s else ix_del_all (o_id o) (map fst (o_subs o)) (st_index s)
  | None => st_index s
  end.
Proof. unfold unsubscribe_client. destruct (get_obj c (st_objs s)) as [o|]; [destruct (o_tko o)|]; reflexivity. Qed.

Lemma unsubscribe_client_clients c s : st_clients (unsubscribe_client c s) = st_clients s.
Proof. unfold unsubscribe_client. destruct (get_obj c (st_objs s)) as [o|]; [destruct (o_tko o)|]; reflexivity. Qed.

Lemma unsubscribe_client_used c s : st_used (unsubscribe_client c s) = st_used s.
Proof. unfold unsubscribe_client. destruct (get_obj c (st_objs s)) as [o|]; [destruct (o_tko o)|]; reflexivity. Qed.

(* retainMessage, run when the message asks for it, touches the retained table only *)
Lemma retained_same k (b : bool) m s : let s' := if b then retain_msg k m s else s in
  st_objs s' = st_objs s /\ reg_eq s s' /\ st_wills s' = st_wills s.
Proof. destruct b; [unfold retain_msg; destruct (k_retain k); [destruct (m_payload m)|]|]; repeat split. Qed.

(* the end of a session: ClearInflights, UnsubscribeClient, Clients.Delete *)
Definition drop_session (c : N) (id : bytes) (s : state) : state :=
  set_clients (unsubscribe_client c (clear_inflights c s)) (adel id (st_clients s)).

Lemma drop_session_upd c id s : changes (at_conn c (fun o => with_session o [] [])) s (drop_session c id s).
Proof.
  exact (changes_twice (clear_inflights_upd c s) (unsubscribe_client_upd c (clear_inflights c s)) (fun _ => eq_refl)).
Qed.

Lemma reading_obj s c o : reading s c = Some o -> get_obj c (st_objs s) = Some o /\ o_open o = true.
Proof.
  unfold reading. destruct (get_obj c (st_objs s)) as [x|]; [|discriminate].
  destruct (o_phase x); try discriminate. destruct (o_open x) eqn:E; [|discriminate].
  intro H. inversion H. subst. auto.
Qed.

(* the test of clearExpiredClients on one entry *)
Definition expired (k : caps) (now : Z) (o : cobj) : bool :=
  negb (o_disc o =? 0)%Z && (o_disc o + Z.of_N (if (o_ver o =? 5)%N && o_seiflag o then o_sei o else k_maxsei k) <? now)%Z.

Lemma tick_clients_cons k now id c r s :
  tick_clients k now ((id, c) :: r) s =
  match get_obj c (st_objs s) with
  | Some o => if expired k now o
              then let (s3, outs) := tick_clients k now r (drop_session c id s) in (s3, OExpired id :: outs)
              else tick_clients k now r s
  | None => tick_clients k now r s
  end.
Proof.
  cbn [tick_clients]. destruct (get_obj c (st_objs s)) as [o|]; [|reflexivity]. unfold expired.
  destruct (o_disc o =? 0)%Z; [reflexivity|]. cbn [negb andb]. destruct (_ <? now)%Z; [|reflexivity].
  rewrite unsubscribe_client_clients. replace (st_clients (clear_inflights c s)) with (st_clients s) by (symmetry; apply clear_inflights_reg).
  reflexivity.
Qed.

(* sendDelayedLWT after the publication of one due entry: the message is retained if it asks for it, and
   the will of the client registered under the identifier is cleared *)
Definition will_sent (k : caps) (id : bytes) (m : msg) (s : state) : state * list out :=
  match client_of s id with
  | Some o => (upd_obj (if m_retain m then retain_msg k m s else s) (with_will o no_will), [OWillSent id])
  | None => (s, [])
  end.

Lemma tick_will_cons k now id d r s :
  tick_will k now ((id, d) :: r) s =
  if (d_due d <? now)%Z then
    let (s1, o1) := publish k (d_msg d) s in
    let (s2, o2) := will_sent k id (d_msg d) s1 in
    let (s4, o4) := tick_will k now r (set_wills s2 (adel id (st_wills s2))) in
    (s4, OWill (d_conn d) (d_msg d) :: o1 ++ o2 ++ o4)
  else tick_will k now r s.
Proof. reflexivity. Qed.

(* the handler of a connection closed from outside is parked until its teardown runs *)
Definition held (x : cobj) : cobj :=
  if (match o_phase x with PhReading => true | _ => false end) && negb (o_open x) then with_phase x PhHeld else x.

Definition taken_over (now : Z) (x : cobj) : cobj := with_tko (with_session (held (stopped x now)) [] []).

Lemma modify_wills c f s : st_wills (modify c f s) = st_wills s.
Proof. unfold modify. destruct (get_obj c (st_objs s)); reflexivity. Qed.
Lemma clear_inflights_wills c s : st_wills (clear_inflights c s) = st_wills s.
Proof. apply modify_wills. Qed.
Lemma unsubscribe_client_wills c s : st_wills (unsubscribe_client c s) = st_wills s.
Proof. unfold unsubscribe_client. destruct (get_obj c (st_objs s)) as [o|]; [destruct (o_tko o)|]; reflexivity. Qed.
Lemma disconnect_client_wills now c code s : st_wills (fst (disconnect_client now c code s)) = st_wills s.
Proof. unfold disconnect_client. destruct (get_obj c (st_objs s)) as [o|]; [destruct (o_open o)|]; reflexivity. Qed.

Lemma inherit_spec k now p n s :
  let '(s1, n1, sp, o1) := inherit k now p n s in
  match client_of s (o_id n) with
  | None => s1 = s /\ n1 = n /\ sp = false /\ o1 = []
  | Some eo =>
      let resume := negb (cp_clean p || (o_clean eo && (o_ver eo <? 5))) in
      sp = resume /\
      n1 = (if resume then with_session n (o_subs eo) (o_infl eo) else n) /\
      o1 = (if o_open eo then [OPkt (o_conn eo) (PDisconnect (if o_ver eo <? 5 then 0 else 142)); OClose (o_conn eo)] else []) /\
      changes (at_conn (o_conn eo) (taken_over now)) s s1 /\
      st_used s1 = st_used s /\ st_clients s1 = st_clients s /\
      st_index s1 = (if resume then fold_left (fun ix fq => ix_add (o_id n) (fst fq) (snd fq) ix) (o_subs eo) (st_index s)
                     else if o_tko eo then st_index s else ix_del_all (o_id eo) (map fst (o_subs eo)) (st_index s)) /\
      st_wills s1 = st_wills s
  end.
Proof.
  unfold inherit, client_of. destruct (aget (o_id n) (st_clients s)) as [e|]; [|auto].
  destruct (get_obj e (st_objs s)) as [eo|] eqn:G0; [|auto].
  pose proof (get_obj_conn G0) as EC. subst e. set (e := o_conn eo) in *.
  pose proof (disconnect_client_upd now e 142 s) as U1. pose proof (disconnect_client_reg now e 142 s) as (RU1 & RC1 & RI1).
  pose proof (disconnect_client_out now e 142 s) as O1. rewrite G0 in O1. pose proof (disconnect_client_wills now e 142 s) as W1.
  destruct (disconnect_client now e 142 s) as [sd od]. cbn [fst snd] in *. subst od.
  set (s1 := match get_obj e (st_objs sd) with
             | Some x => if (match o_phase x with PhReading => true | _ => false end) && negb (o_open x)
                         then upd_obj sd (with_phase x PhHeld) else sd
             | None => sd end).
  assert (U2 : changes (at_conn e held) sd s1 /\ reg_eq sd s1 /\ st_wills s1 = st_wills sd).
  { subst s1. destruct (get_obj e (st_objs sd)) as [x|] eqn:G; [|split; [|split; [apply reg_eq_refl|reflexivity]]].
    - destruct ((match o_phase x with PhReading => true | _ => false end) && negb (o_open x)) eqn:B.
      + split; [|repeat split].
        assert (HX : held x = with_phase x PhHeld) by (unfold held; rewrite B; reflexivity).
        rewrite <- HX. apply (changes_upd e held sd x G). rewrite HX. apply (get_obj_conn G).
      + split; [|split; [apply reg_eq_refl|reflexivity]]. apply changes_fix; [reflexivity|]. intros y E. rewrite G in E. inversion E; subst y.
        unfold held. rewrite B. reflexivity.
    - apply changes_fix; [reflexivity|]. intros y E. rewrite G in E. discriminate. }
  destruct U2 as (U2 & (RU2 & RC2 & RI2) & W2).
  pose proof (changes_twice U1 U2 (fun _ => eq_refl)) as U12.
  assert (G1 : get_obj e (st_objs s1) = Some (held (stopped eo now))) by (rewrite (changes_here _ _ _ _ U12), G0; reflexivity).
  assert (F : forall x, o_id (held (stopped x now)) = o_id x /\ o_tko (held (stopped x now)) = o_tko x /\
                        o_subs (held (stopped x now)) = o_subs x).
  { intro x. unfold held. rewrite stopped_spec. destruct (_ && _); auto. }
  destruct (F eo) as (FI & FT & FS).
  destruct (cp_clean p || (o_clean eo && (o_ver eo <? 5))); cbn [negb fst].
  - split; [reflexivity|]. split; [reflexivity|]. split; [reflexivity|].
    pose proof (unsubscribe_client_upd e s1) as U3. pose proof (clear_inflights_upd e (unsubscribe_client e s1)) as U4.
    set (s2 := clear_inflights e (unsubscribe_client e s1)) in *.
    pose proof (changes_modify e with_tko s2 (fun x => eq_refl)) as U5. destruct (modify_reg e with_tko s2) as (RU5 & RC5 & RI5).
    destruct (clear_inflights_reg e (unsubscribe_client e s1)) as (RU4 & RC4 & RI4). fold s2 in RU4, RC4, RI4.
    pose proof (unsubscribe_client_used e s1) as RU3.
    split; [|split; [etransitivity; [exact RU5|]; congruence|split; [etransitivity; [exact RC5|]; rewrite RC4, unsubscribe_client_clients; congruence|split]]].
    + refine (changes_ext _ _ _ _ _ (changes_twice U12 (changes_twice (changes_twice U3 U4 (fun _ => eq_refl)) U5 (fun _ => eq_refl)) (fun _ => eq_refl))).
      intros; reflexivity.
    + etransitivity; [exact RI5|]. etransitivity; [exact RI4|].
      rewrite unsubscribe_client_index, G1, FI, FT, FS, RI2, RI1. reflexivity.
    + etransitivity; [exact (modify_wills e with_tko s2)|]. subst s2. rewrite clear_inflights_wills, unsubscribe_client_wills. congruence.
  - split; [reflexivity|]. split; [reflexivity|]. split; [reflexivity|].
    pose proof (changes_modify e with_tko s1 (fun x => eq_refl)) as U3. destruct (modify_reg e with_tko s1) as (RU3 & RC3 & RI3).
    change (match get_obj e (st_objs s1) with Some x => upd_obj s1 (with_tko x) | None => s1 end) with (modify e with_tko s1).
    set (s2 := modify e with_tko s1) in *.
    set (s2' := set_index s2 (fold_left (fun ix fq => ix_add (o_id n) (fst fq) (snd fq) ix) (o_subs eo) (st_index s2))).
    assert (U3' : changes (at_conn e with_tko) s1 s2') by exact U3.
    pose proof (unsubscribe_client_upd e s2') as U4. pose proof (clear_inflights_upd e (unsubscribe_client e s2')) as U5.
    destruct (clear_inflights_reg e (unsubscribe_client e s2')) as (RU5 & RC5 & RI5).
    pose proof (unsubscribe_client_used e s2') as RU4.
    split; [|split; [cbn in *; congruence|split; [rewrite RC5, unsubscribe_client_clients; cbn; congruence|split]]].
    + refine (changes_ext _ _ _ _ _ (changes_twice U12 (changes_twice U3' (changes_twice U4 U5 (fun _ => eq_refl)) (fun _ => eq_refl)) (fun _ => eq_refl))).
      intros; reflexivity.
    + etransitivity; [exact RI5|]. rewrite unsubscribe_client_index, (changes_here _ _ _ _ U3'), G1.
      cbn [option_map o_tko with_tko]. subst s2'. cbn [st_index set_index]. f_equal. etransitivity; [exact RI3|]. congruence.
    + rewrite clear_inflights_wills, unsubscribe_client_wills. cbn [st_wills set_index]. etransitivity; [exact (modify_wills e with_tko s1)|]. congruence.
Qed.

Definition refusal (c : N) (outs : list out) : Prop :=
  outs = [OClose c] \/ exists code, code <> 0 /\ outs = [OPkt c (PConnack code false); OClose c].

Lemma connack_code_nz ver code : 128 <= code -> connack_code ver code <> 0.
Proof.
  intro H. unfold connack_code, v3_code.
  destruct ((128 <=? code) && (ver <? 5)); [|lia].
  destruct (code =? 132); [lia|]. destruct (code =? 133); [lia|]. destruct (code =? 134); lia.
Qed.

Lemma connect_validate_range p : connect_validate p = 0 \/ connect_validate p = 130.
Proof.
  unfold connect_validate.
  repeat match goal with |- context [if ?b then _ else _] => destruct b end; auto.
Qed.

Lemma validate_connect_range k p : validate_connect k p = 0 \/ 128 <= validate_connect k p.
Proof.
  unfold validate_connect. destruct (connect_validate_range p) as [E|E]; rewrite E; cbn [N.eqb negb].
  - repeat match goal with |- context [if ?b then _ else _] => destruct b end; auto; right; lia.
  - right. cbn. lia.
Qed.

Lemma attach_cases k c now p a e s :
  (fst (attach k c now p a e s) = s /\ refusal c (snd (attach k c now p a e s))) \/
  (a = true /\ cp_trunc p = false /\ validate_connect k p = 0).
Proof.
  unfold attach. destruct (cp_trunc p); [left; split; [reflexivity|left; reflexivity]|].
  destruct (validate_connect_range k p) as [V|V].
  - rewrite V. cbn [N.eqb negb]. destruct a; [right; auto|]. cbn [negb fst snd].
    left. split; [reflexivity|]. right. eexists. split; [|reflexivity]. apply connack_code_nz. lia.
  - destruct (validate_connect k p =? 0) eqn:E; [apply N.eqb_eq in E; lia|]. cbn [negb fst snd].
    left. split; [reflexivity|]. right. eexists. split; [|reflexivity]. apply connack_code_nz, V.
Qed.

(* SendConnack caps the session expiry interval *)
Definition cap_sei (k : caps) (n : cobj) : cobj := if k_maxsei k <? o_sei n then with_sei n (k_maxsei k) true else n.

Lemma cap_sei_fields k n :
  o_conn (cap_sei k n) = o_conn n /\ o_id (cap_sei k n) = o_id n /\ o_tko (cap_sei k n) = o_tko n /\
  o_open (cap_sei k n) = o_open n /\ o_phase (cap_sei k n) = o_phase n /\ o_disc (cap_sei k n) = o_disc n /\
  o_subs (cap_sei k n) = o_subs n /\ o_infl (cap_sei k n) = o_infl n.
Proof. unfold cap_sei. destruct (k_maxsei k <? o_sei n); repeat split. Qed.

Lemma memN_cons c x l : memN c (x :: l) = (c =? x) || memN c l.
Proof. reflexivity. Qed.

Lemma memN_true c l : memN c l = true <-> In c l.
Proof. exact (existsb_eqb_In N.eqb N.eqb_eq c l). Qed.

Lemma memN_app c a b : memN c (a ++ b) = memN c a || memN c b.
Proof. apply existsb_app. Qed.
(* from here on, and in every file that imports this one, membership of a connection number is used only
   through the lemmas above: [cbn] would otherwise unfold it in every goal that mentions [st_used] *)
Global Opaque memN.

Definition is_new_conn (s : state) (o : op) : option N :=
  match o with
  | OConnect c _ _ _ _ | OBadFirst c _ => if memN c (st_used s) then None else Some c
  | _ => None
  end.

Lemma is_new_conn_fresh s o c : is_new_conn s o = Some c -> memN c (st_used s) = false.
Proof.
  destruct o; cbn [is_new_conn]; try discriminate;
  destruct (memN c0 (st_used s)) eqn:M; try discriminate; intro E; inversion E; subst; exact M.
Qed.

Lemma step_new k s o c :
  is_new_conn s o = Some c ->
  memN c (st_used s) = false /\
  ((fst (step k s o) = set_used s (c :: st_used s) /\ refusal c (snd (step k s o))) \/
   exists now p e, o = OConnect c now p true e /\ cp_trunc p = false /\ validate_connect k p = 0 /\
                   step k s o = attach k c now p true e (set_used s (c :: st_used s))).
Proof.
  intro NEW. pose proof (is_new_conn_fresh s o c NEW) as M. split; [exact M|].
  destruct o; cbn [is_new_conn] in NEW; try discriminate;
    destruct (memN c0 (st_used s)); try discriminate; inversion NEW; subst c0; cbn [step]; rewrite M.
  - destruct (attach_cases k c now p auth_ok effid (set_used s (c :: st_used s))) as [A|(-> & T & V)]; [left; exact A|].
    right. exists now, p, effid. auto.
  - left. split; [reflexivity|left; reflexivity].
Qed.

Definition sends_ok (s : state) (outs : list out) : Prop :=
  forall x, In x outs ->
    match x with
    | OPkt c p => is_connack p = false /\ openc s c = true
    | OClose c => hasobj s c = true
    | _ => True
    end.

(* the index has an entry for topic [T] under an identifier registered for connection [c] *)
Definition listed (s : state) (c : N) (T : bytes) : Prop :=
  exists id q, In (id, T, q) (st_index s) /\ aget id (st_clients s) = Some c.

(* [s] is the state before the operation, [s'] the state after it *)
Definition out_ok (s s' : state) (x : out) : Prop :=
  match x with
  | OPkt c (PPublish m d) => d = false /\ openc s c = true /\ listed s c (m_topic m)
  | OPkt c (PDisconnect _) => openc s c = true
  | OPkt _ _ => False
  | OClose c => hasobj s c = true /\ openc s' c = false
  | _ => True
  end.

Definition outs_ok (s s' : state) (outs : list out) : Prop := forall x, In x outs -> out_ok s s' x.

Lemma outs_ok_nil s s' : outs_ok s s' [].
Proof. intros x []. Qed.
Lemma outs_ok_app s s' a b : outs_ok s s' a -> outs_ok s s' b -> outs_ok s s' (a ++ b).
Proof. intros A B x I. apply in_app_or in I. destruct I; [apply A|apply B]; assumption. Qed.
Lemma outs_ok_cons s s' x l : out_ok s s' x -> outs_ok s s' l -> outs_ok s s' (x :: l).
Proof. intros A B y [<-|I]; [exact A|apply B, I]. Qed.

Lemma sends_ok_of s s' outs : outs_ok s s' outs -> sends_ok s outs.
Proof.
  intros K x I. specialize (K x I). destruct x as [c p|c| | | |]; cbn in *; auto; [|tauto].
  destruct p; cbn in *; try contradiction; split; tauto.
Qed.

Lemma sends_ok_set_used s x outs : sends_ok (set_used s x) outs <-> sends_ok s outs.
Proof. split; intros H y I; specialize (H y I); destruct y; exact H. Qed.

Section Rel.
  Variable R : cobj -> cobj -> Prop.

  Definition obj_rel (s s' : state) : Prop :=
    forall c, match get_obj c (st_objs s), get_obj c (st_objs s') with
              | Some o, Some o' => R o o'
              | None, None => True
              | _, _ => False
              end.

  Lemma obj_rel_fwd s s' c o : obj_rel s s' -> get_obj c (st_objs s) = Some o ->
    exists o', get_obj c (st_objs s') = Some o' /\ R o o'.
  Proof.
    intros H G. specialize (H c). rewrite G in H.
    destruct (get_obj c (st_objs s')) as [o'|]; [exists o'; auto|destruct H].
  Qed.

  Lemma obj_rel_back s s' c o' : obj_rel s s' -> get_obj c (st_objs s') = Some o' ->
    exists o, get_obj c (st_objs s) = Some o /\ R o o'.
  Proof.
    intros H G. specialize (H c). rewrite G in H.
    destruct (get_obj c (st_objs s)) as [o|]; [exists o; auto|destruct H].
  Qed.

  Hypothesis R_refl : forall o, R o o.
  Hypothesis R_trans : forall a b c, R a b -> R b c -> R a c.

  Lemma obj_rel_refl s : obj_rel s s.
  Proof. intro c. destruct (get_obj c (st_objs s)); auto. Qed.

  Lemma obj_rel_trans s1 s2 s3 : obj_rel s1 s2 -> obj_rel s2 s3 -> obj_rel s1 s3.
  Proof.
    intros H1 H2 c. specialize (H1 c). specialize (H2 c).
    destruct (get_obj c (st_objs s1)), (get_obj c (st_objs s2)), (get_obj c (st_objs s3)); try contradiction; eauto.
  Qed.

End Rel.
Arguments obj_rel_fwd {R s s' c o}.
Arguments obj_rel_back {R s s' c o'}.

Definition evx (s s' : state) : Prop :=
  (forall c, memN c (st_used s) = true -> memN c (st_used s') = true) /\
  (forall c, hasobj s c = true -> hasobj s' c = true) /\
  (forall c, openc s' c = true -> openc s c = true \/ memN c (st_used s) = false).

Lemma evx_refl s : evx s s.
Proof. repeat split; auto. Qed.

(* so that a fresh connection number has no object: the first field of LifeInv.wf, and all of it that C13 needs *)
Definition objs_used (s : state) : Prop := forall c, hasobj s c = true -> memN c (st_used s) = true.

Lemma objs_used_init : objs_used init.
Proof. intros c H. discriminate. Qed.

Lemma reach (P : state -> Prop) k :
  P init -> (forall s o, P s -> P (fst (step k s o))) -> forall ops, P (fold_left (fun s o => fst (step k s o)) ops init).
Proof. intros I S ops. exact (fold_left_invariant _ P S ops init I). Qed.
