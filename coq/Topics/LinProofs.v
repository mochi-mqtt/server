(* Atomic operations are linearizable — the schedule is the serial order — and [lin_check] decides exactly
   whether some serial order consistent with the per-goroutine orders explains an observation. *)
From MV Require Import Base.Val Topics.Lin.
From Coq Require Import Lia.

Lemma upd_nth_length {A} (l : list A) i x : length (upd_nth l i x) = length l.
Proof. revert i. induction l as [|y l IH]; intros [|i]; cbn; auto. Qed.

Lemma nth_error_upd_same {A} (l : list A) i x : (i < length l)%nat -> nth_error (upd_nth l i x) i = Some x.
Proof. revert i. induction l as [|y l IH]; intros [|i] L; cbn in *; try lia; [reflexivity|]. apply IH. lia. Qed.

Lemma nth_error_upd_other {A} (l : list A) i j x : i <> j -> nth_error (upd_nth l i x) j = nth_error l j.
Proof.
  revert i j. induction l as [|y l IH]; intros [|i] [|j] NE; cbn; try reflexivity; try congruence.
  apply IH. congruence.
Qed.

Lemma upd_nth_twice {A} (l : list A) i x y : upd_nth (upd_nth l i x) i y = upd_nth l i y.
Proof. revert i. induction l as [|z l IH]; intros [|i]; cbn; try reflexivity. rewrite IH. reflexivity. Qed.

Lemma upd_nth_same {A} (l : list A) i d : (i < length l)%nat -> upd_nth l i (nth i l d) = l.
Proof. revert i. induction l as [|z l IH]; intros [|i] L; cbn in *; try lia; [reflexivity|]. rewrite IH by lia. reflexivity. Qed.

Lemma nth_upd_same {A} (l : list A) i x d : (i < length l)%nat -> nth i (upd_nth l i x) d = x.
Proof. intro L. apply nth_error_nth, nth_error_upd_same, L. Qed.

Lemma nth_upd_other {A} (l : list A) i j x d : i <> j -> nth j (upd_nth l i x) d = nth j l d.
Proof. intro NE. rewrite <- !nth_default_eq. unfold nth_default. rewrite nth_error_upd_other by exact NE. reflexivity. Qed.

Lemma nth_error_lt {A} (l : list A) i x : nth_error l i = Some x -> (i < length l)%nat.
Proof. intro H. apply nth_error_Some. congruence. Qed.

Lemma picks_spec {A} (after : list (list A)) : forall before e ths',
  In (e, ths') (picks before after) <->
  exists t th', nth_error after t = Some (e :: th') /\ ths' = before ++ upd_nth after t th'.
Proof.
  induction after as [|th rest IH]; intros before e ths'; cbn [picks].
  - split; [intros []|]. intros ([|t] & th' & H & _); discriminate.
  - destruct th as [|e0 th0].
    + rewrite IH. split.
      * intros (t & th' & H1 & H2). exists (S t), th'. split; [exact H1|]. rewrite H2, <- app_assoc. reflexivity.
      * intros ([|t] & th' & H1 & H2); [discriminate|]. exists t, th'. split; [exact H1|].
        rewrite H2, <- app_assoc. reflexivity.
    + cbn [In]. rewrite IH. split.
      * intros [H|(t & th' & H1 & H2)].
        -- inversion H; subst. exists O, th0. split; reflexivity.
        -- exists (S t), th'. split; [exact H1|]. rewrite H2, <- app_assoc. reflexivity.
      * intros ([|t] & th' & H1 & H2).
        -- cbn in H1. inversion H1; subst. left. reflexivity.
        -- right. exists t, th'. split; [exact H1|]. rewrite H2, <- app_assoc. reflexivity.
Qed.

Lemma picks_total {A} (after : list (list A)) : forall before e ths',
  In (e, ths') (picks before after) -> S (length (concat ths')) = length (concat (before ++ after)).
Proof.
  induction after as [|th rest IH]; intros before e ths' H; cbn [picks] in H; [destruct H|].
  destruct th as [|e0 th0].
  - apply IH in H. rewrite H, <- app_assoc. reflexivity.
  - destruct H as [H|H].
    + inversion H; subst. rewrite !concat_app. cbn [concat]. rewrite !app_length. cbn [length]. lia.
    + apply IH in H. rewrite H, <- app_assoc. reflexivity.
Qed.

Lemma picks_not_all_nil {A} (after : list (list A)) : forall before x, In x (picks before after) -> all_nil after = false.
Proof.
  induction after as [|th rest IH]; intros before x H; cbn [picks] in H; [destruct H|].
  destruct th as [|e0 th0]; [|reflexivity]. cbn. eapply IH. exact H.
Qed.

Lemma interleave_length {A} (ths : list (list A)) l : interleave ths l -> length l = length (concat ths).
Proof.
  induction 1 as [ths H|ths e ths' l H _ IH].
  - induction ths as [|th ths IH]; [reflexivity|]. cbn in H. destruct th; [|discriminate]. cbn. apply IH. exact H.
  - apply picks_total in H. cbn [app length] in *. lia.
Qed.

Section LinP.
  Context {St Op Rv : Type} (step : St -> Op -> St * Rv).

  Theorem sched_serial : forall sched st rest stf restf h,
    run_sched step sched st rest = (stf, restf, h) ->
    seq_run step st (map (fun e => snd (fst e)) h) = (stf, map snd h) /\
    (forall t, proj t h ++ nth t restf [] = nth t rest []) /\
    length restf = length rest.
  Proof.
    induction sched as [|t sc IH]; intros st rest stf restf h H; cbn [run_sched] in H.
    - inversion H; subst. cbn. split; [reflexivity|]. split; [reflexivity|reflexivity].
    - destruct (nth_error rest t) as [[|o os]|] eqn:N; try (apply IH; exact H).
      destruct (step st o) as [st' v] eqn:E.
      destruct (run_sched step sc st' (upd_nth rest t os)) as [[stf' restf'] h'] eqn:R.
      inversion H; subst. destruct (IH _ _ _ _ _ R) as (I1 & I2 & I3). split; [|split].
      + cbn [map fst snd seq_run]. rewrite E, I1. reflexivity.
      + intro t2. cbn [proj]. destruct (Nat.eqb t t2) eqn:Et.
        * apply Nat.eqb_eq in Et. subst t2. cbn [app]. rewrite I2.
          rewrite nth_upd_same by (eapply nth_error_lt; exact N). symmetry. apply nth_error_nth. exact N.
        * apply Nat.eqb_neq in Et. rewrite I2. apply nth_upd_other. exact Et.
      + rewrite I3. apply upd_nth_length.
  Qed.
  Arguments sched_serial {sched st rest stf restf h} _.

  Lemma proj_In t o v (h : list (nat * Op * Rv)) : In (t, o, v) h -> In o (proj t h).
  Proof.
    induction h as [|[[t' o'] v'] h IH]; cbn [proj In]; [tauto|]. intros [E|H].
    - injection E as -> -> ->. rewrite Nat.eqb_refl. left. reflexivity.
    - destruct (Nat.eqb t' t); [right|]; exact (IH H).
  Qed.

  Lemma run_sched_ops sched st rest stf restf h : run_sched step sched st rest = (stf, restf, h) ->
    forall t o v, In (t, o, v) h -> In o (concat rest).
  Proof.
    intros H t o v HI. destruct (sched_serial H) as (_ & P & _).
    assert (HO : In o (nth t rest [])) by (rewrite <- P; apply in_or_app; left; eapply proj_In; exact HI).
    destruct (nth_in_or_default t rest []) as [HN|HN]; [|rewrite HN in HO; destruct HO].
    apply in_concat. eauto.
  Qed.

  Context (reqb : Rv -> Rv -> bool) (final : St -> bool).

  Lemma lin_search_sound : forall fuel st ths, lin_search step reqb final fuel st ths = true ->
    exists l, interleave ths l /\ explains step reqb final st l = true.
  Proof.
    induction fuel as [|fu IH]; intros st ths H; cbn [lin_search] in H; [discriminate|].
    destruct (all_nil ths) eqn:AN.
    - exists []. split; [constructor; exact AN|exact H].
    - apply existsb_exists in H. destruct H as ([[o r] ths'] & HI & H).
      destruct (step st o) as [st' r'] eqn:E. apply andb_true_iff in H. destruct H as [H1 H2].
      destruct (IH _ _ H2) as (l & L1 & L2). exists ((o, r) :: l). split.
      + econstructor; eassumption.
      + cbn [explains]. rewrite E, H1, L2. reflexivity.
  Qed.

  Lemma lin_search_complete : forall ths l, interleave ths l -> forall st fuel,
    explains step reqb final st l = true -> (length l < fuel)%nat -> lin_search step reqb final fuel st ths = true.
  Proof.
    induction 1 as [ths H|ths [o r] ths' l H _ IH]; intros st fuel EX LT.
    - destruct fuel; [lia|]. cbn [lin_search]. rewrite H. exact EX.
    - destruct fuel; [cbn in LT; lia|]. cbn [lin_search]. rewrite (picks_not_all_nil _ _ _ H).
      apply existsb_exists. exists ((o, r), ths'). split; [exact H|].
      cbn [explains] in EX. destruct (step st o) as [st' r'] eqn:E. apply andb_true_iff in EX.
      destruct EX as [E1 E2]. rewrite E1. cbn [andb]. apply IH; [exact E2|cbn in LT; lia].
  Qed.

  Theorem lin_check_spec st ths :
    lin_check step reqb final st ths = true <->
    exists l, interleave ths l /\ explains step reqb final st l = true.
  Proof.
    unfold lin_check. split; [apply lin_search_sound|].
    intros (l & L1 & L2). eapply lin_search_complete; [exact L1|exact L2|].
    rewrite (interleave_length _ _ L1). unfold total_len. lia.
  Qed.

  (* per goroutine, what it saw: its operations with the values they returned *)
  Fixpoint obs_of (n : nat) (h : list (nat * Op * Rv)) : list (list (Op * Rv)) :=
    match h with
    | [] => repeat [] n
    | (t, o, v) :: r => let ob := obs_of n r in upd_nth ob t ((o, v) :: nth t ob [])
    end.

  Lemma obs_of_length n h : length (obs_of n h) = n.
  Proof.
    induction h as [|[[t o] v] h IH]; cbn [obs_of]; [apply repeat_length|]. rewrite upd_nth_length. exact IH.
  Qed.

  Lemma all_nil_repeat {A} n : all_nil (repeat (@nil A) n) = true.
  Proof. induction n; cbn; auto. Qed.

  Lemma nth_repeat_nil {A} n t : nth t (repeat (@nil A) n) [] = [].
  Proof. revert t. induction n; intros [|t]; cbn; auto. Qed.

  Lemma obs_of_proj n h t : (forall t' o v, In (t', o, v) h -> (t' < n)%nat) ->
    map fst (nth t (obs_of n h) []) = proj t h.
  Proof.
    induction h as [|[[t0 o] v] h IH]; intro B; cbn [obs_of proj].
    - rewrite nth_repeat_nil. reflexivity.
    - assert (B' : forall t' o v, In (t', o, v) h -> (t' < n)%nat) by (intros; eapply B; right; eassumption).
      assert (L : (t0 < length (obs_of n h))%nat) by (rewrite obs_of_length; eapply B; left; reflexivity).
      destruct (Nat.eqb t0 t) eqn:E.
      + apply Nat.eqb_eq in E. subst t0. rewrite nth_upd_same by exact L. cbn [map fst]. rewrite IH by exact B'. reflexivity.
      + apply Nat.eqb_neq in E. rewrite nth_upd_other by exact E. apply IH. exact B'.
  Qed.

  Lemma obs_interleave n h : (forall t o v, In (t, o, v) h -> (t < n)%nat) ->
    interleave (obs_of n h) (map (fun e => (snd (fst e), snd e)) h).
  Proof.
    induction h as [|[[t o] v] h IH]; intro B; cbn [obs_of map fst snd].
    - constructor. apply all_nil_repeat.
    - assert (B' : forall t' o v, In (t', o, v) h -> (t' < n)%nat) by (intros; eapply B; right; eassumption).
      assert (L : (t < length (obs_of n h))%nat) by (rewrite obs_of_length; eapply B; left; reflexivity).
      econstructor; [|apply IH; exact B'].
      apply picks_spec. exists t, (nth t (obs_of n h) []). split.
      + apply nth_error_upd_same. exact L.
      + cbn [app]. rewrite upd_nth_twice. symmetry. apply upd_nth_same. exact L.
  Qed.

  Lemma run_sched_bound sched st rest stf restf h : run_sched step sched st rest = (stf, restf, h) ->
    forall t o v, In (t, o, v) h -> (t < length rest)%nat.
  Proof.
    intros H t o v HI. destruct (sched_serial H) as (_ & P & _). apply proj_In in HI.
    destruct (Nat.lt_ge_cases t (length rest)) as [L|L]; [exact L|].
    specialize (P t). rewrite (nth_overflow rest [] L) in P. apply app_eq_nil in P. destruct P as [P _].
    rewrite P in HI. destruct HI.
  Qed.

  Lemma explains_seq_run (reqb_refl : forall r, reqb r r = true) : forall h st stf,
    seq_run step st (map (fun e : nat * Op * Rv => snd (fst e)) h) = (stf, map snd h) ->
    explains step reqb final st (map (fun e => (snd (fst e), snd e)) h) = final stf.
  Proof.
    induction h as [|[[t o] v] h IH]; intros st stf H; cbn [map fst snd seq_run explains] in *.
    - inversion H; subst. reflexivity.
    - destruct (step st o) as [st' v'] eqn:E.
      destruct (seq_run step st' (map (fun e : nat * Op * Rv => snd (fst e)) h)) as [st'' vs] eqn:Sq.
      inversion H; subst. rewrite reqb_refl. cbn [andb]. apply IH. exact Sq.
  Qed.

  Theorem atomic_is_linearizable (reqb_refl : forall r, reqb r r = true) :
    forall sched st prog stf restf h,
    run_sched step sched st prog = (stf, restf, h) -> final stf = true ->
    let obs := obs_of (length prog) h in
    lin_check step reqb final st obs = true /\
    (forall t, map fst (nth t obs []) ++ nth t restf [] = nth t prog []).
  Proof.
    intros sched st prog stf restf h H F obs.
    pose proof (run_sched_bound _ _ _ _ _ _ H) as B.
    destruct (sched_serial H) as (S1 & S2 & _). split.
    - apply lin_check_spec. exists (map (fun e => (snd (fst e), snd e)) h). split.
      + apply obs_interleave. exact B.
      + rewrite (explains_seq_run reqb_refl _ _ _ S1). exact F.
    - intro t. unfold obs. rewrite obs_of_proj by exact B. apply S2.
  Qed.
End LinP.
Arguments sched_serial {St Op Rv} step {sched st rest stf restf h} _.

Section Sim.
  Context {St Ab Op Rv : Type} (ms : St -> Op -> St * Rv) (sp : Ab -> Op -> Ab * Rv).
  Variables (Rel : St -> Ab -> Prop) (ok : Op -> Prop).
  Hypothesis step_sim : forall x a o, Rel x a -> ok o ->
    Rel (fst (ms x o)) (fst (sp a o)) /\ snd (ms x o) = snd (sp a o).

  Lemma seq_run_sim l : forall x a, Rel x a -> Forall ok l ->
    snd (seq_run ms x l) = snd (seq_run sp a l) /\ Rel (fst (seq_run ms x l)) (fst (seq_run sp a l)).
  Proof.
    induction l as [|o l IH]; intros x a HR W; cbn [seq_run]; [split; [reflexivity|exact HR]|].
    inversion W as [|? ? W1 W2]; subst. destruct (step_sim x a o HR W1) as [H1 H2].
    destruct (ms x o) as [x' r]. destruct (sp a o) as [a' r']. cbn [fst snd] in *.
    destruct (IH x' a' H1 W2) as [I1 I2].
    destruct (seq_run ms x' l) as [x'' rs]. destruct (seq_run sp a' l) as [a'' rs']. cbn [fst snd] in *.
    split; [congruence|exact I2].
  Qed.

  Theorem sched_simulation x0 a0 prog sched xf restf h :
    Rel x0 a0 -> Forall ok (concat prog) -> run_sched ms sched x0 prog = (xf, restf, h) ->
    let serial := map (fun e : nat * Op * Rv => snd (fst e)) h in
    (forall t, proj t h ++ nth t restf [] = nth t prog []) /\
    map snd h = snd (seq_run sp a0 serial) /\
    Rel xf (fst (seq_run sp a0 serial)).
  Proof.
    intros HR W H serial. destruct (sched_serial ms H) as (S1 & S2 & _). fold serial in S1.
    assert (Ws : Forall ok serial).
    { rewrite Forall_forall in *. intros o HI. apply in_map_iff in HI. destruct HI as ([[t o'] v] & <- & HI).
      apply W. eapply run_sched_ops; eassumption. }
    destruct (seq_run_sim serial x0 a0 HR Ws) as [E1 E2]. rewrite S1 in E1, E2.
    split; [exact S2|]. split; assumption.
  Qed.
End Sim.
Arguments sched_simulation {St Ab Op Rv} ms sp Rel {ok} step_sim {x0 a0 prog sched xf restf h} _ _ _.
