(* Association lists as finite maps: what al_get returns after al_set / al_del (al_get_set, al_get_del), membership
   of entries and keys, and that set / delete keep the keys unique.  Two notions are defined here and used by the
   Topics and Session proofs: [keys] (the list of keys) and [al_put] (set or delete, by an optional value). *)
From MV Require Import Base.Val Base.ListMisc Topics.Alist.
From Coq Require Import Permutation.

Section ALP.
  Context {K V : Type} {eqb : K -> K -> bool}.
  Hypothesis eqb_eq : forall a b, eqb a b = true <-> a = b.

  Lemma eqb_refl' (a : K) : eqb a a = true.
  Proof. apply eqb_eq. reflexivity. Qed.
  Lemma eqb_neq (a b : K) : a <> b -> eqb a b = false.
  Proof. intro H. destruct (eqb a b) eqn:E; [|reflexivity]. apply eqb_eq in E. contradiction. Qed.
  Lemma eqb_dec (a b : K) : {a = b} + {a <> b}.
  Proof.
    destruct (eqb a b) eqn:E; [left; apply eqb_eq; exact E|right]. intro H. apply eqb_eq in H. congruence.
  Qed.

  Definition keys (l : list (K * V)) : list K := map fst l.

  Lemma al_get_set k k2 v (l : list (K * V)) :
    al_get eqb k2 (al_set eqb k v l) = if eqb k k2 then Some v else al_get eqb k2 l.
  Proof.
    induction l as [|[k' v'] l IH]; cbn; [reflexivity|].
    destruct (eqb k' k) eqn:E; cbn.
    - apply eqb_eq in E. subst k'. destruct (eqb k k2); reflexivity.
    - rewrite IH. destruct (eqb k' k2) eqn:E2, (eqb k k2) eqn:E3; try reflexivity.
      apply eqb_eq in E2, E3. subst. rewrite eqb_refl' in E. discriminate.
  Qed.

  Lemma al_get_del k k2 (l : list (K * V)) :
    al_get eqb k2 (al_del eqb k l) = if eqb k k2 then None else al_get eqb k2 l.
  Proof.
    induction l as [|[k' v'] l IH]; cbn; [destruct (eqb k k2); reflexivity|].
    destruct (eqb k' k) eqn:E; cbn; rewrite IH.
    - apply eqb_eq in E. subst k'. destruct (eqb k k2); reflexivity.
    - destruct (eqb k' k2) eqn:E2, (eqb k k2) eqn:E3; try reflexivity.
      apply eqb_eq in E2, E3. subst. rewrite eqb_refl' in E. discriminate.
  Qed.

  Lemma al_get_set_same k v (l : list (K * V)) : al_get eqb k (al_set eqb k v l) = Some v.
  Proof. rewrite al_get_set, eqb_refl'. reflexivity. Qed.

  Lemma al_get_set_other k k2 v (l : list (K * V)) : k2 <> k -> al_get eqb k2 (al_set eqb k v l) = al_get eqb k2 l.
  Proof. intro NE. rewrite al_get_set, eqb_neq by congruence. reflexivity. Qed.

  (* holds for any eqb, so it is proved directly and not from al_get_del *)
  Lemma al_get_del_same k (l : list (K * V)) : al_get eqb k (al_del eqb k l) = None.
  Proof.
    induction l as [|[k' v'] l IH]; cbn; [reflexivity|].
    destruct (eqb k' k) eqn:E; cbn; [exact IH|]. rewrite E. exact IH.
  Qed.

  Lemma al_get_del_other k k2 (l : list (K * V)) : k2 <> k -> al_get eqb k2 (al_del eqb k l) = al_get eqb k2 l.
  Proof. intro NE. rewrite al_get_del, eqb_neq by congruence. reflexivity. Qed.

  Definition al_put k (v : option V) (l : list (K * V)) : list (K * V) :=
    match v with Some x => al_set eqb k x l | None => al_del eqb k l end.

  Lemma al_get_put k k2 v (l : list (K * V)) : al_get eqb k2 (al_put k v l) = if eqb k k2 then v else al_get eqb k2 l.
  Proof. destruct v; [apply al_get_set|apply al_get_del]. Qed.

  Lemma al_get_In k v (l : list (K * V)) : al_get eqb k l = Some v -> In (k, v) l.
  Proof.
    induction l as [|[k' v'] l IH]; cbn; [discriminate|].
    destruct (eqb k' k) eqn:E.
    - intro H. inversion H; subst. apply eqb_eq in E. subst. left. reflexivity.
    - intro H. right. apply IH. exact H.
  Qed.

  Lemma al_get_None_notin k (l : list (K * V)) : al_get eqb k l = None <-> ~ In k (keys l).
  Proof.
    induction l as [|[k' v'] l IH]; cbn; [tauto|].
    destruct (eqb k' k) eqn:E.
    - apply eqb_eq in E. subst. split; [discriminate|]. intro H. exfalso. apply H. left. reflexivity.
    - rewrite IH. split; intro H; [|tauto]. intros [H1|H1]; [|tauto]. subst. rewrite eqb_refl' in E. discriminate.
  Qed.

  Lemma In_al_get k v (l : list (K * V)) : NoDup (keys l) -> In (k, v) l -> al_get eqb k l = Some v.
  Proof.
    induction l as [|[k' v'] l IH]; cbn; intros ND HI; [contradiction|].
    inversion ND as [|? ? NI ND']; subst. destruct HI as [HI|HI].
    - inversion HI; subst. rewrite eqb_refl'. reflexivity.
    - destruct (eqb k' k) eqn:E.
      + apply eqb_eq in E. subst. exfalso. apply NI. apply (in_map fst) in HI. exact HI.
      + apply IH; assumption.
  Qed.

  Lemma al_get_iff k v (l : list (K * V)) : NoDup (keys l) -> (al_get eqb k l = Some v <-> In (k, v) l).
  Proof. intro ND. split; [apply al_get_In|apply In_al_get; exact ND]. Qed.

  (* Go map lookup: with unique keys the position of an entry does not matter *)
  Lemma al_get_perm (l l' : list (K * V)) k :
    NoDup (keys l) -> Permutation l l' -> al_get eqb k l = al_get eqb k l'.
  Proof.
    intros ND P.
    assert (ND' : NoDup (keys l')) by exact (Permutation_NoDup (Permutation_map fst P) ND).
    destruct (al_get eqb k l) as [v|] eqn:E.
    - symmetry. apply In_al_get; [exact ND'|]. exact (Permutation_in _ P (al_get_In _ _ _ E)).
    - destruct (al_get eqb k l') as [v'|] eqn:E'; [|reflexivity].
      rewrite <- E. apply In_al_get; [exact ND|].
      exact (Permutation_in _ (Permutation_sym P) (al_get_In _ _ _ E')).
  Qed.

  Lemma keys_al_set_in k v (l : list (K * V)) x : In x (keys (al_set eqb k v l)) <-> k = x \/ In x (keys l).
  Proof.
    induction l as [|[k' v'] l IH]; cbn; [tauto|].
    destruct (eqb k' k) eqn:E; cbn.
    - apply eqb_eq in E. subst. tauto.
    - rewrite IH. tauto.
  Qed.

  Lemma NoDup_al_set k v (l : list (K * V)) : NoDup (keys l) -> NoDup (keys (al_set eqb k v l)).
  Proof.
    induction l as [|[k' v'] l IH]; cbn; intro ND.
    - constructor; [intros []|constructor].
    - inversion ND as [|? ? NI ND']; subst. destruct (eqb k' k) eqn:E; cbn.
      + apply eqb_eq in E. subst. constructor; assumption.
      + constructor; [|apply IH; exact ND']. intro HI. apply keys_al_set_in in HI. destruct HI as [HI|HI]; [|tauto].
        subst. rewrite eqb_refl' in E. discriminate.
  Qed.

  Lemma keys_al_del_in k (l : list (K * V)) x : In x (keys (al_del eqb k l)) -> In x (keys l).
  Proof.
    induction l as [|[k' v'] l IH]; cbn; [tauto|].
    destruct (eqb k' k); cbn; tauto.
  Qed.

  Lemma NoDup_al_del k (l : list (K * V)) : NoDup (keys l) -> NoDup (keys (al_del eqb k l)).
  Proof.
    induction l as [|[k' v'] l IH]; cbn; intro ND; [constructor|].
    inversion ND as [|? ? NI ND']; subst. destruct (eqb k' k); cbn; [apply IH; exact ND'|].
    constructor; [|apply IH; exact ND']. intro HI. apply NI. eapply keys_al_del_in. exact HI.
  Qed.

  Lemma NoDup_al_put k v (l : list (K * V)) : NoDup (keys l) -> NoDup (keys (al_put k v l)).
  Proof. destruct v; [apply NoDup_al_set|apply NoDup_al_del]. Qed.

  Lemma al_del_absent k (l : list (K * V)) : al_get eqb k l = None -> al_del eqb k l = l.
  Proof.
    induction l as [|[k' v'] l IH]; cbn; [reflexivity|].
    destruct (eqb k' k); [discriminate|]. intro H. rewrite IH by exact H. reflexivity.
  Qed.

  Lemma In_al_set_inv k v (l : list (K * V)) e : In e (al_set eqb k v l) -> e = (k, v) \/ In e l.
  Proof.
    induction l as [|[k' v'] l IH]; cbn; [intros [<-|[]]; auto|].
    destruct (eqb k' k); cbn; [intros [<-|H]; auto|].
    intros [H|H]; [auto|]. destruct (IH H); auto.
  Qed.

  Lemma In_al_del_inv k (l : list (K * V)) e : In e (al_del eqb k l) -> In e l.
  Proof.
    induction l as [|[k' v'] l IH]; cbn; [tauto|].
    destruct (eqb k' k); cbn; tauto.
  Qed.

  Lemma In_al_set_old k v (l : list (K * V)) k2 v2 : k2 <> k -> In (k2, v2) l -> In (k2, v2) (al_set eqb k v l).
  Proof.
    intro NE. induction l as [|[k' v'] l IH]; cbn; [tauto|].
    destruct (eqb k' k) eqn:E; cbn.
    - apply eqb_eq in E. subst. intros [H|H]; [inversion H; subst; contradiction|right; exact H].
    - tauto.
  Qed.

  Lemma flat_map_key {B} (G : V -> list B) k (l : list (K * V)) : NoDup (keys l) ->
    flat_map (fun e => if eqb k (fst e) then G (snd e) else []) l = match al_get eqb k l with Some v => G v | None => [] end.
  Proof.
    induction l as [|[k' v] l IH]; intro ND; cbn [flat_map al_get fst snd]; [reflexivity|]. inversion ND as [|? ? NI ND']; subst.
    destruct (eqb k' k) eqn:E.
    - apply eqb_eq in E. subst k'. rewrite eqb_refl', flat_map_nil; [apply app_nil_r|].
      intros [k2 v2] HI. cbn [fst]. rewrite eqb_neq; [reflexivity|]. intros <-. apply NI. exact (in_map fst _ _ HI).
    - rewrite eqb_neq by (intros ->; rewrite eqb_refl' in E; discriminate). apply IH, ND'.
  Qed.

  Lemma al_set_nonempty k v (l : list (K * V)) : al_set eqb k v l <> [].
  Proof. destruct l as [|[k' v'] l]; cbn; [discriminate|]. destruct (eqb k' k); discriminate. Qed.

  Lemma al_mem_get k (l : list (K * V)) : al_mem eqb k l = match al_get eqb k l with Some _ => true | None => false end.
  Proof. reflexivity. Qed.
End ALP.
Arguments al_put {K V} eqb k v l.
