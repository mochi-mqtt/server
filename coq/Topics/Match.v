(* MQTT topic matching — the SPECIFICATION (MQTT 5 section 4.7, 4.8.2), written from the standard as in
   DESIGN appendix G, not from topics.go.  The only proof is the evaluation of the examples at the end. *)
From MV Require Import Base.Val Topics.Levels.
Open Scope N_scope.

Definition is_hash (l : level) : bool := beq_bytes l [35].     (* "#" *)
Definition is_plus (l : level) : bool := beq_bytes l [43].     (* "+" *)

Fixpoint lv_match (f t : list level) : bool :=
  match f with
  | [] => match t with [] => true | _ => false end
  | h :: f' =>
      if is_hash h then match f' with [] => true | _ => false end     (* parent and every descendant *)
      else match t with
           | [] => false
           | x :: t' => (is_plus h || beq_bytes h x) && lv_match f' t'   (* '+' = exactly one level *)
           end
  end.

Definition starts_dollar (t : bytes) : bool := match t with c :: _ => c =? 36 | [] => false end.
Definition leading_wild (ls : list level) : bool :=
  match ls with h :: _ => is_hash h || is_plus h | [] => false end.

Definition topic_matches (f t : bytes) : bool :=
  if starts_dollar t && leading_wild (split f) then false else lv_match (split f) (split t).

(* Shared subscriptions, $share/<group>/<filter>.  The broker recognises the share prefix with
   strings.EqualFold(prefix, "$SHARE") (Unicode simple case folding: ASCII case, plus U+017F LATIN SMALL LETTER
   LONG S = C5 BF for 'S').  Which subscriptions are shared is an input of the matching rules, so the same
   predicate is used on the specification side; C30 is about which filters are admitted at all. *)
Fixpoint fold_match (pat : bytes) (s : bytes) : bool :=
  match pat with
  | [] => nilb s
  | p :: pr =>
      match s with
      | [] => false
      | c :: r =>
          if (c =? p) || ((65 <=? p) && (p <=? 90) && (c =? p + 32)) then fold_match pr r
          else if (p =? 83) && (c =? 197)
               then match r with c2 :: r' => (c2 =? 191) && fold_match pr r' | [] => false end
               else false
      end
  end.
Definition is_share_level (l : level) : bool := fold_match [36; 83; 72; 65; 82; 69] l.

Definition is_share (f : bytes) : bool :=
  match split f with h :: _ => is_share_level h | [] => false end.
Definition share_group (f : bytes) : bytes := nth 1 (split f) [].
Definition drop_levels (n : nat) (f : bytes) : bytes := join (skipn n (split f)).
Definition eff_filter (f : bytes) : bytes := if is_share f then drop_levels 2 f else f.   (* $share/<g>/… *)

(* Validity (MQTT 4.7.1, 4.7.3, 4.8.2).  Topic names: at least one character, no wildcard characters. *)
Definition valid_topicb (t : bytes) : bool := negb (nilb t) && negb (has 35 t) && negb (has 43 t).
Definition valid_topic (t : bytes) : Prop := valid_topicb t = true.

Fixpoint levels_ok (ls : list level) : bool :=               (* '#' only as whole last level, '+' only whole levels *)
  match ls with
  | [] => true
  | l :: r => (if has 35 l then is_hash l && nilb r else true) && (if has 43 l then is_plus l else true)
              && levels_ok r
  end.
Definition valid_filter_spec (s : bytes) : bool :=
  negb (nilb s) && levels_ok (split s) &&
  (if is_share s then
     match split s with
     | _ :: g :: (_ :: _) as rest =>
         negb (nilb g) && negb (has 35 g) && negb (has 43 g) && negb (nilb (join (tl (tl (split s)))))
     | _ => false
     end
   else true).
Definition valid_filter (f : bytes) : Prop := valid_filter_spec f = true.

(* checked values of appendix G *)
Example match_examples :
  topic_matches (tag "a/#") (tag "a") = true /\ topic_matches (tag "+/#") (tag "a") = true /\
  topic_matches (tag "a/+") (tag "a") = false /\ topic_matches (tag "a/+") (tag "a/") = true /\
  topic_matches (tag "+") (tag "a/b") = false /\ topic_matches (tag "#") (tag "$SYS/x") = false /\
  topic_matches (tag "+/x") (tag "$foo/x") = false /\ topic_matches (tag "$SYS/#") (tag "$SYS/x") = true /\
  topic_matches (tag "a") (tag "a/b") = false /\ topic_matches (tag "/#") (tag "/") = true /\
  topic_matches (eff_filter (tag "$share/g/a/+")) (tag "a/b") = true /\
  topic_matches (eff_filter (tag "$share/g/+/b")) (tag "$x/b") = false.
Proof. vm_compute. repeat split. Qed.
