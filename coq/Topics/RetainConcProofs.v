(* C05, concurrency dimension: with RetainMessage's set + store as one atomic step, every schedule of retained
   publishes / clears, subscribes, unsubscribes and Messages queries is a serial execution of the map specification;
   the split variant is refuted by a schedule. *)
From MV Require Import Base.Val Topics.IndexSpec Topics.Trie Topics.TrieRefine Topics.TrieSelect Topics.Lin
  Topics.LinProofs Topics.TopicsEngine Topics.InlineConcProofs Topics.RetainConc.
From Coq Require Import Lia Permutation.
Open Scope N_scope.

Lemma countb_perm {A} (eqb : A -> A -> bool) x (l1 l2 : list A) : Permutation l1 l2 -> countb eqb x l1 = countb eqb x l2.
Proof.
  induction 1 as [|y l1 l2 _ IH|y z l|l1 l2 l3 _ IH1 _ IH2]; cbn [countb]; try reflexivity; try lia.
Qed.

Lemma forallb_ext' {A} (f g : A -> bool) l : (forall x, f x = g x) -> forallb f l = forallb g l.
Proof. intro E. induction l as [|y l IH]; cbn; [reflexivity|]. rewrite E, IH. reflexivity. Qed.

Lemma mseqb_perm {A} (eqb : A -> A -> bool) obs (l1 l2 : list A) :
  Permutation l1 l2 -> mseqb eqb obs l1 = mseqb eqb obs l2.
Proof.
  intro P. unfold mseqb. rewrite (Permutation_length P). f_equal.
  apply forallb_ext'. intro x. rewrite (countb_perm eqb x _ _ P). reflexivity.
Qed.

Lemma r_step_R x a r : R x a -> wf_ropb r = true ->
  R (fst (r_model_step x r)) (fst (r_spec_step a r)) /\ snd (r_model_step x r) = snd (r_spec_step a r).
Proof.
  intros HR W. destruct r as [o|f obs]; cbn [r_model_step r_spec_step wf_ropb] in *.
  - apply step_R; assumption.
  - cbn [fst snd]. split; [exact HR|]. rewrite (mseqb_perm beq_bb obs _ _ (messages_perm x a f HR W)). reflexivity.
Qed.

Theorem retain_atomic_all_schedules : forall x0 a0 prog sched xf restf h,
  R x0 a0 -> Forall (fun c => wf_ropb c = true) (concat prog) ->
  run_sched r_model_step sched x0 prog = (xf, restf, h) ->
  let serial := map (fun e : nat * rop * N => snd (fst e)) h in
  (forall t, proj t h ++ nth t restf [] = nth t prog []) /\
  map snd h = snd (seq_run r_spec_step a0 serial) /\
  R xf (fst (seq_run r_spec_step a0 serial)).
Proof. intros x0 a0 prog sched xf restf h. exact (sched_simulation r_model_step r_spec_step R r_step_R). Qed.

(* goroutine 0: retained publish of m on a/b split in set and store; goroutine 1: the client unsubscribes a/b.
   Schedule set, unsubscribe, store: the unsubscribe prunes the still unmarked particle; the exact filter a/b
   still returns the message (Retained map), the wildcard filter a/# never does.  No serial order of the
   specification separates the two filters; the atomic model returns it for both under either schedule. *)
Lemma retain_split_refuted :
  let prog := [[RWalk ab; RStore ab (tag "m")]; [RS (RO (OUnsub (tag "c1") ab))]] in
  (let '(xf, _, _) := run_sched rs_step [0; 1; 0]%nat x_pre prog in
   (messages xf ab, messages xf (tag "a/#"))) = ([(ab, tag "m")], []) /\
  (let '(xf, _, _) := run_sched rs_step [0; 0; 1]%nat x_pre prog in
   (messages xf ab, messages xf (tag "a/#"))) = ([(ab, tag "m")], [(ab, tag "m")]) /\
  (let '(xf, _, _) := run_sched r_model_step [0; 1]%nat x_pre [[RO (ORetain ab (tag "m"))]; [RO (OUnsub (tag "c1") ab)]] in
   (messages xf ab, messages xf (tag "a/#"))) = ([(ab, tag "m")], [(ab, tag "m")]) /\
  (let '(xf, _, _) := run_sched r_model_step [1; 0]%nat x_pre [[RO (ORetain ab (tag "m"))]; [RO (OUnsub (tag "c1") ab)]] in
   (messages xf ab, messages xf (tag "a/#"))) = ([(ab, tag "m")], [(ab, tag "m")]).
Proof. vm_compute. repeat split. Qed.

Lemma retain_split_observation_rejected :
  conc_explainedg r_spec_step a_empty [(RO (OSub (tag "c1") ab 1), 1)]
    [[(RO (ORetain ab (tag "m")), 1)]; [(RO (OUnsub (tag "c1") ab), 1)]]
    [(RMsgs ab [(ab, tag "m")], 1); (RMsgs (tag "a/#") [], 1)] = false /\
  conc_explainedg r_spec_step a_empty [(RO (OSub (tag "c1") ab 1), 1)]
    [[(RO (ORetain ab (tag "m")), 1)]; [(RO (OUnsub (tag "c1") ab), 1)]]
    [(RMsgs ab [(ab, tag "m")], 1); (RMsgs (tag "a/#") [(ab, tag "m")], 1)] = true.
Proof. vm_compute. split; reflexivity. Qed.
