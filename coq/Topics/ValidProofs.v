(* Proofs for C30: the byte-level model of IsValidFilter / IsSharedFilter (Topics/Valid.v) equals
   the level-wise specification for every byte string; the publish clause at the broker level is at the end. *)
From MV Require Export Base.BytesEq.
From MV Require Import Base.Val Topics.Valid Topics.PubValid.
From MV Require Topics.Levels Topics.LevelsProofs.
From Coq Require Import Lia.
Import VLevels.
Open Scope N_scope.

#[local] Arguments N.add : simpl never.
#[local] Arguments N.eqb : simpl never.
#[local] Arguments N.leb : simpl never.

Lemma has_In c l : has c l = true <-> In c l.
Proof.
  unfold has. rewrite existsb_exists. split.
  - intros [x [Hin E]]. apply N.eqb_eq in E. subst x. exact Hin.
  - intro Hin. exists c. split; [exact Hin | apply N.eqb_refl].
Qed.

Lemma has_cons c b l : has c (b :: l) = (c =? b) || has c l.
Proof. reflexivity. Qed.

Lemma contains_has s c : contains_rune s c = has c s.
Proof.
  unfold contains_rune. induction s as [|b r IH]; [reflexivity|].
  cbn [index_byte]. rewrite has_cons, (N.eqb_sym c b).
  destruct (b =? c); [reflexivity|]. cbn [orb]. rewrite <- IH.
  destruct (index_byte c r); reflexivity.
Qed.

(* the levels of this file are those of Levels.v (split_acc and join are the same functions by conversion), so
   what LevelsProofs.v shows of them holds here *)
Lemma split_eq s : split s = Levels.split s.
Proof.
  induction s as [|c r IH]; [reflexivity|]. cbn [split]. rewrite IH.
  destruct (LevelsProofs.split_cons c r) as (l & ls & E & ->). rewrite E. destruct (c =? 47); reflexivity.
Qed.

Lemma split_not_nil s : split s <> [].
Proof. rewrite split_eq. apply LevelsProofs.split_nonempty. Qed.

Lemma split_cons_ex s : exists l ls, split s = l :: ls.
Proof. pose proof (split_not_nil s). destruct (split s) as [|l ls]; [contradiction|eauto]. Qed.

Lemma split_slash r : split (47 :: r) = [] :: split r.
Proof. reflexivity. Qed.

Lemma split_other c r l ls : (c =? 47) = false -> split r = l :: ls -> split (c :: r) = (c :: l) :: ls.
Proof. intros Hc E. cbn [split]. rewrite Hc, E. reflexivity. Qed.

Lemma split_acc_eq s : split_acc s = split s.
Proof. symmetry. apply split_eq. Qed.

Lemma join_split s : join (split s) = s.
Proof. rewrite split_eq. exact (LevelsProofs.join_split s). Qed.

Lemma cut_split s :
  split s = fst (cut s) :: match snd (cut s) with Some r => split r | None => [] end.
Proof.
  induction s as [|c r IH]; [reflexivity|].
  cbn [split cut]. destruct (c =? 47); [reflexivity|].
  rewrite IH. destruct (cut r) as [p n]. reflexivity.
Qed.

Lemma cut_some s p r : cut s = (p, Some r) -> s = (p ++ 47 :: r)%list.
Proof.
  revert p. induction s as [|c s' IH]; intros p H; cbn [cut] in H; [discriminate|].
  destruct (c =? 47) eqn:Hc.
  - apply N.eqb_eq in Hc. inversion H. subst. reflexivity.
  - destruct (cut s') as [p' n'] eqn:E. inversion H. subst. cbn [app]. f_equal. apply IH. reflexivity.
Qed.

Lemma first_nil_bad_next r :
  match split r with l :: _ => nilb l | [] => false end = negb (bad_next r).
Proof.
  destruct r as [|n r']; [reflexivity|].
  cbn [split bad_next]. destruct (n =? 47); [reflexivity|].
  destruct (split_cons_ex r') as [l [ls E]]. rewrite E. reflexivity.
Qed.

Lemma single_nil_level r :
  match split r with l :: ls => nilb l && nilb ls | [] => false end = nilb r.
Proof.
  destruct r as [|n r']; [reflexivity|].
  cbn [split nilb]. destruct (n =? 47).
  - cbn [nilb andb]. destruct (split_cons_ex r') as [l [ls E]]. rewrite E. reflexivity.
  - destruct (split_cons_ex r') as [l [ls E]]. rewrite E. reflexivity.
Qed.

Fixpoint hash_ok (ls : list level) : bool :=
  match ls with
  | [] => true
  | l :: r => (if has 35 l then is_hash l && nilb r else true) && hash_ok r
  end.
Fixpoint plus_ok (ls : list level) : bool :=
  match ls with
  | [] => true
  | l :: r => (if has 43 l then is_plus l else true) && plus_ok r
  end.

Lemma levels_ok_split ls : levels_ok ls = hash_ok ls && plus_ok ls.
Proof.
  induction ls as [|l r IH]; [reflexivity|].
  cbn [levels_ok hash_ok plus_ok]. rewrite IH.
  destruct (if has 35 l then is_hash l && nilb r else true);
  destruct (if has 43 l then is_plus l else true);
  destruct (hash_ok r); destruct (plus_ok r); reflexivity.
Qed.

Lemma is_hash_cons c l : is_hash (c :: l) = (c =? 35) && nilb l.
Proof. unfold is_hash. cbn [beq_bytes]. destruct l; reflexivity. Qed.
Lemma is_plus_cons c l : is_plus (c :: l) = (c =? 43) && nilb l.
Proof. unfold is_plus. cbn [beq_bytes]. destruct l; reflexivity. Qed.

(* prev is the byte before s: when it is not '/', the first level of s continues a level that has a byte already
   and so may not hold the wildcard (the same in plus_loop_levels) *)
Lemma hash_check_levels s : forall prev,
  hash_check prev s =
  match split s with
  | l :: ls => if bad_prev prev then negb (has 35 l) && hash_ok ls else hash_ok (l :: ls)
  | [] => true
  end.
Proof.
  induction s as [|c r IH]; intro prev.
  - cbn. destruct (bad_prev prev); reflexivity.
  - destruct (split_cons_ex r) as [l [ls E]].
    cbn [hash_check]. destruct (c =? 35) eqn:H35.
    + apply N.eqb_eq in H35. subst c.
      rewrite (split_other 35 r l ls eq_refl E).
      cbn [hash_ok]. rewrite has_cons, N.eqb_refl. cbn [orb negb andb].
      destruct (bad_prev prev); [apply andb_false_r|].
      cbn [negb]. rewrite andb_true_r, is_hash_cons, N.eqb_refl. cbn [andb].
      pose proof (single_nil_level r) as S. rewrite E in S. rewrite <- S.
      destruct (nilb l); [|reflexivity]. destruct ls; reflexivity.
    + destruct (c =? 47) eqn:H47.
      * apply N.eqb_eq in H47. subst c. rewrite split_slash, IH, E.
        cbn [bad_prev]. rewrite N.eqb_refl. cbn [negb hash_ok has existsb andb].
        destruct (bad_prev prev); reflexivity.
      * rewrite (split_other c r l ls H47 E), IH, E.
        cbn [bad_prev]. rewrite H47. cbn [negb hash_ok].
        rewrite has_cons, (N.eqb_sym 35 c), H35. cbn [orb].
        rewrite is_hash_cons, H35. cbn [andb].
        destruct (bad_prev prev); [reflexivity|].
        destruct (has 35 l); reflexivity.
Qed.

Lemma plus_loop_levels s : forall prev,
  plus_loop prev s =
  match split s with
  | l :: ls => if bad_prev prev then negb (has 43 l) && plus_ok ls else plus_ok (l :: ls)
  | [] => true
  end.
Proof.
  induction s as [|c r IH]; intro prev.
  - cbn. destruct (bad_prev prev); reflexivity.
  - destruct (split_cons_ex r) as [l [ls E]].
    cbn [plus_loop]. destruct (c =? 43) eqn:H43.
    + apply N.eqb_eq in H43. subst c.
      rewrite (split_other 43 r l ls eq_refl E).
      cbn [plus_ok andb]. rewrite has_cons, N.eqb_refl. cbn [orb negb andb].
      destruct (bad_prev prev); [reflexivity|]. cbn [orb].
      rewrite is_plus_cons, N.eqb_refl. cbn [andb].
      pose proof (first_nil_bad_next r) as F. rewrite E in F.
      destruct (bad_next r).
      * cbn [negb] in F. rewrite F. reflexivity.
      * cbn [negb] in F. rewrite F. rewrite IH, E. cbn [bad_prev].
        replace (43 =? 47) with false by reflexivity. cbn [negb].
        destruct l; [reflexivity|discriminate].
    + cbn [andb]. destruct (c =? 47) eqn:H47.
      * apply N.eqb_eq in H47. subst c. rewrite split_slash, IH, E.
        cbn [bad_prev]. rewrite N.eqb_refl. cbn [negb plus_ok has existsb andb].
        destruct (bad_prev prev); reflexivity.
      * rewrite (split_other c r l ls H47 E), IH, E.
        cbn [bad_prev]. rewrite H47. cbn [negb plus_ok].
        rewrite has_cons, (N.eqb_sym 43 c), H43. cbn [orb].
        rewrite is_plus_cons, H43. cbn [andb].
        destruct (bad_prev prev); [reflexivity|].
        destruct (has 43 l); reflexivity.
Qed.

Lemma levels_ok_model s : levels_ok (split s) = hash_check None s && plus_loop None s.
Proof.
  rewrite levels_ok_split, hash_check_levels, plus_loop_levels.
  destruct (split_cons_ex s) as [l [ls E]]. rewrite E. reflexivity.
Qed.

Lemma fold_lower_2 b b2 r2 :
  fold_lower (b :: b2 :: r2) =
  if (b =? 197) && (b2 =? 191) then 115 :: fold_lower r2 else lower b :: fold_lower (b2 :: r2).
Proof. reflexivity. Qed.

Lemma fold_lower_1 b : fold_lower [b] = [lower b].
Proof. reflexivity. Qed.

Lemma beq_cons x a y b : beq_bytes (x :: a) (y :: b) = (x =? y) && beq_bytes a b.
Proof. reflexivity. Qed.

Lemma lower_lt u b : u < 65 -> (lower b =? u) = (b =? u).
Proof.
  intro Hu. unfold lower. destruct (N.leb_spec 65 b); [|reflexivity]. destruct (N.leb_spec b 90); [|reflexivity].
  cbn [andb]. rewrite !(proj2 (N.eqb_neq _ _)) by lia. reflexivity.
Qed.

Lemma lower_ci u b : 65 <= u <= 90 -> (lower b =? u + 32) = (b =? u) || (b =? u + 32).
Proof.
  intro Hu. unfold lower. destruct (N.leb_spec 65 b), (N.leb_spec b 90); cbn [andb];
    try (rewrite (proj2 (N.eqb_neq b u)) by lia; reflexivity).
  destruct (N.eqb_spec b u) as [->|NE]; [rewrite N.eqb_refl; reflexivity|].
  rewrite !(proj2 (N.eqb_neq _ _)) by lia. reflexivity.
Qed.

(* the two bytes C5 BF of U+017F *)
Lemma long_s b b2 : (b =? 197) && (b2 =? 191) = true -> b = 197 /\ b2 = 191.
Proof. intro C. apply andb_true_iff in C. destruct C as [C1 C2]. apply N.eqb_eq in C1, C2. auto. Qed.

Lemma step_exact u w x : u < 65 ->
  beq_bytes (fold_lower x) (u :: w) =
  match eat_exact u x with Some r => beq_bytes (fold_lower r) w | None => false end.
Proof.
  intro Hu. destruct x as [|b [|b2 r2]]; [reflexivity| |]; unfold eat_exact.
  - rewrite fold_lower_1, beq_cons, (lower_lt _ _ Hu). destruct (b =? u); reflexivity.
  - rewrite fold_lower_2. destruct ((b =? 197) && (b2 =? 191)) eqn:C; rewrite beq_cons.
    + apply long_s in C. destruct C as [-> ->]. rewrite !(proj2 (N.eqb_neq _ u)) by lia. reflexivity.
    + rewrite (lower_lt _ _ Hu). destruct (b =? u); reflexivity.
Qed.

Lemma step_ci u w x : 65 <= u <= 90 -> u <> 83 ->
  beq_bytes (fold_lower x) (u + 32 :: w) =
  match eat_ci u x with Some r => beq_bytes (fold_lower r) w | None => false end.
Proof.
  intros Hu Hs. destruct x as [|b [|b2 r2]]; [reflexivity| |]; unfold eat_ci.
  - rewrite fold_lower_1, beq_cons, (lower_ci _ _ Hu). destruct ((b =? u) || (b =? u + 32)); reflexivity.
  - rewrite fold_lower_2. destruct ((b =? 197) && (b2 =? 191)) eqn:C; rewrite beq_cons.
    + apply long_s in C. destruct C as [-> ->].
      rewrite (proj2 (N.eqb_neq 115 _)), (proj2 (N.eqb_neq 197 u)), (proj2 (N.eqb_neq 197 (u + 32))) by lia. reflexivity.
    + rewrite (lower_ci _ _ Hu). destruct ((b =? u) || (b =? u + 32)); reflexivity.
Qed.

Lemma step_s w x :
  beq_bytes (fold_lower x) (115 :: w) =
  match eat_s x with Some r => beq_bytes (fold_lower r) w | None => false end.
Proof.
  assert (L : forall b, (lower b =? 115) = (b =? 83) || (b =? 115)) by (intro b; apply (lower_ci 83); lia).
  destruct x as [|b [|b2 r2]]; [reflexivity| |]; unfold eat_s.
  - rewrite fold_lower_1, beq_cons, L. destruct ((b =? 83) || (b =? 115)); [reflexivity|].
    destruct (b =? 197); reflexivity.
  - rewrite fold_lower_2. destruct ((b =? 197) && (b2 =? 191)) eqn:C; rewrite beq_cons.
    + apply long_s in C. destruct C as [-> ->]. reflexivity.
    + rewrite L. destruct ((b =? 83) || (b =? 115)); [reflexivity|]. cbn [andb].
      destruct (b =? 197); [|reflexivity]. cbn [andb] in C. rewrite C. reflexivity.
Qed.

Lemma step_end x : beq_bytes (fold_lower x) [] = match x with [] => true | _ => false end.
Proof.
  destruct x as [|b [|b2 r2]]; [reflexivity|reflexivity|].
  rewrite fold_lower_2. destruct ((b =? 197) && (b2 =? 191)); reflexivity.
Qed.

Lemma equal_fold_share_spec x : equal_fold_share x = share_word x.
Proof.
  unfold share_word, equal_fold_share.
  change (bytes_of_string "$share") with [36; 83 + 32; 72 + 32; 65 + 32; 82 + 32; 69 + 32].
  change (83 + 32) with 115.
  rewrite (step_exact 36) by lia. destruct (eat_exact 36 x) as [r1|]; [|reflexivity]. cbn [obind].
  rewrite step_s. destruct (eat_s r1) as [r2|]; [|reflexivity]. cbn [obind].
  rewrite (step_ci 72) by lia. destruct (eat_ci 72 r2) as [r3|]; [|reflexivity]. cbn [obind].
  rewrite (step_ci 65) by lia. destruct (eat_ci 65 r3) as [r4|]; [|reflexivity]. cbn [obind].
  rewrite (step_ci 82) by lia. destruct (eat_ci 82 r4) as [r5|]; [|reflexivity]. cbn [obind].
  rewrite (step_ci 69) by lia. destruct (eat_ci 69 r5) as [r6|]; [|reflexivity].
  rewrite step_end. destruct r6; reflexivity.
Qed.

Lemma isolate0 s : isolate_particle 0 s = (first_level s, match snd (cut s) with Some _ => true | None => false end).
Proof.
  unfold first_level. rewrite cut_split. cbn [isolate_particle].
  destruct (cut s) as [p [rest|]]; reflexivity.
Qed.

Theorem shared_model_is_spec : forall s, is_shared_filter s = is_share s.
Proof.
  intro s. unfold is_shared_filter, is_share. rewrite isolate0. cbn [fst]. apply equal_fold_share_spec.
Qed.

Theorem topic_model_is_spec : forall s, is_valid_filter s true = valid_pub_topic_spec s.
Proof.
  intro s. unfold is_valid_filter, valid_pub_topic_spec. cbn [negb andb].
  rewrite !contains_has.
  destruct (prefixb (bytes_of_string "$SYS") s); destruct (has 35 s); destruct (has 43 s); reflexivity.
Qed.

Theorem filter_model_is_spec : forall s, is_valid_filter s false = valid_filter_spec s.
Proof.
  intro s. unfold is_valid_filter, valid_filter_spec, valid_filter_spec_gen. cbn [negb andb].
  destruct s as [|c0 s0]; [reflexivity|]. set (s := c0 :: s0). cbn [nilb negb andb].
  rewrite levels_ok_model.
  destruct (hash_check None s); [|reflexivity]. destruct (plus_loop None s); [|reflexivity].
  cbn [negb andb]. rewrite isolate0. unfold is_share. rewrite equal_fold_share_spec.
  destruct (share_word (first_level s)) eqn:SW.
  2:{ rewrite !andb_false_r. reflexivity. }
  rewrite !andb_true_r. rewrite cut_split.
  assert (I1 : isolate_particle 1 s =
               match snd (cut s) with Some rest => isolate_particle 0 rest | None => (fst (cut s), false) end).
  { cbn [isolate_particle]. destruct (cut s) as [p [rest|]]; reflexivity. }
  destruct (cut s) as [p [rest|]] eqn:CS; cbn [snd fst negb] in *.
  2:{ reflexivity. }
  rewrite I1. cbn [isolate_particle]. rewrite (cut_split rest).
  destruct (cut rest) as [g [r2|]] eqn:CR; cbn [snd fst negb orb].
  2:{ reflexivity. }
  destruct (split_cons_ex r2) as [l3 [ls3 E3]]. rewrite E3, <- E3, join_split.
  rewrite !contains_has.
  assert (L : (N.of_nat (length s) =? N.of_nat (length p) + N.of_nat (length g) + 2) = nilb r2).
  { apply cut_some in CS. apply cut_some in CR. rewrite CS, CR. rewrite !app_length. cbn [length].
    rewrite app_length. cbn [length]. destruct r2; cbn [length nilb]; [apply N.eqb_eq|apply N.eqb_neq]; lia. }
  assert (FL : first_level s = p) by (unfold first_level; rewrite cut_split, CS; reflexivity).
  assert (Hn : nilb s = false) by reflexivity.
  rewrite FL, L, Hn. cbn [negb andb].
  destruct (nilb g); destruct (nilb r2); destruct (has 43 g); destruct (has 35 g); reflexivity.
Qed.

Lemma share_lit_is_share s : is_share_lit s = true -> is_share s = true.
Proof.
  unfold is_share_lit, is_share. intro H. apply beq_bytes_eq in H. rewrite H. reflexivity.
Qed.

Theorem filter_model_is_literal_spec : forall s,
  share_case_variant s = false -> is_valid_filter s false = valid_filter_spec_lit s.
Proof.
  intros s H. rewrite filter_model_is_spec. unfold valid_filter_spec, valid_filter_spec_lit.
  unfold share_case_variant in H.
  destruct (is_share_lit s) eqn:L.
  - rewrite (share_lit_is_share s L). reflexivity.
  - rewrite andb_true_r in H. rewrite H. reflexivity.
Qed.

Lemma is_hash_eq l : is_hash l = true <-> l = [35].
Proof. apply beq_bytes_eq. Qed.
Lemma is_plus_eq l : is_plus l = true <-> l = [43].
Proof. apply beq_bytes_eq. Qed.
Lemma nilb_eq {A} (l : list A) : nilb l = true <-> l = [].
Proof. destruct l; split; intro H; try reflexivity; discriminate. Qed.

Definition levels_ok_prop (ls : list level) : Prop :=
  forall pre l post, ls = (pre ++ l :: post)%list ->
    (In 35 l -> l = [35] /\ post = []) /\ (In 43 l -> l = [43]).

Theorem levels_ok_iff ls : levels_ok ls = true <-> levels_ok_prop ls.
Proof.
  unfold levels_ok_prop. induction ls as [|l0 r IH].
  - split; [|reflexivity]. intros _ pre l post E. destruct pre; discriminate.
  - cbn [levels_ok]. rewrite !andb_true_iff. split.
    + intros [[Hh Hp] Hr] pre l post E. destruct pre as [|x pre'].
      * cbn [app] in E. inversion E. subst l0 r. split.
        -- intro Hin. apply has_In in Hin. rewrite Hin in Hh. apply andb_true_iff in Hh.
           destruct Hh as [H1 H2]. split; [apply is_hash_eq; exact H1 | apply nilb_eq; exact H2].
        -- intro Hin. apply has_In in Hin. rewrite Hin in Hp. apply is_plus_eq. exact Hp.
      * cbn [app] in E. inversion E. subst x r. apply (proj1 IH Hr pre' l post eq_refl).
    + intro H. split; [split|].
      * destruct (has 35 l0) eqn:Hh; [|reflexivity]. apply has_In in Hh.
        destruct (H [] l0 r eq_refl) as [H1 _]. destruct (H1 Hh) as [-> ->]. reflexivity.
      * destruct (has 43 l0) eqn:Hp; [|reflexivity]. apply has_In in Hp.
        destruct (H [] l0 r eq_refl) as [_ H2]. rewrite (H2 Hp). reflexivity.
      * apply IH. intros pre l post E. apply (H (l0 :: pre) l post). rewrite E. reflexivity.
Qed.

(* The broker-level publish clause of C30 (Topics/PubValid.v): for every history of PUBLISH packets on a
   connection, by whatever route the topic name arrives, the model of processPublish never routes, retains
   or binds an alias to a name the specification refuses, and its observations satisfy the specification
   monitor. *)
#[local] Arguments N.ltb : simpl never.

Definition good_name (n : bytes) : Prop := valid_pub_topic_spec n = true /\ n <> [].
Definition tab_good (tab : atab) : Prop := Forall (fun kv => good_name (snd kv)) tab.

Lemma alookup_Forall (P : bytes -> Prop) tab a v : Forall (fun kv => P (snd kv)) tab -> alookup tab a = Some v -> P v.
Proof.
  induction tab as [|[k w] r IH]; intros G H; [discriminate|].
  inversion G as [|? ? Gw Gr]. subst. cbn [alookup] in H.
  destruct (k =? a); [inversion H; subst; exact Gw | exact (IH Gr H)].
Qed.

Lemma nilb_false_ne {A} (l : list A) : nilb l = false -> l <> [].
Proof. destruct l; [discriminate | intros _ E; discriminate]. Qed.

(* the aliases are in use: the PUBLISH carries one and the broker accepts them *)
Definition aliased (smax : N) (e : pev) : bool := (0 <? e_alias e) && negb (smax =? 0).

(* the name processPublish goes on with: the topic name, or what the alias resolves to *)
Definition designated (smax : N) (tab : atab) (e : pev) : option bytes :=
  if nilb (e_topic e) then (if aliased smax e then alookup tab (e_alias e) else None) else Some (e_topic e).

Lemma model_step_eq smax tab e :
  model_step smax tab e =
  if has 43 (e_topic e) || has 35 (e_topic e) then (MAliasInvalid, tab)
  else if negb (valid_pub_topic_spec (e_topic e)) then (MRefused, tab)
  else (match designated smax tab e with
        | Some v => if nilb v then MAliasInvalid else MRouted v
        | None => MAliasInvalid
        end,
        if aliased smax e && negb (nilb (e_topic e)) then (e_alias e, e_topic e) :: tab else tab).
Proof.
  unfold model_step, designated, aliased, inbound_set. rewrite topic_model_is_spec, !contains_has.
  destruct (has 43 (e_topic e) || has 35 (e_topic e)); [reflexivity|].
  destruct (valid_pub_topic_spec (e_topic e)); [|reflexivity]. cbn [negb].
  destruct (0 <? e_alias e), (smax =? 0), (nilb (e_topic e)) eqn:NB; cbn [andb negb]; rewrite ?NB; try reflexivity.
  destruct (alookup tab (e_alias e)) as [v|]; [destruct (nilb v)|]; reflexivity.
Qed.

Lemma model_step_good smax tab e m tab' :
  tab_good tab -> model_step smax tab e = (m, tab') ->
  tab_good tab' /\ (forall name, m = MRouted name -> good_name name).
Proof.
  intros G. rewrite model_step_eq.
  destruct (has 43 (e_topic e) || has 35 (e_topic e)); [intro H; injection H as <- <-; split; [exact G|discriminate]|].
  destruct (valid_pub_topic_spec (e_topic e)) eqn:V; [|intro H; injection H as <- <-; split; [exact G|discriminate]].
  cbn [negb]. intro H. injection H as <- <-. unfold designated. destruct (nilb (e_topic e)) eqn:NB.
  - rewrite andb_false_r. split; [exact G|]. intros name.
    destruct (aliased smax e); [|discriminate]. destruct (alookup tab (e_alias e)) as [v|] eqn:L; [|discriminate].
    destruct (nilb v); [discriminate|]. intro E. injection E as <-. exact (alookup_Forall good_name _ _ _ G L).
  - assert (GN : good_name (e_topic e)) by (split; [exact V|apply nilb_false_ne, NB]). rewrite NB. split.
    + destruct (aliased smax e); [constructor|]; assumption.
    + intros name E. injection E as <-. exact GN.
Qed.

Definition obs_names_good (o : pobs) : Prop :=
  forall n, In n (o_published o) \/ In n (o_retained o) \/ In n (o_spy o) -> good_name n.

Lemma model_obs_good ver e m : (forall name, m = MRouted name -> good_name name) -> obs_names_good (model_obs ver e m).
Proof.
  intros H n Hin. destruct m as [name| |]; cbn [model_obs o_published o_retained o_spy] in Hin.
  - assert (E : n = name).
    { destruct Hin as [[E|[]]|[Hr|[E|[]]]]; try (symmetry; exact E).
      destruct (e_retain e); [destruct Hr as [E|[]]; symmetry; exact E | destruct Hr]. }
    subst n. apply H. reflexivity.
  - destruct Hin as [[]|[[]|[]]].
  - destruct Hin as [[]|[[]|[]]].
Qed.

Theorem model_never_invalid : forall ver smax es tab,
  tab_good tab -> Forall (fun eo => obs_names_good (snd eo)) (model_run ver smax tab es).
Proof.
  intros ver smax es. induction es as [|e r IH]; intros tab G; [constructor|].
  cbn [model_run]. destruct (model_step smax tab e) as [m tab'] eqn:S.
  destruct (model_step_good smax tab e m tab' G S) as [G' Hm].
  constructor; [cbn [snd]; apply model_obs_good; exact Hm | apply IH; exact G'].
Qed.

Lemma is_single_refl n : is_single n [n] = true.
Proof. cbn [is_single]. apply beq_bytes_refl. Qed.

(* the acknowledgement of model_obs is the one obs_ok asks of an accepted message *)
Lemma ack_ok q :
  (if 0 <? q then ((if q =? 0 then 0 else if q =? 1 then 4 else 5) =? (if q =? 1 then 4 else 5)) && (0 <? 128)
   else (if q =? 0 then 0 else if q =? 1 then 4 else 5) =? 0) = true.
Proof. destruct q as [|p]; [reflexivity|]. destruct (N.pos p =? 1) eqn:E; rewrite ?E; reflexivity. Qed.

Lemma model_step_spec smax tab e : smax <> 0 -> Forall (fun kv => snd kv <> []) tab ->
  let (m, tab') := model_step smax tab e in
  let (oc, stab') := spec_step tab e in
  tab' = stab' /\ Forall (fun kv => snd kv <> []) tab' /\
  forall ver, obs_ok ver e oc (model_obs ver e m) = true.
Proof.
  intros Hs NE. apply N.eqb_neq in Hs. rewrite model_step_eq. unfold spec_step, designated, aliased. rewrite Hs, andb_true_r.
  assert (ROUTED : forall ver name, obs_ok ver e (Accept name) (model_obs ver e (MRouted name)) = true).
  { intros ver name. cbn [obs_ok model_obs o_published o_retained o_spy o_closed o_ack o_reason].
    rewrite is_single_refl. cbn [all_eq forallb]. rewrite beq_bytes_refl.
    destruct (e_retain e); cbn [nilb andb negb]; rewrite ?is_single_refl; cbn [andb]; apply ack_ok. }
  destruct (has 43 (e_topic e) || has 35 (e_topic e)) eqn:W.
  { (* a wildcard: the specification refuses the name, the connection is closed, nothing is routed *)
    assert (V : valid_pub_topic_spec (e_topic e) = false).
    { unfold valid_pub_topic_spec. destruct (has 35 (e_topic e)); [reflexivity|].
      destruct (has 43 (e_topic e)); [reflexivity | discriminate]. }
    assert (NB : nilb (e_topic e) = false) by (destruct (e_topic e); [discriminate|reflexivity]).
    rewrite NB, V. split; [reflexivity|]. split; [exact NE|]. intro ver. reflexivity. }
  destruct (nilb (e_topic e)) eqn:NB.
  - (* no name: the alias decides *)
    destruct (e_topic e) as [|c t]; [|discriminate]. change (valid_pub_topic_spec []) with true. cbn [negb].
    rewrite andb_false_r. destruct (0 <? e_alias e); [|repeat split; exact NE].
    destruct (alookup tab (e_alias e)) as [v|] eqn:L; [|repeat split; exact NE].
    destruct v as [|b v]; [destruct (alookup_Forall (fun n => n <> []) _ _ _ NE L eq_refl)|].
    split; [reflexivity|]. split; [exact NE|intro ver; apply ROUTED].
  - destruct (valid_pub_topic_spec (e_topic e)); cbn [negb].
    + rewrite NB, andb_true_r. split; [reflexivity|]. split; [|intro ver; apply ROUTED].
      destruct (0 <? e_alias e); [constructor; [apply nilb_false_ne, NB|]|]; exact NE.
    + split; [reflexivity|]. split; [exact NE|]. intro ver.
      cbn [obs_ok model_obs o_published o_retained o_spy o_ack o_reason nilb andb].
      destruct ((0 <? (if e_qos e =? 0 then 0 else if e_qos e =? 1 then 4 else 5)) && (5 <=? ver)); reflexivity.
Qed.

Theorem model_satisfies_monitor : forall ver smax es tab,
  smax <> 0 -> Forall (fun kv => snd kv <> []) tab ->
  fst (monitor ver tab (model_run ver smax tab es)) = true /\ corr ver smax tab (model_run ver smax tab es) = true.
Proof.
  intros ver smax es. induction es as [|e r IH]; intros tab Hs NE; [split; reflexivity|].
  pose proof (model_step_spec smax tab e Hs NE) as S.
  cbn [model_run monitor corr]. destruct (model_step smax tab e) as [m tab'] eqn:MS.
  cbn [monitor corr]. rewrite MS. destruct (spec_step tab e) as [oc stab'].
  destruct S as [E [NE' OK]]. subst stab'.
  destruct (IH tab' Hs NE') as [IH1 IH2].
  destruct (monitor ver tab' (model_run ver smax tab' r)) as [ok ret]. cbn [fst] in *.
  split.
  - rewrite OK, IH1. reflexivity.
  - rewrite IH2, andb_true_r. unfold obs_eq, lists_eq.
    rewrite !N.eqb_refl, Bool.eqb_reflx. cbn [andb]. rewrite !andb_true_r.
    assert (R : forall l : list bytes, forallb (fun p => beq_bytes (fst p) (snd p)) (combine l l) = true).
    { induction l as [|x l IHl]; [reflexivity|]. cbn [combine forallb fst snd]. rewrite beq_bytes_refl. exact IHl. }
    rewrite !R. reflexivity.
Qed.
