(* The refinement relation between the particle tree (as the map [content_at]) and the abstract
   sets / map of IndexSpec.v, one clause per kind of entry, how each clause follows a point update, and where
   an entry of the tree sits (Rkey_at, Rsh_at, Rrp_at: the form in which the queries use the clauses). *)
From MV Require Import Base.Val Topics.Levels Topics.LevelsProofs Topics.Match Topics.Alist Topics.AlistProofs
  Topics.IndexSpec Topics.Trie Topics.TrieInv.
From Coq Require Import Lia.
Open Scope N_scope.

(* beq_pair, beq_npair and beq_triple all compare a key and a byte string *)
Lemma keyed_eqb_eq {K} (eqb : K -> K -> bool) (peqb : K * bytes -> K * bytes -> bool) :
  (forall a b, eqb a b = true <-> a = b) ->
  (forall a b, peqb a b = eqb (fst a) (fst b) && beq_bytes (snd a) (snd b)) ->
  forall a b, peqb a b = true <-> a = b.
Proof.
  intros eqb_eq peqb_def [a1 a2] [b1 b2]. rewrite peqb_def. cbn [fst snd]. rewrite andb_true_iff, eqb_eq, beq_bytes_eq.
  split; [intros [-> ->]; reflexivity|intro H; injection H; auto].
Qed.

Lemma beq_pair_eq a b : beq_pair a b = true <-> a = b.
Proof. exact (keyed_eqb_eq beq_bytes beq_pair beq_bytes_eq (fun _ _ => eq_refl) a b). Qed.
Lemma beq_triple_eq a b : beq_triple a b = true <-> a = b.
Proof. exact (keyed_eqb_eq beq_pair beq_triple beq_pair_eq (fun _ _ => eq_refl) a b). Qed.
Lemma beq_npair_eq a b : beq_npair a b = true <-> a = b.
Proof. exact (keyed_eqb_eq N.eqb beq_npair N.eqb_eq (fun _ _ => eq_refl) a b). Qed.

Lemma beq_levels_false p q : beq_levels p q = false <-> p <> q.
Proof. rewrite <- beq_levels_eq. destruct (beq_levels p q); split; congruence. Qed.

Lemma beq_levels_split a b : beq_levels (split a) (split b) = beq_bytes b a.
Proof.
  destruct (beq_bytes b a) eqn:E.
  - apply beq_bytes_eq in E. subst. apply beq_levels_refl.
  - apply beq_levels_false. intro H. apply split_inj in H. subst. rewrite beq_bytes_refl in E. discriminate.
Qed.

Definition cfun := list level -> content.

Definition sub_of (e : bytes * N) : sub := mkSub (fst e) (snd e).

Definition Rcl (cf : cfun) (acl : list ((bytes * bytes) * N)) : Prop :=
  (forall c f, al_get beq_bytes c (c_subs (cf (split f))) = option_map (mkSub f) (al_get beq_pair (c, f) acl)) /\
  (forall p c s, al_get beq_bytes c (c_subs (cf p)) = Some s -> p = split (sub_filter s)).

Definition Rin (cf : cfun) (ain : list ((N * bytes) * N)) : Prop :=
  (forall id f, al_get N.eqb id (c_inline (cf (split f))) = option_map (mkSub f) (al_get beq_npair (id, f) ain)) /\
  (forall p id s, al_get N.eqb id (c_inline (cf p)) = Some s -> p = split (sub_filter s)).

Definition share_ok (g : bytes) (p : list level) (full : bytes) : Prop :=
  is_share full = true /\ (2 < length (split full))%nat /\ share_group full = g /\ p = skipn 2 (split full).

Definition Rsh (cf : cfun) (ash : list ((bytes * bytes * bytes) * (bytes * N))) : Prop :=
  (forall c g i, sh_get g c (c_shared (cf (split i))) = option_map sub_of (al_get beq_triple (c, g, i) ash)) /\
  (forall p g c s, sh_get g c (c_shared (cf p)) = Some s -> share_ok g p (sub_filter s)).

(* There is no converse clause (a particle with a retainPath has a stored message): expire_retained
   deletes the stored message and leaves the retainPath in the tree. *)
Definition Rrp (cf : cfun) (ret : list (bytes * bytes)) : Prop :=
  (forall t pl, al_get beq_bytes t ret = Some pl -> c_retain (cf (split t)) = t /\ t <> []) /\
  (forall p, c_retain (cf p) <> [] -> p = split (c_retain (cf p))).

(* Rcl = Rkey beq_bytes beq_pair c_subs and Rin = Rkey N.eqb beq_npair c_inline, by unfolding *)
Section Keyed.
  Context {K : Type} (eqb : K -> K -> bool) (peqb : K * bytes -> K * bytes -> bool).
  Hypothesis eqb_eq : forall a b, eqb a b = true <-> a = b.
  Hypothesis peqb_def : forall a b, peqb a b = eqb (fst a) (fst b) && beq_bytes (snd a) (snd b).
  Variable field : content -> list (K * sub).

  Definition Rkey (cf : cfun) (al : list ((K * bytes) * N)) : Prop :=
    (forall k f, al_get eqb k (field (cf (split f))) = option_map (mkSub f) (al_get peqb (k, f) al)) /\
    (forall p k s, al_get eqb k (field (cf p)) = Some s -> p = split (sub_filter s)).

  Lemma Rkey_other r r' p F al :
    upd r r' p F -> (forall c, field (F c) = field c) -> Rkey (content_at r) al -> Rkey (content_at r') al.
  Proof.
    intros U H [A B]. pose proof (upd_other field U H) as E.
    split; intros; [rewrite E; apply A|eapply B; rewrite <- E; eassumption].
  Qed.

  Lemma Rkey_put r r' F al k0 f0 (v : option N) :
    upd r r' (split f0) F -> (forall c, field (F c) = al_put eqb k0 (option_map (mkSub f0) v) (field c)) ->
    Rkey (content_at r) al -> Rkey (content_at r') (al_put peqb (k0, f0) v al).
  Proof.
    intros U H [A B]. pose proof (upd_field field _ U H) as E. split.
    - intros k f. rewrite E, beq_levels_split, al_get_put by exact (keyed_eqb_eq eqb peqb eqb_eq peqb_def).
      rewrite peqb_def. cbn [fst snd]. destruct (beq_bytes f0 f) eqn:Ef.
      + apply beq_bytes_eq in Ef. subst f0. rewrite al_get_put, andb_true_r by exact eqb_eq.
        destruct (eqb k0 k); [reflexivity|apply A].
      + rewrite andb_false_r. apply A.
    - intros p k s. rewrite E. destruct (beq_levels p (split f0)) eqn:Ep; [|apply B].
      apply beq_levels_eq in Ep. subst p. rewrite al_get_put by exact eqb_eq. destruct (eqb k0 k); [|apply B].
      destruct v; [intro S; injection S as <-; reflexivity|discriminate].
  Qed.

  Lemma Rkey_mem cf al k f :
    Rkey cf al -> omem (al_get eqb k (field (cf (split f)))) = al_mem peqb (k, f) al.
  Proof. intros [A _]. rewrite A. unfold al_mem. destruct (al_get peqb (k, f) al); reflexivity. Qed.

  Lemma Rkey_at cf al q k f pay : Rkey cf al ->
    (al_get eqb k (field (cf q)) = Some (mkSub f pay) <-> q = split f /\ al_get peqb (k, f) al = Some pay).
  Proof.
    intros [A B]. split.
    - intro H. pose proof (B _ _ _ H) as Q. cbn [sub_filter] in Q. subst q. split; [reflexivity|].
      rewrite A in H. destruct (al_get peqb (k, f) al); [|discriminate]. injection H as ->. reflexivity.
    - intros [-> H]. rewrite A, H. reflexivity.
  Qed.
End Keyed.
Arguments Rkey_other {K eqb peqb field r r' p F al}.
Arguments Rkey_mem {K eqb peqb field cf al} k f.
Arguments Rkey_at {K eqb peqb field cf al} q k f pay.

Definition Rcl_put := Rkey_put beq_bytes beq_pair beq_bytes_eq (fun _ _ => eq_refl) c_subs.
Definition Rin_put := Rkey_put N.eqb beq_npair N.eqb_eq (fun _ _ => eq_refl) c_inline.
Arguments Rcl_put {r r' F al k0 f0} v.
Arguments Rin_put {r r' F al k0 f0} v.

Lemma Rsh_other r r' p F ash :
  upd r r' p F -> (forall c, c_shared (F c) = c_shared c) -> Rsh (content_at r) ash -> Rsh (content_at r') ash.
Proof.
  intros U H [A B]. pose proof (upd_other c_shared U H) as E.
  split; intros; [rewrite E; apply A|eapply B; rewrite <- E; eassumption].
Qed.
Arguments Rsh_other {r r' p F ash}.

Lemma Rsh_put r r' F ash c0 g0 i0 v :
  (forall f0 pay, v = Some (f0, pay) -> share_ok g0 (split i0) f0) ->
  upd r r' (split i0) F -> (forall c, c_shared (F c) = sh_put g0 c0 (option_map sub_of v) (c_shared c)) ->
  Rsh (content_at r) ash -> Rsh (content_at r') (al_put beq_triple (c0, g0, i0) v ash).
Proof.
  intros OK U H [A B]. pose proof (upd_field c_shared _ U H) as E. split.
  - intros c g i. rewrite E, beq_levels_split, al_get_put by exact beq_triple_eq.
    unfold beq_triple at 1, beq_pair. cbn [fst snd]. destruct (beq_bytes i0 i) eqn:Ei.
    + apply beq_bytes_eq in Ei. subst i0. rewrite sh_get_put, andb_true_r, (andb_comm (beq_bytes c0 c)).
      destruct (beq_bytes g0 g && beq_bytes c0 c); [reflexivity|apply A].
    + rewrite andb_false_r. apply A.
  - intros p g c s. rewrite E. destruct (beq_levels p (split i0)) eqn:Ep; [|apply B].
    apply beq_levels_eq in Ep. subst p. rewrite sh_get_put.
    destruct (beq_bytes g0 g && beq_bytes c0 c) eqn:E2; [|apply B].
    apply andb_true_iff in E2. destruct E2 as [E2 _]. apply beq_bytes_eq in E2. subst g.
    destruct v as [[f0 pay]|]; [|discriminate]. intro S. injection S as <-. exact (OK _ _ eq_refl).
Qed.
Arguments Rsh_put {r r' F ash c0 g0 i0} v.

Lemma Rsh_mem cf ash c g i :
  Rsh cf ash -> omem (sh_get g c (c_shared (cf (split i)))) = al_mem beq_triple (c, g, i) ash.
Proof. intros [A _]. rewrite A. unfold al_mem. destruct (al_get beq_triple (c, g, i) ash); reflexivity. Qed.

Lemma eff_split f : is_share f = true -> (2 < length (split f))%nat -> split (eff_filter f) = skipn 2 (split f).
Proof.
  intros S L. unfold eff_filter, drop_levels. rewrite S. apply split_join.
  - intro H. apply (f_equal (@length _)) in H. rewrite skipn_length in H. cbn in H. lia.
  - apply noslash_skipn. apply split_noslash.
Qed.

Lemma Rsh_at cf ash q g c full pay : Rsh cf ash ->
  (sh_get g c (c_shared (cf q)) = Some (mkSub full pay) <->
   q = split (eff_filter full) /\ al_get beq_triple (c, g, eff_filter full) ash = Some (full, pay)).
Proof.
  intros [A B]. split.
  - intro H. destruct (B _ _ _ _ H) as (S1 & S2 & _ & S4). cbn [sub_filter] in *.
    rewrite <- (eff_split full S1 S2) in S4. subst q. split; [reflexivity|].
    rewrite A in H. destruct (al_get beq_triple (c, g, eff_filter full) ash) as [[full' pay']|]; [|discriminate].
    injection H as -> ->. reflexivity.
  - intros [-> G]. rewrite A, G. reflexivity.
Qed.
Arguments Rsh_at {cf ash q g c full pay}.

Lemma Rrp_other r r' p F ret :
  upd r r' p F -> (forall c, c_retain (F c) = c_retain c) -> Rrp (content_at r) ret -> Rrp (content_at r') ret.
Proof.
  intros U H [A B]. pose proof (upd_other c_retain U H) as E.
  split; intros; [rewrite E; eapply A; eassumption|rewrite E in *; apply B; assumption].
Qed.
Arguments Rrp_other {r r' p F ret}.

Lemma Rrp_put r r' F ret t (v : option bytes) : (v <> None -> t <> []) ->
  upd r r' (split t) F -> (forall c, c_retain (F c) = if v then t else []) ->
  Rrp (content_at r) ret -> Rrp (content_at r') (al_put beq_bytes t v ret).
Proof.
  intros NE U H [A B]. pose proof (upd_field c_retain (fun _ => if v then t else []) U H) as E. split.
  - intros t2 pl2. rewrite E, beq_levels_split, al_get_put by exact beq_bytes_eq.
    destruct (beq_bytes t t2) eqn:Et; [|apply A]. apply beq_bytes_eq in Et. subst t2.
    destruct v; [|discriminate]. intros _. split; [reflexivity|apply NE; discriminate].
  - intros p. rewrite E. destruct (beq_levels p (split t)) eqn:Ep; [|apply B].
    apply beq_levels_eq in Ep. destruct v; [intros _; exact Ep|contradiction].
Qed.

Lemma Rrp_expire cf ret t : Rrp cf ret -> Rrp cf (al_del beq_bytes t ret).
Proof.
  intros [A B]. split; [|exact B]. intros t2 pl2. rewrite al_get_del by exact beq_bytes_eq.
  destruct (beq_bytes t t2); [discriminate|apply A].
Qed.

Lemma own_msg_In ret c e : In e (own_msg ret c) <-> c_retain c = fst e /\ fst e <> [] /\ al_get beq_bytes (fst e) ret = Some (snd e).
Proof.
  destruct e as [t pl]. cbn [fst snd]. unfold own_msg, ret_lookup. destruct (c_retain c) as [|b r] eqn:E; cbn [nilb].
  - split; [intros []|]. intros (<- & H & _). contradiction.
  - destruct (al_get beq_bytes (b :: r) ret) as [pl'|] eqn:G; (split; [|intros (<- & _ & H); rewrite G in H]).
    + intros [H|[]]. injection H as <- <-. repeat split; [discriminate|exact G].
    + injection H as <-. left. reflexivity.
    + intros [].
    + discriminate.
Qed.

Lemma Rrp_at cf ret q e : Rrp cf ret ->
  (In e (own_msg ret (cf q)) <-> q = split (fst e) /\ al_get beq_bytes (fst e) ret = Some (snd e)).
Proof.
  intros [A B]. rewrite own_msg_In. split.
  - intros (E & NE & G). split; [|exact G]. rewrite <- E. apply B. rewrite E. exact NE.
  - intros [-> G]. destruct (A _ _ G) as [E NE]. auto.
Qed.
