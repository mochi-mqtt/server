(* Whatever the order in which scanMessages returns the matching retained messages, the loop of
   publishRetainedToClient (RetSub.deliver) sends exactly the messages the specification RetSub.retsub_okb asks for. *)
From MV Require Import Base.Val Base.ListMisc Topics.LevelsProofs Topics.IndexSpec Topics.RetSub Topics.Trie Topics.TrieRefine
  Topics.TrieSelect.
From Coq Require Import Lia Permutation.
Open Scope N_scope.

Lemma beq_item_refl i : beq_item i i = true.
Proof. unfold beq_item. rewrite !beq_bytes_refl, N.eqb_refl. reflexivity. Qed.

Section D.
  Variables (denied : list bytes) (subq maxq : N).
  Notation dl := (deliver denied subq maxq).
  Notation ent := (entitled denied).
  Notation slot := (needs_slot subq maxq).
  Notation sent := (sent_as subq maxq).

  Lemma deliver_in : forall scan free o, In o (dl free scan) ->
    exists c, In c scan /\ ent c = true /\ sent c = o.
  Proof.
    induction scan as [|[m q] r IH]; intros free o H; cbn [deliver] in H; [destruct H|].
    assert (T : forall fr, In o (dl fr r) -> exists c, In c ((m, q) :: r) /\ ent c = true /\ sent c = o).
    { intros fr H'. destruct (IH _ _ H') as (c & A & B). exists c. split; [right; exact A|exact B]. }
    destruct (memb_bytes (fst m) denied) eqn:E; [exact (T _ H)|].
    assert (HD : forall e, (m, e) = o -> eff_qos subq maxq q = e ->
              exists c, In c ((m, q) :: r) /\ ent c = true /\ sent c = o).
    { intros e <- <-. exists (m, q). split; [left; reflexivity|]. unfold entitled, it_topic. cbn. rewrite E. auto. }
    destruct (eff_qos subq maxq q =? 0) eqn:Z.
    - destruct H as [H|H]; [|exact (T _ H)]. apply (HD 0 H). apply N.eqb_eq in Z. exact Z.
    - destruct free as [|f]; [exact (T _ H)|]. destruct H as [H|H]; [exact (HD _ H eq_refl)|exact (T _ H)].
  Qed.

  Lemma deliver_q0 : forall scan free c, In c scan -> ent c = true -> slot c = false ->
    In (sent c) (dl free scan).
  Proof.
    induction scan as [|[m q] r IH]; intros free c HI En Sl; [destruct HI|]. cbn [deliver].
    destruct HI as [HI|HI].
    - subst c. unfold entitled, it_topic in En. cbn in En. apply negb_true_iff in En. rewrite En.
      unfold needs_slot in Sl. cbn in Sl. apply negb_false_iff in Sl. rewrite Sl. left.
      unfold sent_as. cbn. apply N.eqb_eq in Sl. rewrite Sl. reflexivity.
    - destruct (memb_bytes (fst m) denied); [apply IH; assumption|].
      destruct (eff_qos subq maxq q =? 0); [right; apply IH; assumption|].
      destruct free; [apply IH; assumption|right; apply IH; assumption].
  Qed.

  Definition posq (o : item) : bool := negb (snd o =? 0).

  Lemma deliver_count : forall scan free,
    length (filter posq (dl free scan)) = Nat.min (length (filter (fun c => ent c && slot c) scan)) free.
  Proof.
    induction scan as [|[m q] r IH]; intros free; cbn [deliver filter]; [reflexivity|].
    unfold entitled at 1, needs_slot at 1, it_topic. cbn [fst snd].
    destruct (memb_bytes (fst m) denied); cbn [negb andb]; [apply IH|].
    destruct (eff_qos subq maxq q =? 0) eqn:Z; cbn [negb].
    - cbn [filter posq snd]. cbn. apply IH.
    - destruct free as [|f]; [rewrite IH; cbn [length]; lia|].
      cbn [filter]. unfold posq at 1. cbn [snd]. rewrite Z. cbn [negb length]. rewrite IH. lia.
  Qed.

  Lemma deliver_nodup : forall scan free, NoDup (map it_topic scan) -> nodup_topics (dl free scan) = true.
  Proof.
    induction scan as [|[m q] r IH]; intros free ND; cbn [deliver]; [reflexivity|].
    inversion ND as [|? ? NI ND']; subst.
    assert (NX : forall f qq, existsb (fun y => beq_bytes (it_topic y) (it_topic (m, qq))) (dl f r) = false).
    { intros f qq. destruct (existsb _ (dl f r)) eqn:E; [|reflexivity]. exfalso.
      apply existsb_exists in E. destruct E as (y & HI & HE). apply beq_bytes_eq in HE.
      destruct (deliver_in _ _ _ HI) as (c & A & _ & B). apply NI. unfold it_topic in *. cbn [fst] in *.
      rewrite <- HE, <- B. unfold sent_as. cbn [fst]. apply in_map_iff. exists c. split; [reflexivity|exact A]. }
    destruct (memb_bytes (fst m) denied); [apply IH; exact ND'|].
    destruct (eff_qos subq maxq q =? 0).
    - cbn [nodup_topics]. rewrite NX, IH by exact ND'. reflexivity.
    - destruct free; [apply IH; exact ND'|]. cbn [nodup_topics]. rewrite NX, IH by exact ND'. reflexivity.
  Qed.
End D.

Theorem deliver_meets_spec denied subq maxq free cands scan :
  Permutation scan cands -> NoDup (map it_topic cands) ->
  retsub_okb denied subq maxq free cands (deliver denied subq maxq free scan) = true.
Proof.
  intros P ND. unfold retsub_okb. rewrite !andb_true_iff. repeat split.
  - apply deliver_nodup. eapply Permutation_NoDup; [|exact ND]. apply Permutation_map. apply Permutation_sym. exact P.
  - apply forallb_forall. intros o HI. destruct (deliver_in _ _ _ _ _ _ HI) as (c & A & B & C).
    apply existsb_exists. exists c. split; [eapply Permutation_in; eassumption|].
    rewrite B, C. apply beq_item_refl.
  - apply forallb_forall. intros c HI. destruct (entitled denied c) eqn:E; [|reflexivity].
    destruct (needs_slot subq maxq c) eqn:S; [reflexivity|]. cbn [negb orb].
    apply existsb_exists. exists (sent_as subq maxq c). split; [|apply beq_item_refl].
    apply deliver_q0; [eapply Permutation_in; [apply Permutation_sym; exact P|exact HI]|exact E|exact S].
  - apply Nat.eqb_eq. pose proof (deliver_count denied subq maxq scan free) as C. unfold posq in C.
    rewrite <- (Permutation_length (filter_perm _ _ _ P)). exact C.
Qed.

Theorem deliver_on_index ops f qt denied subq maxq free scan :
  wf_ops ops -> msg_filter_ok f = true ->
  Permutation scan (map (annot qt) (messages (run ops) f)) ->
  retsub_okb denied subq maxq free (map (annot qt) (spec_retained (abs ops) f))
             (deliver denied subq maxq free scan) = true.
Proof.
  intros W OK P. pose proof (R_run ops W) as HR. apply deliver_meets_spec.
  - eapply Permutation_trans; [exact P|]. apply Permutation_map. apply messages_perm; assumption.
  - rewrite map_map. unfold it_topic, annot. cbn [fst].
    change (NoDup (map (fun x : bytes * bytes => fst x) (spec_retained (abs ops) f))).
    unfold spec_retained. apply NoDup_map_filter. apply (R_nd _ _ HR).
Qed.
