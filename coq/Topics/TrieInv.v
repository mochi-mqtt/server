(* The particle tree as a map from paths to contents: well-formedness and the effect of
   create (set) / modify / trim on [content_at].  Defined here: [upd] (a point update of that map) and
   [sh_put] (add or delete a shared subscription, by an optional value). *)
From MV Require Import Base.Val Topics.Levels Topics.LevelsProofs Topics.Alist Topics.AlistProofs Topics.Trie.
From Coq Require Import Lia.
Open Scope N_scope.

Definition wf_shared (m : list (bytes * list (bytes * sub))) : Prop :=
  NoDup (keys m) /\ Forall (fun g => snd g <> [] /\ NoDup (keys (snd g))) m.

Definition wf_content (c : content) : Prop :=
  NoDup (keys (c_subs c)) /\ NoDup (keys (c_inline c)) /\ wf_shared (c_shared c).

Inductive wf_node : node -> Prop :=
| wf_Node c ch : wf_content c -> NoDup (keys ch) -> (forall k m, In (k, m) ch -> wf_node m) -> wf_node (Node c ch).

Lemma wf_empty_content : wf_content empty_content.
Proof. repeat split; cbn; constructor. Qed.

Lemma wf_new_particle : wf_node new_particle.
Proof. constructor; [apply wf_empty_content|constructor|intros k m []]. Qed.

Lemma wf_node_inv n : wf_node n ->
  wf_content (cont n) /\ NoDup (keys (children n)) /\ (forall k m, In (k, m) (children n) -> wf_node m).
Proof. intro H. destruct H. cbn. auto. Qed.

Lemma wf_child n k m : wf_node n -> get_child k (children n) = Some m -> wf_node m.
Proof.
  intros W G. apply wf_node_inv in W. destruct W as (_ & _ & W). apply (W k).
  apply (al_get_In beq_bytes_eq). exact G.
Qed.

Lemma content_at_cons n k q :
  content_at n (k :: q) = match get_child k (children n) with Some c => content_at c q | None => empty_content end.
Proof. unfold content_at. cbn [seek]. destruct (get_child k (children n)); reflexivity. Qed.

Lemma content_at_new q : content_at new_particle q = empty_content.
Proof. destruct q; reflexivity. Qed.

Lemma seek_content r p m : seek p r = Some m -> cont m = content_at r p.
Proof. intro S. unfold content_at. rewrite S. reflexivity. Qed.

Lemma content_at_seek_none r p : seek p r = None -> content_at r p = empty_content.
Proof. intro S. unfold content_at. rewrite S. reflexivity. Qed.

Lemma content_at_set_child c ch k m k2 q :
  content_at (Node c (al_set beq_bytes k m ch)) (k2 :: q) =
  if beq_bytes k k2 then content_at m q else content_at (Node c ch) (k2 :: q).
Proof.
  rewrite !content_at_cons. cbn [children]. unfold get_child. rewrite al_get_set by exact beq_bytes_eq.
  destruct (beq_bytes k k2); reflexivity.
Qed.

Lemma content_at_del_child c ch k k2 q :
  content_at (Node c (al_del beq_bytes k ch)) (k2 :: q) =
  if beq_bytes k k2 then empty_content else content_at (Node c ch) (k2 :: q).
Proof.
  rewrite !content_at_cons. cbn [children]. unfold get_child. rewrite al_get_del by exact beq_bytes_eq.
  destruct (beq_bytes k k2); reflexivity.
Qed.

Lemma content_at_create p : forall n q, content_at (create p n) q = content_at n q.
Proof.
  induction p as [|k p IH]; intros [c ch] q; [reflexivity|]. cbn [create cont children].
  destruct q as [|k2 q]; [destruct (get_child k ch); reflexivity|].
  (* the child for k, old or new, has the contents it had *)
  assert (C : forall c0, content_at c0 q = content_at (Node c ch) (k :: q) ->
                         content_at (Node c (al_set beq_bytes k (create p c0) ch)) (k2 :: q) = content_at (Node c ch) (k2 :: q)).
  { intros c0 H. rewrite content_at_set_child. destruct (beq_bytes k k2) eqn:E; [|reflexivity].
    apply beq_bytes_eq in E. subst k2. rewrite IH. exact H. }
  rewrite (content_at_cons (Node c ch) k) in C. cbn [children] in C.
  destruct (get_child k ch); apply C; [reflexivity|apply content_at_new].
Qed.

Lemma seek_create p : forall n, seek p (create p n) <> None.
Proof.
  induction p as [|k p IH]; intro n; cbn [create seek]; [discriminate|].
  destruct (get_child k (children n)) as [c|]; cbn [children]; unfold get_child;
    rewrite al_get_set_same by exact beq_bytes_eq; apply IH.
Qed.

Lemma content_at_modify p f : forall n q, seek p n <> None ->
  content_at (modify p f n) q = if beq_levels q p then f (content_at n p) else content_at n q.
Proof.
  induction p as [|k p IH]; intros [c ch] q S; cbn [modify cont children].
  - destruct q; reflexivity.
  - cbn [seek children] in S. destruct (get_child k ch) as [c0|] eqn:G; [|contradiction].
    destruct q as [|k2 q]; [reflexivity|]. rewrite content_at_set_child. cbn [beq_levels].
    destruct (beq_bytes k k2) eqn:E.
    + apply beq_bytes_eq in E. subst k2. rewrite beq_bytes_refl, !content_at_cons. cbn [children andb].
      rewrite G. apply IH. exact S.
    + replace (beq_bytes k2 k) with false; [reflexivity|].
      symmetry. apply beq_bytes_neq. intros ->. rewrite beq_bytes_refl in E. discriminate.
Qed.

Lemma wf_set_child c ch k m : wf_node (Node c ch) -> wf_node m -> wf_node (Node c (al_set beq_bytes k m ch)).
Proof.
  intros W Wm. apply wf_node_inv in W. cbn in W. destruct W as (Wc & ND & Wch). constructor; [exact Wc| |].
  - apply NoDup_al_set; [exact beq_bytes_eq|exact ND].
  - intros k2 m2 HI. apply In_al_set_inv in HI. destruct HI as [HI|HI]; [inversion HI; subst; exact Wm|].
    eapply Wch. exact HI.
Qed.

Lemma wf_del_child c ch k : wf_node (Node c ch) -> wf_node (Node c (al_del beq_bytes k ch)).
Proof.
  intro W. apply wf_node_inv in W. cbn in W. destruct W as (Wc & ND & Wch). constructor; [exact Wc| |].
  - apply NoDup_al_del. exact ND.
  - intros k2 m2 HI. apply In_al_del_inv in HI. eapply Wch. exact HI.
Qed.

Lemma create_wf p : forall n, wf_node n -> wf_node (create p n).
Proof.
  induction p as [|k p IH]; intros [c ch] W; [exact W|]. cbn [create cont children].
  destruct (get_child k ch) as [c0|] eqn:G; apply wf_set_child; try exact W; apply IH.
  - eapply (wf_child (Node c ch)); eassumption.
  - apply wf_new_particle.
Qed.

Lemma modify_wf p f : (forall c, wf_content c -> wf_content (f c)) -> forall n, wf_node n -> wf_node (modify p f n).
Proof.
  intro Hf. induction p as [|k p IH]; intros [c ch] W; cbn [modify cont children].
  - apply wf_node_inv in W. destruct W as (Wc & ND & Wch). constructor; auto.
  - destruct (get_child k ch) as [c0|] eqn:G; [|exact W].
    apply wf_set_child; [exact W|]. apply IH. eapply (wf_child (Node c ch)); eassumption.
Qed.

Lemma trim_wf p : forall n, wf_node n -> wf_node (trim p n).
Proof.
  induction p as [|k p IH]; intros [c ch] W; [exact W|]. cbn [trim cont children].
  destruct (get_child k ch) as [c0|] eqn:G; [|exact W].
  destruct (is_empty (trim p c0)); [apply wf_del_child; exact W|].
  apply wf_set_child; [exact W|]. apply IH. eapply (wf_child (Node c ch)); eassumption.
Qed.

Lemma wf_seek p : forall n m, wf_node n -> seek p n = Some m -> wf_node m.
Proof.
  induction p as [|k p IH]; intros n m W S; cbn [seek] in S.
  - inversion S; subst. exact W.
  - destruct (get_child k (children n)) as [c|] eqn:G; [|discriminate]. eapply IH; [|exact S]. eapply wf_child; eassumption.
Qed.

Lemma wf_content_at n p : wf_node n -> wf_content (content_at n p).
Proof.
  intro W. unfold content_at. destruct (seek p n) as [m|] eqn:S; [|apply wf_empty_content].
  apply wf_node_inv. eapply wf_seek; eassumption.
Qed.

Lemma sh_len_0 m : wf_shared m -> sh_len m = O -> m = [].
Proof.
  destruct m as [|[g i] m]; [reflexivity|]. intros [_ F] L.
  inversion F as [|? ? [NE _] _]; subst. destruct i; [contradiction|discriminate].
Qed.

Lemma is_empty_content n : wf_content (cont n) -> is_empty n = true -> forall q, content_at n q = empty_content.
Proof.
  destruct n as [[su sh il rp] ch]. unfold is_empty. cbn [cont children c_retain c_subs c_shared c_inline].
  intros (_ & _ & Ws) E q. cbn [c_shared] in Ws. apply andb_true_iff in E. destruct E as [E1 E2]. apply Nat.eqb_eq in E2.
  assert (length ch = O /\ length su = O /\ sh_len sh = O /\ length il = O) as (A & B & C & D) by lia.
  apply length_zero_iff_nil in A, B, D. apply (sh_len_0 _ Ws) in C. apply nilb_nil in E1. subst.
  destruct q; reflexivity.
Qed.

Lemma content_at_trim p : forall n q, wf_node n -> content_at (trim p n) q = content_at n q.
Proof.
  induction p as [|k p IH]; intros [c ch] q W; [reflexivity|]. cbn [trim cont children].
  destruct (get_child k ch) as [c0|] eqn:G; [|reflexivity].
  assert (Wc : wf_node c0) by (eapply (wf_child (Node c ch)); eassumption).
  destruct q as [|k2 q]; [destruct (is_empty (trim p c0)); reflexivity|].
  assert (T : content_at (trim p c0) q = content_at (Node c ch) (k :: q)).
  { rewrite content_at_cons. cbn [children]. rewrite G. apply IH. exact Wc. }
  destruct (is_empty (trim p c0)) eqn:E.
  - (* the trimmed child held nothing *)
    rewrite content_at_del_child. destruct (beq_bytes k k2) eqn:B; [|reflexivity].
    apply beq_bytes_eq in B. subst k2. rewrite <- T. symmetry.
    apply is_empty_content; [|exact E]. apply wf_node_inv, trim_wf, Wc.
  - rewrite content_at_set_child. destruct (beq_bytes k k2) eqn:B; [|reflexivity].
    apply beq_bytes_eq in B. subst k2. exact T.
Qed.

Lemma cont_create p n : cont (create p n) = cont n.
Proof. destruct p; [reflexivity|]. cbn [create]. destruct (get_child l (children n)); reflexivity. Qed.
Lemma cont_trim p n : cont (trim p n) = cont n.
Proof.
  destruct p; [reflexivity|]. cbn [trim]. destruct (get_child l (children n)); [|reflexivity].
  destruct (is_empty (trim p n0)); reflexivity.
Qed.

Definition upd (r r' : node) (p : list level) (F : content -> content) : Prop :=
  forall q, content_at r' q = if beq_levels q p then F (content_at r p) else content_at r q.

Lemma upd_field {A} (proj : content -> A) (G : A -> A) r r' p F :
  upd r r' p F -> (forall c, proj (F c) = G (proj c)) ->
  forall q, proj (content_at r' q) = if beq_levels q p then G (proj (content_at r q)) else proj (content_at r q).
Proof.
  intros U H q. rewrite U. destruct (beq_levels q p) eqn:E; [|reflexivity].
  apply beq_levels_eq in E. subst q. apply H.
Qed.
Arguments upd_field {A} proj G {r r' p F}.

Lemma upd_other {A} (proj : content -> A) r r' p F :
  upd r r' p F -> (forall c, proj (F c) = proj c) -> forall q, proj (content_at r' q) = proj (content_at r q).
Proof. intros U H q. rewrite (upd_field proj (fun a => a) U H). destruct (beq_levels q p); reflexivity. Qed.
Arguments upd_other {A} proj {r r' p F}.

Lemma upd_root r r' p F : upd r r' p F -> p <> [] -> cont r' = cont r.
Proof. intros U NE. specialize (U []). destruct p; [contradiction|]. exact U. Qed.

Lemma upd_set p F r : upd r (modify p F (create p r)) p F.
Proof. intro q. rewrite content_at_modify by apply seek_create. rewrite !content_at_create. reflexivity. Qed.

Lemma upd_modify p F r : seek p r <> None -> upd r (modify p F r) p F.
Proof. intros S q. apply content_at_modify. exact S. Qed.

Lemma upd_none p F r : seek p r = None -> F empty_content = empty_content -> upd r r p F.
Proof.
  intros S HF q. destruct (beq_levels q p) eqn:E; [|reflexivity]. apply beq_levels_eq in E. subst q.
  rewrite (content_at_seek_none _ _ S). symmetry. exact HF.
Qed.

Lemma upd_id r p : upd r r p (fun c => c).
Proof. intro q. destruct (beq_levels q p) eqn:E; [apply beq_levels_eq in E; subst q|]; reflexivity. Qed.

Lemma upd_trim q r r' p F : wf_node r' -> upd r r' p F -> upd r (trim q r') p F.
Proof. intros W U q'. rewrite content_at_trim by exact W. apply U. Qed.

Lemma sh_get_add g c g0 c0 v m :
  sh_get g c (sh_add g0 c0 v m) = if beq_bytes g0 g && beq_bytes c0 c then Some v else sh_get g c m.
Proof.
  unfold sh_get, sh_add. rewrite al_get_set by exact beq_bytes_eq.
  destruct (beq_bytes g0 g) eqn:G; [|reflexivity]. apply beq_bytes_eq in G. subst g0.
  rewrite al_get_set by exact beq_bytes_eq. destruct (beq_bytes c0 c); [reflexivity|].
  destruct (al_get beq_bytes g m); reflexivity.
Qed.

Lemma sh_get_del g c g0 c0 m :
  sh_get g c (sh_del g0 c0 m) = if beq_bytes g0 g && beq_bytes c0 c then None else sh_get g c m.
Proof.
  unfold sh_get, sh_del. destruct (beq_bytes g0 g) eqn:G; cbn [andb].
  - apply beq_bytes_eq in G. subst g0. destruct (al_get beq_bytes g m) as [i|] eqn:G0.
    + rewrite <- (al_get_del beq_bytes_eq c0 c i). destruct (nilb (al_del beq_bytes c0 i)) eqn:E.
      * rewrite al_get_del_same. apply nilb_nil in E. rewrite E. reflexivity.
      * rewrite al_get_set_same by exact beq_bytes_eq. reflexivity.
    + rewrite G0. destruct (beq_bytes c0 c); reflexivity.
  - assert (NE : g <> g0) by (intros ->; rewrite beq_bytes_refl in G; discriminate).
    destruct (al_get beq_bytes g0 m) as [i|]; [|reflexivity].
    destruct (nilb (al_del beq_bytes c0 i)).
    + rewrite al_get_del_other by (exact beq_bytes_eq || exact NE). reflexivity.
    + rewrite al_get_set_other by (exact beq_bytes_eq || exact NE). reflexivity.
Qed.

Definition sh_put g c (v : option sub) (m : list (bytes * list (bytes * sub))) :=
  match v with Some s => sh_add g c s m | None => sh_del g c m end.

Lemma sh_get_put g c g0 c0 v m :
  sh_get g c (sh_put g0 c0 v m) = if beq_bytes g0 g && beq_bytes c0 c then v else sh_get g c m.
Proof. destruct v; [apply sh_get_add|apply sh_get_del]. Qed.

Lemma Forall_al_set {V} (P : bytes * V -> Prop) k v (l : list (bytes * V)) :
  Forall P l -> P (k, v) -> Forall P (al_set beq_bytes k v l).
Proof.
  intros F Pk. apply Forall_forall. intros e HI. apply In_al_set_inv in HI. destruct HI as [->|HI]; [exact Pk|].
  rewrite Forall_forall in F. apply F. exact HI.
Qed.

Lemma Forall_al_del {V} (P : bytes * V -> Prop) k (l : list (bytes * V)) :
  Forall P l -> Forall P (al_del beq_bytes k l).
Proof.
  intros F. apply Forall_forall. intros e HI. apply In_al_del_inv in HI. rewrite Forall_forall in F. apply F. exact HI.
Qed.

Lemma wf_shared_inner g i m : wf_shared m -> al_get beq_bytes g m = Some i -> i <> [] /\ NoDup (keys i).
Proof.
  intros [_ F] G. apply (al_get_In beq_bytes_eq) in G. rewrite Forall_forall in F. apply (F (g, i)). exact G.
Qed.

Lemma wf_sh_add g c v m : wf_shared m -> wf_shared (sh_add g c v m).
Proof.
  intros W. pose proof W as [ND F]. unfold sh_add. split.
  - apply NoDup_al_set; [exact beq_bytes_eq|exact ND].
  - apply Forall_al_set; [exact F|]. cbn [snd]. split; [apply al_set_nonempty|].
    apply NoDup_al_set; [exact beq_bytes_eq|]. destruct (al_get beq_bytes g m) as [i|] eqn:G; [|constructor].
    eapply wf_shared_inner; eassumption.
Qed.

Lemma wf_sh_del g c m : wf_shared m -> wf_shared (sh_del g c m).
Proof.
  intros W. pose proof W as [ND F]. unfold sh_del. destruct (al_get beq_bytes g m) as [i|] eqn:G; [|exact W].
  destruct (nilb (al_del beq_bytes c i)) eqn:E.
  - split; [apply NoDup_al_del; exact ND|apply Forall_al_del; exact F].
  - split; [apply NoDup_al_set; [exact beq_bytes_eq|exact ND]|]. apply Forall_al_set; [exact F|]. cbn [snd]. split.
    + intro H. rewrite H in E. discriminate.
    + apply NoDup_al_del. eapply wf_shared_inner; eassumption.
Qed.

Lemma wf_sh_put g c v m : wf_shared m -> wf_shared (sh_put g c v m).
Proof. destruct v; [apply wf_sh_add|apply wf_sh_del]. Qed.

Lemma sh_get_In g c s m : wf_shared m ->
  (sh_get g c m = Some s <-> exists i, In (g, i) m /\ In (c, s) i).
Proof.
  intros W. unfold sh_get. split.
  - destruct (al_get beq_bytes g m) as [i|] eqn:G; [|discriminate]. intro H. exists i.
    split; apply (al_get_In beq_bytes_eq); assumption.
  - intros (i & H1 & H2). destruct W as [ND F].
    rewrite (In_al_get beq_bytes_eq g i m ND H1).
    apply In_al_get; [exact beq_bytes_eq| |exact H2]. rewrite Forall_forall in F. apply (F (g, i) H1).
Qed.

Lemma wf_subs_put c k v : wf_content c -> wf_content (set_subs (al_put beq_bytes k v (c_subs c)) c).
Proof. intros (A & B & C). split; [|split; assumption]. apply NoDup_al_put; [exact beq_bytes_eq|exact A]. Qed.
Lemma wf_inline_put c k v : wf_content c -> wf_content (set_inline (al_put N.eqb k v (c_inline c)) c).
Proof. intros (A & B & C). split; [|split]; try assumption. apply NoDup_al_put; [exact N.eqb_eq|exact B]. Qed.
Lemma wf_shared_put c g k v : wf_content c -> wf_content (set_shared (sh_put g k v (c_shared c)) c).
Proof. intros (A & B & C). split; [|split]; try assumption. apply wf_sh_put. exact C. Qed.

Lemma set_upd p F r : wf_node r -> (forall c, wf_content c -> wf_content (F c)) ->
  wf_node (modify p F (create p r)) /\ upd r (modify p F (create p r)) p F.
Proof. intros W HF. split; [apply modify_wf; [exact HF|apply create_wf, W]|apply upd_set]. Qed.

(* the body of unsubscribe and of inline_unsubscribe; the latter trims only when the particle's last inline
   subscription has gone, hence tr *)
Lemma seek_upd p F (tr : bool) r : wf_node r -> (forall c, wf_content c -> wf_content (F c)) ->
  F empty_content = empty_content ->
  let r' := match seek p r with
            | Some _ => if tr then trim p (modify p F r) else modify p F r
            | None => r
            end in
  wf_node r' /\ upd r r' p F.
Proof.
  intros W HF HE. cbv zeta. destruct (seek p r) eqn:S; [|split; [exact W|apply upd_none; assumption]].
  assert (W1 : wf_node (modify p F r)) by (apply modify_wf; assumption).
  assert (U1 : upd r (modify p F r) p F) by (apply upd_modify; congruence).
  destruct tr; [split; [apply trim_wf|apply upd_trim]; assumption|split; assumption].
Qed.
