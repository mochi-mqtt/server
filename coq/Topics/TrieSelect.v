(* The two queries on a tree related to an abstract state.  Subscribers(topic) selects exactly the
   subscriptions whose filter matches the topic (C01; inline part = topics-level part of C40);
   Messages(filter) returns exactly the retained messages whose topic the filter matches, each once (C02). *)
From MV Require Import Base.Val Base.ListMisc Topics.Levels Topics.LevelsProofs Topics.Match Topics.Alist Topics.AlistProofs
  Topics.IndexSpec Topics.Trie Topics.TrieInv Topics.TrieScan Topics.TrieRel Topics.TrieRefine.
From Coq Require Import Lia Permutation.
Open Scope N_scope.

Lemma no_wild_plain f : has 35 f = false -> has 43 f = false -> Forall plain (split f).
Proof.
  intros V35 V43.
  pose proof (has_split 35 f (or_intror V35)) as F35. pose proof (has_split 43 f (or_intror V43)) as F43.
  rewrite Forall_forall in *. intros l HI. split.
  - destruct (is_plus l) eqn:E; [|reflexivity]. apply is_plus_eq in E. subst l. specialize (F43 _ HI). discriminate.
  - destruct (is_hash l) eqn:E; [|reflexivity]. apply is_hash_eq in E. subst l. specialize (F35 _ HI). discriminate.
Qed.

Lemma valid_topic_inv t : valid_topic t -> t <> [] /\ has 35 t = false /\ has 43 t = false.
Proof.
  unfold valid_topic, valid_topicb. rewrite !andb_true_iff, !negb_true_iff. intros [[H1 H2] H3].
  repeat split; try assumption. intros ->. discriminate.
Qed.

Lemma valid_topic_plain t : valid_topic t -> Forall plain (split t).
Proof. intro V. apply valid_topic_inv in V. apply no_wild_plain; apply V. Qed.

Lemma plain_leading ls : Forall plain ls -> leading_wild ls = false.
Proof. destruct 1 as [|h r [Hp Hh] _]; [reflexivity|]. cbn. rewrite Hh, Hp. reflexivity. Qed.

Lemma dollar_wild_nomatch f t : starts_dollar t = true -> first_is_wild f = true -> topic_matches f t = false.
Proof.
  intros D W. unfold topic_matches. rewrite D. cbn [andb].
  destruct (leading_wild (split f)) eqn:LW; [reflexivity|].
  destruct f as [|c f']; [discriminate|]. cbn in W.
  destruct t as [|d t']; [discriminate|]. cbn in D. apply N.eqb_eq in D. subst d.
  assert (NC : c <> 47) by (intro; subst; discriminate).
  destruct (split_head_first c f' NC) as (l & rest & E). rewrite E in *.
  destruct (split_head_first 36 t' ltac:(discriminate)) as (l2 & rest2 & E2). rewrite E2.
  cbn [leading_wild] in LW. apply orb_false_iff in LW. destruct LW as [LH LP].
  cbn [lv_match]. rewrite LH, LP. cbn [orb beq_bytes].
  replace (c =? 36) with false; [reflexivity|].
  apply orb_true_iff in W. destruct W as [W|W]; apply N.eqb_eq in W; subst; reflexivity.
Qed.

Lemma matches_cands f t : valid_topic t ->
  (topic_matches f t = true <-> In (split f) (cands (true && starts_dollar t) (split t))).
Proof.
  intro V. rewrite cands_match by (apply valid_topic_plain; exact V) || apply split_nonempty.
  unfold topic_matches. cbn [andb]. destruct (starts_dollar t); cbn [andb].
  - destruct (leading_wild (split f)); split; intro H; try discriminate; try tauto.
    destruct H as [_ H]. specialize (H eq_refl). discriminate.
  - split; [intro H; split; [exact H|discriminate]|tauto].
Qed.

Lemma gather_subs_In t c k f pay : In (k, f, pay) (gather_subs t c) <->
  In (k, mkSub f pay) (c_subs c) /\ negb (nilb f) && starts_dollar t && first_is_wild f = false.
Proof.
  unfold gather_subs. rewrite in_flat_map. split.
  - intros ([k' [f' pay']] & HI & HE). cbn [sub_filter sub_pay] in HE.
    destruct (negb (nilb f') && starts_dollar t && first_is_wild f') eqn:E; [destruct HE|].
    destruct HE as [HE|[]]. injection HE as -> -> ->. auto.
  - intros [HI E]. exists (k, mkSub f pay). split; [exact HI|]. cbn [sub_filter sub_pay]. rewrite E. left. reflexivity.
Qed.

Lemma gather_inline_In c id f pay : In (id, f, pay) (gather_inline c) <-> In (id, mkSub f pay) (c_inline c).
Proof.
  unfold gather_inline. rewrite in_map_iff. split.
  - intros ([id' [f' pay']] & HE & HI). injection HE as -> -> ->. exact HI.
  - intro HI. exists (id, mkSub f pay). auto.
Qed.

Lemma gather_shared_In c k f pay : In (k, f, pay) (gather_shared c) <->
  exists g inner, In (g, inner) (c_shared c) /\ In (k, mkSub f pay) inner.
Proof.
  unfold gather_shared. rewrite in_flat_map. split.
  - intros ([g inner] & HG & HI). cbn [snd] in HI. apply in_map_iff in HI.
    destruct HI as ([k' [f' pay']] & HE & HI). injection HE as -> -> ->. eauto.
  - intros (g & inner & HG & HI). exists (g, inner). split; [exact HG|]. cbn [snd]. apply in_map_iff.
    exists (k, mkSub f pay). auto.
Qed.

(* the flat_map is the body of sel_cl and of sel_in *)
Lemma sel_In {K} (l : list ((K * bytes) * N)) t k f pay :
  In (k, f, pay) (flat_map (fun e => let '((c, f), pay) := e in if topic_matches f t then [(c, f, pay)] else []) l) <->
  In ((k, f), pay) l /\ topic_matches f t = true.
Proof.
  rewrite in_flat_map. split.
  - intros ([[k' f'] pay'] & HI & HE). destruct (topic_matches f' t) eqn:M; [|destruct HE].
    destruct HE as [HE|[]]. injection HE as -> -> ->. auto.
  - intros [HI M]. exists ((k, f), pay). rewrite M. split; [exact HI|left; reflexivity].
Qed.

Lemma sel_sh_In a t c full pay : In (c, full, pay) (sel_sh a t) <->
  exists g i, In ((c, g, i), (full, pay)) (a_sh a) /\ topic_matches i t = true.
Proof.
  unfold sel_sh. rewrite in_flat_map. split.
  - intros ([[[c' g] i] [full' pay']] & HI & HE). destruct (topic_matches i t) eqn:M; [|destruct HE].
    destruct HE as [HE|[]]. injection HE as -> -> ->. eauto.
  - intros (g & i & HI & M). exists ((c, g, i), (full, pay)). rewrite M. split; [exact HI|left; reflexivity].
Qed.

Lemma abs_shared_key x a c g i full pay : R x a -> In ((c, g, i), (full, pay)) (a_sh a) ->
  is_share full = true /\ share_group full = g /\ eff_filter full = i.
Proof.
  intros HR HI. pose proof (R_sh _ _ HR) as [A B].
  apply (al_get_iff beq_triple_eq) in HI; [|apply HR].
  assert (SG : sh_get g c (c_shared (content_at (ix_root x) (split i))) = Some (mkSub full pay)).
  { rewrite A, HI. reflexivity. }
  destruct (B _ _ _ _ SG) as (S1 & S2 & S3 & S4). cbn [sub_filter] in *.
  rewrite <- (eff_split full S1 S2) in S4. apply split_inj in S4. auto.
Qed.

Definition set_eq {A} (l1 l2 : list A) : Prop := forall x, In x l1 <-> In x l2.

Section Select.
  Variables (x : index) (a : astate).
  Hypothesis HR : R x a.
  Variable t : bytes.
  Hypothesis V : valid_topic t.

  Lemma subscribers_gp :
    subscribers x t = gp t (ix_root x) (cands (true && starts_dollar t) (split t)).
  Proof.
    unfold subscribers. destruct (valid_topic_inv t V) as [NE _]. destruct t; [contradiction|].
    cbn [nilb]. rewrite path_of_0. apply scan_subs_gp. apply valid_topic_plain. exact V.
  Qed.

  (* the three kinds of subscription: an entry of the tree sits on the path of its filter and is an entry of the
     abstract state (the _at lemmas of TrieRel), and that path is a candidate exactly when the filter matches *)
  Lemma selected_clients c f pay : In (c, f, pay) (r_cl (subscribers x t)) <->
    al_get beq_pair (c, f) (a_cl a) = Some pay /\ topic_matches f t = true.
  Proof.
    rewrite subscribers_gp, gp_at. cbn [r_cl].
    rewrite (at_paths_In _ _ (fun e => split (snd (fst e)))
               (fun e => al_get beq_pair (fst e) (a_cl a) = Some (snd e) /\
                         negb (nilb (snd (fst e))) && starts_dollar t && first_is_wild (snd (fst e)) = false)).
    - cbn [fst snd]. rewrite <- matches_cands by exact V. split; [tauto|]. intros [G M]. repeat split; try assumption.
      destruct (negb (nilb f) && starts_dollar t && first_is_wild f) eqn:E; [|reflexivity].
      apply andb_true_iff in E. destruct E as [E E2]. apply andb_true_iff in E. destruct E as [_ E1].
      rewrite (dollar_wild_nomatch f t E1 E2) in M. discriminate.
    - intros q [[c' f'] pay']. cbn [fst snd]. rewrite gather_subs_In, <- (al_get_iff beq_bytes_eq c') by apply wf_content_at, HR.
      rewrite (Rkey_at q c' f' pay' (R_cl _ _ HR)). tauto.
  Qed.

  Lemma selected_inline id f pay : In (id, f, pay) (r_in (subscribers x t)) <->
    al_get beq_npair (id, f) (a_in a) = Some pay /\ topic_matches f t = true.
  Proof.
    rewrite subscribers_gp, gp_at. cbn [r_in].
    rewrite (at_paths_In _ _ (fun e => split (snd (fst e))) (fun e => al_get beq_npair (fst e) (a_in a) = Some (snd e))).
    - cbn [fst snd]. rewrite <- matches_cands by exact V. tauto.
    - intros q [[id' f'] pay']. cbn [fst snd]. rewrite gather_inline_In, <- (al_get_iff N.eqb_eq id') by apply wf_content_at, HR.
      apply (Rkey_at q id' f' pay' (R_in _ _ HR)).
  Qed.

  Lemma selected_shared c full pay : In (c, full, pay) (r_sh (subscribers x t)) <->
    (exists g, al_get beq_triple (c, g, eff_filter full) (a_sh a) = Some (full, pay)) /\ topic_matches (eff_filter full) t = true.
  Proof.
    rewrite subscribers_gp, gp_at. cbn [r_sh].
    rewrite (at_paths_In _ _ (fun e => split (eff_filter (snd (fst e))))
               (fun e => exists g, al_get beq_triple (fst (fst e), g, eff_filter (snd (fst e))) (a_sh a) = Some (snd (fst e), snd e))).
    - cbn [fst snd]. rewrite <- matches_cands by exact V. tauto.
    - intros q [[c' full'] pay']. cbn [fst snd]. rewrite gather_shared_In. split.
      + intros (g & inner & HG & HI). assert (SG : sh_get g c' (c_shared (content_at (ix_root x) q)) = Some (mkSub full' pay')).
        { apply sh_get_In; [apply wf_content_at, HR|]. eauto. }
        apply (Rsh_at (R_sh _ _ HR)) in SG. destruct SG as [-> G]. eauto.
      + intros [-> (g & G)]. exists g. apply sh_get_In; [apply wf_content_at, HR|]. apply (Rsh_at (R_sh _ _ HR)). auto.
  Qed.

  Lemma select_clients : set_eq (r_cl (subscribers x t)) (sel_cl a t).
  Proof.
    intros [[c f] pay]. unfold sel_cl. rewrite selected_clients, sel_In.
    rewrite (al_get_iff beq_pair_eq); [reflexivity|apply HR].
  Qed.

  Lemma select_inline : set_eq (r_in (subscribers x t)) (sel_in a t).
  Proof.
    intros [[id f] pay]. unfold sel_in. rewrite selected_inline, sel_In.
    rewrite (al_get_iff beq_npair_eq); [reflexivity|apply HR].
  Qed.

  Lemma select_shared : set_eq (r_sh (subscribers x t)) (sel_sh a t).
  Proof.
    intros [[c full] pay]. rewrite selected_shared, sel_sh_In. split.
    - intros [(g & G) M]. exists g, (eff_filter full). split; [apply (al_get_iff beq_triple_eq); [apply HR|exact G]|exact M].
    - intros (g & i & HI & M). destruct (abs_shared_key x a c g i full pay HR HI) as (_ & _ & <-). split; [|exact M].
      exists g. apply (al_get_iff beq_triple_eq); [apply HR|exact HI].
  Qed.

  Lemma select_all : set_eq (r_cl (subscribers x t)) (sel_cl a t) /\
    set_eq (r_sh (subscribers x t)) (sel_sh a t) /\ set_eq (r_in (subscribers x t)) (sel_in a t).
  Proof. exact (conj select_clients (conj select_shared select_inline)). Qed.
End Select.

Lemma plain_lv_match fl : Forall plain fl -> forall tl, lv_match fl tl = true <-> fl = tl.
Proof.
  induction 1 as [|h fl [Hp Hh] _ IH]; intro tl.
  - destruct tl; cbn; split; congruence.
  - cbn [lv_match]. rewrite Hh, Hp. destruct tl as [|x tl]; [split; discriminate|]. cbn [orb].
    rewrite andb_true_iff, beq_bytes_eq, IH. split; [intros [-> ->]; reflexivity|intro E; inversion E; auto].
Qed.

Lemma no_wild_matches f t : has 35 f = false -> has 43 f = false -> (topic_matches f t = true <-> f = t).
Proof.
  intros V35 V43. pose proof (no_wild_plain f V35 V43) as PL. unfold topic_matches.
  rewrite (plain_leading _ PL), andb_false_r. rewrite (plain_lv_match _ PL). split; [apply split_inj|intros ->; reflexivity].
Qed.

Theorem messages_perm x a f : R x a -> msg_filter_ok f = true ->
  Permutation (messages x f) (spec_retained a f).
Proof.
  intros [Wf Rt Cl Sh Inl Re [Rp1 Rp2] (N1 & N2 & N3 & N4) Pl] OK.
  unfold msg_filter_ok in OK. apply andb_true_iff in OK. destruct OK as [NEf LO]. apply negb_true_iff in NEf.
  unfold messages, spec_retained. rewrite NEf. cbn [orb]. rewrite <- Re in *.
  destruct (nilb (ix_ret x)) eqn:E0; [apply nilb_nil in E0; rewrite E0; constructor|].
  assert (ND : NoDup (filter (fun e => topic_matches f (fst e)) (ix_ret x))) by (apply NoDup_filter; eapply NoDup_map_inv; exact N4).
  destruct (negb (has 35 f) && negb (has 43 f)) eqn:NW.
  - (* no wildcard: the one message on f *)
    apply andb_true_iff in NW. destruct NW as [V35 V43]. apply negb_true_iff in V35, V43.
    apply NoDup_Permutation; [unfold ret_lookup; destruct (al_get beq_bytes f (ix_ret x)); repeat constructor; intros []|exact ND|].
    intros [t pl]. rewrite filter_In, <- (al_get_iff beq_bytes_eq t pl _ N4). cbn [fst]. rewrite (no_wild_matches f t V35 V43).
    unfold ret_lookup. split.
    + destruct (al_get beq_bytes f (ix_ret x)) as [pl'|] eqn:G; [|intros []]. intros [H|[]]. injection H as <- <-. auto.
    + intros [H ->]. rewrite H. left. reflexivity.
  - (* the messages of the particles whose path f reaches; a particle's message tells its path *)
    assert (N0 : al_get beq_bytes [] (ix_ret x) = None).
    { destruct (al_get beq_bytes [] (ix_ret x)) as [pl|] eqn:G; [|reflexivity]. destruct (Rp1 _ _ G) as [_ H]. contradiction. }
    rewrite path_of_0, (scan_msgs_found _ N0 (split f) true _ (split_nonempty f) (levels_ok_hash_last _ LO) Wf).
    pose proof (fun q e => Rrp_at (content_at (ix_root x)) (ix_ret x) q e (conj Rp1 Rp2)) as AT.
    apply NoDup_Permutation; [|exact ND|].
    + apply (NoDup_flat_map (fun q => q) (fun e => split (fst e))); [rewrite map_id; apply NoDup_filter, paths_NoDup, Wf| |].
      * intros q _. unfold own_msg, ret_lookup. destruct (c_retain _) as [|b r]; [constructor|]. cbn [nilb].
        destruct (al_get beq_bytes (b :: r) (ix_ret x)); repeat constructor; intros [].
      * intros q e _ HI. symmetry. apply AT, HI.
    + intros [t pl]. unfold found. rewrite (at_paths_In _ _ _ _ AT), !filter_In, reachb_topic_matches, <- (al_get_iff beq_bytes_eq t pl _ N4).
      cbn [fst snd]. split; [tauto|]. intros [G M]. repeat split; try assumption.
      apply paths_seek. intro S. destruct (Rp1 _ _ G) as [E NE]. rewrite (content_at_seek_none _ _ S) in E. cbn in E. congruence.
Qed.
