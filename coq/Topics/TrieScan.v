(* Both scans gather from the particles at a list of paths, read through [content_at] ([at_paths]; [gp] is three
   of them).  scanSubscribers: the candidate paths [cands] of the topic, which are exactly the level lists that
   match it under the MQTT rules (scan_subs_gp, cands_match).  scanMessages: the paths of the tree [paths] that
   the filter reaches [reachb], in the order of the walk (scan_msgs_found); reaching is matching
   (reachb_topic_matches).  What is gathered is known as soon as every element tells its path (at_paths_In). *)
From MV Require Import Base.Val Base.ListMisc Topics.Levels Topics.LevelsProofs Topics.Match Topics.Alist Topics.AlistProofs
  Topics.Trie Topics.TrieInv.
Open Scope N_scope.

Definition plain (k : level) : Prop := is_plus k = false /\ is_hash k = false.

(* the filter paths that match the topic levels ts, in the order of the scan; for no levels left:
   the particle itself and its '#' child *)
Fixpoint tails (ts : list level) : list (list level) :=
  match ts with
  | [] => [[]; [[35]]]
  | k :: rest => map (cons k) (tails rest) ++ map (cons [43]) (tails rest) ++ [[[35]]]
  end.

(* at the root a $-topic is not matched by a leading wildcard *)
Definition cands (dollar : bool) (ts : list level) : list (list level) :=
  match ts with
  | [] => []
  | k :: rest => map (cons k) (tails rest) ++ (if dollar then [] else map (cons [43]) (tails rest) ++ [[[35]]])
  end.

Fixpoint gp (topic : bytes) (n : node) (qs : list (list level)) : scan_res :=
  match qs with
  | [] => res_empty
  | q :: r => res_app (gather_all topic (content_at n q)) (gp topic n r)
  end.

Definition at_paths {B} (G : content -> list B) (n : node) (qs : list (list level)) : list B :=
  flat_map (fun q => G (content_at n q)) qs.

Lemma gp_at topic n qs :
  gp topic n qs = mkR (at_paths (gather_subs topic) n qs) (at_paths gather_shared n qs) (at_paths gather_inline n qs).
Proof. induction qs as [|q qs IH]; cbn [gp at_paths flat_map]; [|rewrite IH]; reflexivity. Qed.

Lemma at_paths_cons {B} (G : content -> list B) n k qs : G empty_content = [] ->
  at_paths G n (map (cons k) qs) = match get_child k (children n) with Some a => at_paths G a qs | None => [] end.
Proof.
  intro E. unfold at_paths. induction qs as [|q qs IH]; cbn [map flat_map]; [destruct (get_child k (children n)); reflexivity|].
  rewrite IH, content_at_cons. destruct (get_child k (children n)); [reflexivity|rewrite E; reflexivity].
Qed.

Lemma at_paths_In {B} (G : content -> list B) n (pth : B -> list level) (A : B -> Prop) :
  (forall q e, In e (G (content_at n q)) <-> q = pth e /\ A e) ->
  forall qs e, In e (at_paths G n qs) <-> In (pth e) qs /\ A e.
Proof.
  intros H qs e. unfold at_paths. rewrite in_flat_map. split.
  - intros (q & Hq & HI). apply H in HI. destruct HI as [-> HA]. auto.
  - intros [Hq HA]. exists (pth e). split; [exact Hq|apply H; auto].
Qed.

Lemma res_app_empty_r x : res_app x res_empty = x.
Proof. destruct x. unfold res_app. cbn. rewrite !app_nil_r. reflexivity. Qed.
Lemma res_app_assoc x y z : res_app (res_app x y) z = res_app x (res_app y z).
Proof. unfold res_app. cbn [r_cl r_sh r_in]. rewrite !app_assoc. reflexivity. Qed.

Lemma gp_app topic n a b : gp topic n (a ++ b) = res_app (gp topic n a) (gp topic n b).
Proof. rewrite !gp_at. unfold res_app, at_paths. cbn [r_cl r_sh r_in]. rewrite !flat_map_app. reflexivity. Qed.

Lemma gather_all_empty topic : gather_all topic empty_content = res_empty.
Proof. reflexivity. Qed.

Lemma gp_cons_path topic n k qs :
  gp topic n (map (cons k) qs) =
  match get_child k (children n) with Some c => gp topic c qs | None => res_empty end.
Proof.
  rewrite gp_at, !at_paths_cons by reflexivity. destruct (get_child k (children n)); [symmetry; apply gp_at|reflexivity].
Qed.

Lemma gp_single topic n q : gp topic n [q] = gather_all topic (content_at n q).
Proof. cbn [gp]. apply res_app_empty_r. Qed.

Lemma gp_hash topic n : gp topic n [[[35]]] =
  match get_child [35] (children n) with Some w => gather_all topic (cont w) | None => res_empty end.
Proof. rewrite gp_single, content_at_cons. destruct (get_child [35] (children n)); reflexivity. Qed.

Lemma scan_subs_gp topic : forall ks top n, Forall plain ks ->
  scan_subs topic top ks n = gp topic n (cands (top && starts_dollar topic) ks).
Proof.
  induction ks as [|key rest IH]; intros top n PL; [reflexivity|].
  inversion PL as [|? ? [Pk _] PR]; subst.
  (* what a visited child contributes *)
  assert (V : forall p, (if negb (nilb rest) then scan_subs topic false rest p
             else res_app (gather_all topic (cont p))
                    match get_child [35] (children p) with Some w => gather_all topic (cont w) | None => res_empty end)
            = gp topic p (tails rest)).
  { intro p. destruct rest as [|k2 r2]; [|exact (IH false p PR)].
    cbn [nilb negb tails gp]. rewrite <- gp_hash. reflexivity. }
  cbn [scan_subs cands]. rewrite Pk, andb_false_r.
  change (is_plus [43]) with true. rewrite andb_true_r, gp_app, gp_cons_path, res_app_assoc. f_equal.
  - destruct (get_child key (children n)); [apply V|reflexivity].
  - destruct (top && starts_dollar topic).
    + destruct (get_child [35] (children n)); reflexivity.
    + rewrite gp_app, gp_cons_path, gp_hash. f_equal.
      destruct (get_child [43] (children n)); [apply V|reflexivity].
Qed.

Lemma is_hash_eq h : is_hash h = true <-> h = [35].
Proof. apply beq_bytes_eq. Qed.
Lemma is_plus_eq h : is_plus h = true <-> h = [43].
Proof. apply beq_bytes_eq. Qed.

Lemma lv_match_nil_r q : lv_match q [] = true <-> q = [] \/ q = [[35]].
Proof.
  destruct q as [|h q']; cbn [lv_match]; [intuition|].
  destruct (is_hash h) eqn:H.
  - apply is_hash_eq in H. subst. destruct q'; split; intro X; try discriminate; auto.
    destruct X as [X|X]; discriminate.
  - split; [discriminate|]. intros [X|X]; [discriminate|]. inversion X; subst. discriminate.
Qed.

Lemma tails_match ts : Forall plain ts -> forall q, In q (tails ts) <-> lv_match q ts = true.
Proof.
  induction 1 as [|k rest [Pk Hk] _ IH]; intro q.
  - rewrite lv_match_nil_r. cbn. split; [intros [<-|[<-|[]]]; auto|intros [->| ->]; auto].
  - cbn [tails]. rewrite !in_app_iff, !in_map_iff. split.
    + intros [(q' & <- & HI)|[(q' & <- & HI)|[<-|[]]]]; [| |reflexivity]; apply IH in HI; cbn [lv_match].
      * rewrite Hk, beq_bytes_refl, orb_true_r. exact HI.
      * exact HI.
    + destruct q as [|h q']; [discriminate|]. cbn [lv_match]. destruct (is_hash h) eqn:H.
      * apply is_hash_eq in H. subst h. destruct q'; [|discriminate]. intros _. right. right. left. reflexivity.
      * intro M. apply andb_true_iff in M. destruct M as [M1 M2]. apply IH in M2.
        destruct (is_plus h) eqn:P.
        -- apply is_plus_eq in P. subst h. right. left. exists q'. auto.
        -- apply beq_bytes_eq in M1. subst h. left. exists q'. auto.
Qed.

Lemma cands_match ts q d : Forall plain ts -> ts <> [] ->
  (In q (cands d ts) <-> lv_match q ts = true /\ (d = true -> leading_wild q = false)).
Proof.
  intros PL NE. destruct ts as [|k rest]; [contradiction|]. rewrite <- (tails_match _ PL q).
  inversion PL as [|? ? [Pk Hk] _]; subst. destruct d.
  - cbn [cands tails]. rewrite app_nil_r, !in_app_iff, !in_map_iff. split.
    + intros (q' & <- & HI). split; [left; eauto|]. intros _. cbn. rewrite Hk, Pk. reflexivity.
    + intros [[H|[(q' & <- & _)|[<-|[]]]] D]; [exact H| |]; specialize (D eq_refl); discriminate.
  - change (cands false (k :: rest)) with (tails (k :: rest)). split; [intro H; split; [exact H|discriminate]|tauto].
Qed.

(* a particle before its children, the children in map order: the order of scanMessages' walk, so that
   scan_msgs_found below is an equation of lists.  No path occurs twice (paths_NoDup), which is where
   "each message once" comes from. *)
Fixpoint paths (n : node) : list (list level) :=
  match n with
  | Node _ ch => [] :: flat_map (fun e : level * node => let (k, a) := e in map (cons k) (paths a)) ch
  end.

Lemma paths_seek q : forall n, seek q n <> None -> In q (paths n).
Proof.
  induction q as [|k q IH]; intros [c ch] S; [left; reflexivity|]. right. cbn [seek children] in S.
  destruct (get_child k ch) as [a|] eqn:G; [|contradiction]. apply in_flat_map. exists (k, a).
  split; [exact (al_get_In beq_bytes_eq _ _ _ G)|apply in_map, IH, S].
Qed.

Lemma paths_NoDup n : wf_node n -> NoDup (paths n).
Proof.
  induction 1 as [c ch _ ND _ IH]. cbn [paths]. constructor.
  - intro HI. apply in_flat_map in HI. destruct HI as ([k a] & _ & HI). apply in_map_iff in HI. destruct HI as (q & E & _). discriminate.
  - apply (NoDup_flat_map fst (fun q => hd [] q)); [exact ND| |].
    + intros [k a] HI. apply FinFun.Injective_map_NoDup; [intros q q' E; injection E; auto|exact (IH k a HI)].
    + intros [k a] q _ HI. apply in_map_iff in HI. destruct HI as (q' & <- & _). reflexivity.
Qed.

Definition found ret (P : list level -> bool) (n : node) : list msg := at_paths (own_msg ret) n (filter P (paths n)).

Lemma found_node ret P c ch : NoDup (keys ch) ->
  found ret P (Node c ch) =
  (if P [] then own_msg ret c else []) ++ flat_map (fun e => found ret (fun q => P (fst e :: q)) (snd e)) ch.
Proof.
  intro ND. unfold found. cbn [paths filter].
  replace (flat_map _ ch) with
    (at_paths (own_msg ret) (Node c ch) (filter P (flat_map (fun e : level * node => let (k, a) := e in map (cons k) (paths a)) ch))).
  - destruct (P []); reflexivity.
  - rewrite filter_flat_map. unfold at_paths at 1. rewrite flat_map_flat_map. apply flat_map_ext_in. intros [k a] HI.
    rewrite filter_map_swap. cbn [fst snd]. etransitivity; [apply (at_paths_cons (own_msg ret) (Node c ch)); reflexivity|]. cbn [children].
    unfold get_child. rewrite (In_al_get beq_bytes_eq k a ch ND HI). reflexivity.
Qed.

Lemma found_if ret (b : bool) P Q n : (forall q, P q = b && Q q) -> found ret P n = if b then found ret Q n else [].
Proof.
  intro H. unfold found. rewrite (filter_ext _ _ H). destruct b; [reflexivity|].
  replace (filter _ (paths n)) with (@nil (list level)); [reflexivity|]. induction (paths n); [reflexivity|assumption].
Qed.

Lemma scan_hash_eq ret c ch :
  scan_hash ret (Node c ch) = own_msg ret c ++ flat_map (fun e : level * node => scan_hash ret (snd e)) ch.
Proof.
  cbn [scan_hash]. f_equal. induction ch as [|[k a] ch IH]; [reflexivity|]. cbn [flat_map snd]. rewrite <- IH. reflexivity.
Qed.

Lemma found_all ret n : wf_node n -> found ret (fun _ => true) n = scan_hash ret n.
Proof.
  induction 1 as [c ch _ ND _ IH]. rewrite scan_hash_eq, found_node by exact ND. f_equal.
  apply flat_map_ext_in. intros [k a] HI. exact (IH k a HI).
Qed.

Lemma found_root ret n : wf_node n -> found ret (fun q => lv_match [] q) n = own_msg ret (cont n).
Proof.
  destruct 1 as [c ch _ ND _]. rewrite found_node by exact ND. cbn [lv_match cont]. rewrite flat_map_nil; [apply app_nil_r|].
  intros e _. exact (found_if ret false _ (fun _ => true) (snd e) (fun _ => eq_refl)).
Qed.

Fixpoint hash_last (fs : list level) : Prop :=
  match fs with [] => True | h :: r => (is_hash h = true -> r = []) /\ hash_last r end.

Lemma levels_ok_hash_last fs : levels_ok fs = true -> hash_last fs.
Proof.
  induction fs as [|h r IH]; cbn [levels_ok hash_last]; [tauto|]. intro H.
  apply andb_true_iff in H. destruct H as [H H3]. apply andb_true_iff in H. destruct H as [H1 _].
  split; [|apply IH; exact H3]. intro E. apply is_hash_eq in E. subst h. cbn in H1.
  destruct r; [reflexivity|discriminate].
Qed.

Definition hd_dollar (q : list level) : bool := match q with k :: _ => starts_dollar k | [] => false end.
Definition reachb (top : bool) (fs q : list level) : bool :=
  lv_match fs q && negb (top && leading_wild fs && hd_dollar q).

Lemma scan_msgs_found ret : al_get beq_bytes [] ret = None ->
  forall fs top n, fs <> [] -> hash_last fs -> wf_node n -> scan_msgs ret top fs n = found ret (reachb top fs) n.
Proof.
  intro N0. induction fs as [|key rest IH]; intros top n NE HL W; [contradiction|]. clear NE. destruct HL as [HL1 HL2].
  destruct W as [c ch Wc ND Wch]. rewrite found_node by exact ND. cbn [scan_msgs cont children fst snd].
  (* the levels that follow, below a child *)
  assert (NEXT : forall k a, In (k, a) ch ->
            found ret (lv_match rest) a = if negb (nilb rest) then scan_msgs ret false rest a else own_msg ret (cont a)).
  { intros k a HI. pose proof (Wch k a HI) as Wa. destruct rest as [|r1 r2]; cbn [nilb negb]; [apply found_root, Wa|].
    rewrite (IH false a) by (discriminate || assumption). symmetry. apply (found_if ret true). intro q. apply andb_true_r. }
  unfold reachb. cbn [lv_match leading_wild hd_dollar]. rewrite !andb_false_r. cbn [negb]. rewrite !andb_true_r.
  destruct (is_hash key) eqn:HK; cbn [orb].
  - (* '#': the particle itself and everything below it *)
    rewrite orb_true_r. rewrite (HL1 eq_refl). cbn [nilb negb andb app]. f_equal. apply flat_map_ext_in. intros [k a] HI.
    cbn [fst snd]. rewrite (found_if ret (negb (top && starts_dollar k)) _ (fun _ => true)), (found_all ret a (Wch k a HI))
      by (intro; rewrite !andb_true_r; reflexivity).
    destruct (top && starts_dollar k); reflexivity.
  - destruct (is_plus key) eqn:PK; cbn [orb app].
    + (* '+': every child *)
      apply flat_map_ext_in. intros [k a] HI. cbn [fst snd].
      rewrite (found_if ret (negb (top && starts_dollar k)) _ (lv_match rest)), (NEXT k a HI) by (intro; rewrite andb_true_r; apply andb_comm).
      destruct (top && starts_dollar k); [reflexivity|]. cbn [negb].
      destruct (nilb rest); cbn [negb andb]; [rewrite app_nil_r|]; reflexivity.
    + (* a literal level *)
      rewrite !andb_false_r. cbn [negb].
      rewrite (flat_map_ext_in _ (fun e => if beq_bytes key (fst e) then found ret (lv_match rest) (snd e) else [])).
      * rewrite (flat_map_key beq_bytes_eq (found ret (lv_match rest)) key ch ND). fold (get_child key ch).
        destruct (get_child key ch) as [p|] eqn:G; [|reflexivity].
        rewrite (NEXT key p (al_get_In beq_bytes_eq _ _ _ G)). destruct (nilb rest); [|reflexivity].
        (* scanMessages looks the retainPath up without testing it for "": this is what N0 is for *)
        unfold own_msg. destruct (c_retain (cont p)); [unfold ret_lookup; rewrite N0|]; reflexivity.
      * intros [k a] _. cbn [fst snd]. apply found_if. intro q. rewrite andb_true_r. reflexivity.
Qed.

Lemma reachb_topic_matches f t : reachb true (split f) (split t) = topic_matches f t.
Proof.
  unfold reachb, topic_matches. replace (hd_dollar (split t)) with (starts_dollar t).
  - cbn [andb]. rewrite (andb_comm (starts_dollar t)).
    destruct (leading_wild (split f) && starts_dollar t); [apply andb_false_r|apply andb_true_r].
  - destruct t as [|c r]; [reflexivity|]. destruct (N.eq_dec c 47) as [->|NC]; [rewrite split_cut; reflexivity|].
    destruct (split_head_first c r NC) as (l & rest & ->). reflexivity.
Qed.
