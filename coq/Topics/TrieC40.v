(* Topics-level facts for C40 (inline client API): inline subscriptions are selected exactly when their filter
   matches, including a trailing '#' on the parent level, and removing one inline subscription leaves the others.
   The facts are about the abstract steps; that the model's InlineSubscribe / InlineUnsubscribe are these steps,
   return values included, is TrieRefine.inline_subscribe_R, inline_unsubscribe_R and step_R. *)
From MV Require Import Base.Val Topics.Levels Topics.LevelsProofs Topics.Match Topics.Alist Topics.AlistProofs
  Topics.IndexSpec Topics.Trie Topics.TrieScan Topics.TrieRel Topics.TrieRefine Topics.TrieSelect.
Open Scope N_scope.

Lemma lv_match_snoc_hash ls : Forall plain ls -> lv_match (ls ++ [[35]]) ls = true.
Proof.
  induction 1 as [|l ls [Hp Hh] _ IH]; [reflexivity|]. cbn [app lv_match]. rewrite Hh, beq_bytes_refl, orb_true_r. exact IH.
Qed.

Lemma matches_parent_hash t : valid_topic t -> topic_matches (t ++ [47; 35]) t = true.
Proof.
  intro V. pose proof (valid_topic_plain t V) as PL. unfold topic_matches.
  rewrite (split_app_slash t [35]). change (split [35]) with [[35]].
  replace (leading_wild (split t ++ [[35]])) with (leading_wild (split t)).
  - rewrite (plain_leading _ PL), andb_false_r. apply lv_match_snoc_hash. exact PL.
  - pose proof (split_nonempty t). destruct (split t); [contradiction|reflexivity].
Qed.

(* an inline subscription is handed to the publisher exactly when its filter matches the topic *)
Lemma inline_selected_iff ops t id f pay : wf_ops ops -> valid_topic t ->
  (In (id, f, pay) (r_in (subscribers (run ops) t)) <->
   al_get beq_npair (id, f) (a_in (abs ops)) = Some pay /\ topic_matches f t = true).
Proof. intros W V. exact (selected_inline _ _ (R_run ops W) t V id f pay). Qed.

(* ... in particular inline "t/#" receives publishes on t (defect C01-4 / C40-1 before fix d67a363) *)
Lemma inline_parent_hash ops t id pay : wf_ops ops -> valid_topic t ->
  al_get beq_npair (id, t ++ [47; 35]) (a_in (abs ops)) = Some pay ->
  In (id, t ++ [47; 35], pay) (r_in (subscribers (run ops) t)).
Proof. intros W V G. apply inline_selected_iff; [exact W|exact V|]. split; [exact G|apply matches_parent_hash; exact V]. Qed.

Lemma beq_npair_sym p q : beq_npair p q = beq_npair q p.
Proof. apply eq_true_iff_eq. rewrite !beq_npair_eq. split; congruence. Qed.

(* InlineSubscribe makes the entry present with the new datum, InlineUnsubscribe removes that entry only *)
Lemma inline_sub_adds a id f pay id2 f2 :
  al_get beq_npair (id2, f2) (a_in (fst (a_step a (OInSub id f pay)))) =
  if beq_npair (id2, f2) (id, f) then Some pay else al_get beq_npair (id2, f2) (a_in a).
Proof.
  cbn [a_step fst a_in]. rewrite al_get_set, beq_npair_sym by exact beq_npair_eq. reflexivity.
Qed.

Lemma inline_unsub_one a id f id2 f2 :
  al_get beq_npair (id2, f2) (a_in (fst (a_step a (OInUnsub id f)))) =
  if beq_npair (id2, f2) (id, f) then None else al_get beq_npair (id2, f2) (a_in a).
Proof.
  cbn [a_step fst a_in]. rewrite al_get_del, beq_npair_sym by exact beq_npair_eq. reflexivity.
Qed.
