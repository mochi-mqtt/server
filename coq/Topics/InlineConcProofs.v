(* C40, concurrency dimension: with InlineSubscribe's walk + add as one atomic step, every schedule of inline
   subscribes / unsubscribes / publishes and index operations is a serial execution of the set specification
   (same return values, same handler calls, related final state); the split variant is refuted by a schedule. *)
From MV Require Import Base.Val Topics.IndexSpec Topics.Trie Topics.TrieRefine Topics.TrieSelect Topics.Lin
  Topics.LinProofs Topics.InlineConc.
Open Scope N_scope.

Lemma has_id_ext i l1 l2 : set_eq l1 l2 -> has_id i l1 = has_id i l2.
Proof.
  intro E. apply eq_true_iff_eq. unfold has_id. rewrite !existsb_exists.
  split; intros (e & HI & HE); exists e; (split; [apply E; exact HI|exact HE]).
Qed.

Lemma pub_mask_ext l1 l2 : set_eq l1 l2 -> pub_mask l1 = pub_mask l2.
Proof. intro E. unfold pub_mask. rewrite !(has_id_ext _ l1 l2 E). reflexivity. Qed.

Lemma m_step_R x a c : R x a -> wf_copb c = true ->
  R (fst (m_step x c)) (fst (c_step a c)) /\ snd (m_step x c) = snd (c_step a c).
Proof.
  intros HR W. destruct c as [o|t]; cbn [m_step c_step wf_copb] in *.
  - destruct (step_R x a o HR W) as [H1 H2]. destruct (t_step x o) as [x' r]. destruct (a_step a o) as [a' r'].
    cbn [fst snd] in *. split; [exact H1|]. rewrite H2. reflexivity.
  - cbn [fst snd]. split; [exact HR|]. apply pub_mask_ext. apply select_inline; assumption.
Qed.

Theorem inline_atomic_all_schedules : forall x0 a0 prog sched xf restf h,
  R x0 a0 -> Forall (fun c => wf_copb c = true) (concat prog) ->
  run_sched m_step sched x0 prog = (xf, restf, h) ->
  let serial := map (fun e : nat * cop * N => snd (fst e)) h in
  (forall t, proj t h ++ nth t restf [] = nth t prog []) /\
  map snd h = snd (seq_run c_step a0 serial) /\
  R xf (fst (seq_run c_step a0 serial)).
Proof. intros x0 a0 prog sched xf restf h. exact (sched_simulation m_step c_step R m_step_R). Qed.

Definition ab : bytes := tag "a/b".
Definition x_pre : index := run [OSub (tag "c1") ab 1].
Definition a_pre : astate := abs [OSub (tag "c1") ab 1].

(* goroutine 0: inline Subscribe(a/b, 1) split in walk and add; goroutine 1: the client unsubscribes a/b.
   Schedule walk, unsubscribe, add: the unsubscribe prunes the still empty particle, the subscription lands on a
   particle that is no longer in the tree, and a publish on a/b calls no handler — although Subscribe returned nil
   and nobody unsubscribed identifier 1.  The atomic model calls handler 1 under every schedule, as the
   specification does under both serial orders. *)
Lemma split_refuted :
  let prog := [[SWalk ab; SAdd 1 ab 0]; [SO (CO (OUnsub (tag "c1") ab))]] in
  (let '(xf, _, _) := run_sched s_step [0; 1; 0]%nat x_pre prog in pub_mask (r_in (subscribers xf ab))) = 0 /\
  (let '(xf, _, _) := run_sched s_step [0; 0; 1]%nat x_pre prog in pub_mask (r_in (subscribers xf ab))) = 1 /\
  (let '(xf, _, _) := run_sched m_step [0; 1]%nat x_pre [[CO (OInSub 1 ab 0)]; [CO (OUnsub (tag "c1") ab)]] in
   pub_mask (r_in (subscribers xf ab))) = 1 /\
  (let '(xf, _, _) := run_sched m_step [1; 0]%nat x_pre [[CO (OInSub 1 ab 0)]; [CO (OUnsub (tag "c1") ab)]] in
   pub_mask (r_in (subscribers xf ab))) = 1 /\
  snd (c_step (fst (seq_run c_step a_pre [CO (OInSub 1 ab 0); CO (OUnsub (tag "c1") ab)])) (CPub ab)) = 1 /\
  snd (c_step (fst (seq_run c_step a_pre [CO (OUnsub (tag "c1") ab); CO (OInSub 1 ab 0)])) (CPub ab)) = 1.
Proof. vm_compute. repeat split. Qed.

(* and the run-time checker rejects exactly that observation (publish on a/b afterwards calls nobody) *)
Lemma split_observation_rejected :
  conc_explained c_step a_empty [(CO (OSub (tag "c1") ab 1), 1)]
    [[(CO (OInSub 1 ab 0), 0)]; [(CO (OUnsub (tag "c1") ab), 1)]] [(CPub ab, 0)] = false /\
  conc_explained c_step a_empty [(CO (OSub (tag "c1") ab 1), 1)]
    [[(CO (OInSub 1 ab 0), 0)]; [(CO (OUnsub (tag "c1") ab), 1)]] [(CPub ab, 1)] = true.
Proof. vm_compute. split; reflexivity. Qed.
