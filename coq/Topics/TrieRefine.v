(* The particle tree refines the abstract index: every operation of topics.go keeps the relation R and
   returns what the set / map specification returns (C31 sequential part; the queries are in TrieSelect.v). *)
From MV Require Import Base.Val Topics.Levels Topics.LevelsProofs Topics.Match Topics.Alist Topics.AlistProofs
  Topics.IndexSpec Topics.Trie Topics.TrieInv Topics.TrieRel Topics.Lin Topics.LinProofs.
From Coq Require Import Lia.
Open Scope N_scope.

(* R_root: no operation writes at the empty path, so the root particle stays empty; the relation carries
   this along, the queries do not need it. *)
Record R (x : index) (a : astate) : Prop := mkRrel {
  R_wf : wf_node (ix_root x);
  R_root : cont (ix_root x) = empty_content;
  R_cl : Rcl (content_at (ix_root x)) (a_cl a);
  R_sh : Rsh (content_at (ix_root x)) (a_sh a);
  R_in : Rin (content_at (ix_root x)) (a_in a);
  R_ret : ix_ret x = a_ret a;
  R_rp : Rrp (content_at (ix_root x)) (ix_ret x);
  R_nd : NoDup (keys (a_cl a)) /\ NoDup (keys (a_sh a)) /\ NoDup (keys (a_in a)) /\ NoDup (keys (a_ret a));
  R_pl : forall t pl, al_get beq_bytes t (ix_ret x) = Some pl -> pl <> []
}.

Lemma R_empty : R ix_empty a_empty.
Proof.
  constructor; cbn.
  - apply wf_new_particle.
  - reflexivity.
  - split; intros; rewrite content_at_new in *; cbn in *; [reflexivity|discriminate].
  - split; intros; rewrite content_at_new in *; cbn in *; [reflexivity|discriminate].
  - split; intros; rewrite content_at_new in *; cbn in *; [reflexivity|discriminate].
  - reflexivity.
  - split; intros; [discriminate|]. rewrite content_at_new in *. cbn in *. contradiction.
  - repeat split; constructor.
  - discriminate.
Qed.

(* R after a point update of the tree at a path below the root.  Each of the four components is either
   untouched (F keeps its field, the abstract part is the old one) or established anew. *)
Lemma R_upd x a r' p F acl ash ain ret :
  R x a -> wf_node r' -> upd (ix_root x) r' p F -> p <> [] ->
  (acl = a_cl a /\ (forall c, c_subs (F c) = c_subs c) \/ Rcl (content_at r') acl /\ NoDup (keys acl)) ->
  (ash = a_sh a /\ (forall c, c_shared (F c) = c_shared c) \/ Rsh (content_at r') ash /\ NoDup (keys ash)) ->
  (ain = a_in a /\ (forall c, c_inline (F c) = c_inline c) \/ Rin (content_at r') ain /\ NoDup (keys ain)) ->
  (ret = a_ret a /\ (forall c, c_retain (F c) = c_retain c) \/
   Rrp (content_at r') ret /\ NoDup (keys ret) /\ (forall t pl, al_get beq_bytes t ret = Some pl -> pl <> [])) ->
  R (mkIx r' ret) (mkA acl ash ain ret).
Proof.
  intros [Wf Rt Cl Sh Inl Re Rp (N1 & N2 & N3 & N4) Pl] W' U NE Hcl Hsh Hin Hret. rewrite Re in Rp, Pl.
  assert (Cl' : Rcl (content_at r') acl /\ NoDup (keys acl)).
  { destruct Hcl as [[-> H]|H]; [|exact H]. split; [exact (Rkey_other U H Cl)|exact N1]. }
  assert (Sh' : Rsh (content_at r') ash /\ NoDup (keys ash)).
  { destruct Hsh as [[-> H]|H]; [|exact H]. split; [exact (Rsh_other U H Sh)|exact N2]. }
  assert (Inl' : Rin (content_at r') ain /\ NoDup (keys ain)).
  { destruct Hin as [[-> H]|H]; [|exact H]. split; [exact (Rkey_other U H Inl)|exact N3]. }
  assert (Rp' : Rrp (content_at r') ret /\ NoDup (keys ret) /\
                (forall t pl, al_get beq_bytes t ret = Some pl -> pl <> [])).
  { destruct Hret as [[-> H]|H]; [|exact H]. split; [exact (Rrp_other U H Rp)|auto]. }
  destruct Cl' as [Cl' M1], Sh' as [Sh' M2], Inl' as [Inl' M3], Rp' as (Rp' & M4 & Pl').
  constructor; cbn [ix_root ix_ret a_cl a_sh a_in a_ret]; auto.
  rewrite (upd_root _ _ _ _ U NE). exact Rt.
Qed.

(* the premise on r' is a conjunction because set_upd and seek_upd deliver it as one *)
Lemma R_put_cl x a r' c f v : R x a ->
  wf_node r' /\ upd (ix_root x) r' (split f)
                    (fun c0 => set_subs (al_put beq_bytes c (option_map (mkSub f) v) (c_subs c0)) c0) ->
  R (mkIx r' (ix_ret x)) (mkA (al_put beq_pair (c, f) v (a_cl a)) (a_sh a) (a_in a) (a_ret a)).
Proof.
  intros HR [W U]. rewrite (R_ret _ _ HR).
  apply (R_upd x a r' _ _) with (3 := U); try (left; split; reflexivity); [exact HR|exact W|apply split_nonempty|].
  right. split; [exact (Rcl_put v U (fun _ => eq_refl) (R_cl _ _ HR))|].
  apply NoDup_al_put; [exact beq_pair_eq|apply HR].
Qed.

Lemma R_put_in x a r' id f v : R x a ->
  wf_node r' /\ upd (ix_root x) r' (split f)
                    (fun c0 => set_inline (al_put N.eqb id (option_map (mkSub f) v) (c_inline c0)) c0) ->
  R (mkIx r' (ix_ret x)) (mkA (a_cl a) (a_sh a) (al_put beq_npair (id, f) v (a_in a)) (a_ret a)).
Proof.
  intros HR [W U]. rewrite (R_ret _ _ HR).
  apply (R_upd x a r' _ _) with (3 := U); try (left; split; reflexivity); [exact HR|exact W|apply split_nonempty|].
  right. split; [exact (Rin_put v U (fun _ => eq_refl) (R_in _ _ HR))|].
  apply NoDup_al_put; [exact beq_npair_eq|apply HR].
Qed.

Lemma R_put_sh x a r' c f v : R x a -> is_share f = true -> (2 < length (split f))%nat ->
  wf_node r' /\ upd (ix_root x) r' (split (eff_filter f))
                    (fun c0 => set_shared (sh_put (share_group f) c (option_map (mkSub f) v) (c_shared c0)) c0) ->
  R (mkIx r' (ix_ret x))
    (mkA (a_cl a) (al_put beq_triple (c, share_group f, eff_filter f) (option_map (pair f) v) (a_sh a)) (a_in a) (a_ret a)).
Proof.
  intros HR S L [W U]. rewrite (R_ret _ _ HR).
  apply (R_upd x a r' _ _) with (3 := U); try (left; split; reflexivity); [exact HR|exact W|apply split_nonempty|].
  right. split; [|apply NoDup_al_put; [exact beq_triple_eq|apply HR]].
  apply (Rsh_put (option_map (pair f) v)) with (2 := U); [|destruct v; reflexivity|apply HR].
  intros f0 pay E. destruct v; [|discriminate]. injection E as <- _. repeat split; auto using eff_split.
Qed.

Lemma R_put_ret x a r' t v : R x a -> t <> [] -> (forall pl, v = Some pl -> pl <> []) ->
  wf_node r' /\ upd (ix_root x) r' (split t) (set_retain (if v then t else [])) ->
  R (mkIx r' (al_put beq_bytes t v (ix_ret x))) (mkA (a_cl a) (a_sh a) (a_in a) (al_put beq_bytes t v (a_ret a))).
Proof.
  intros HR NE Pv [W U]. rewrite (R_ret _ _ HR). pose proof HR as [_ _ _ _ _ Re Rp (_ & _ & _ & N4) Pl]. rewrite Re in Rp, Pl.
  apply (R_upd x a r' _ _) with (3 := U); try (left; split; reflexivity); [exact HR|exact W|apply split_nonempty|].
  right. split; [exact (Rrp_put _ _ _ _ _ v (fun _ => NE) U (fun _ => eq_refl) Rp)|].
  split; [apply NoDup_al_put; [exact beq_bytes_eq|exact N4]|].
  intros t2 pl2. rewrite al_get_put by exact beq_bytes_eq. destruct (beq_bytes t t2); [apply Pv|apply Pl].
Qed.

Lemma is_share_isolate f prefix hn : isolate f 0 = (prefix, hn) -> is_share_level prefix = is_share f.
Proof.
  rewrite isolate_spec. unfold is_share. pose proof (split_nonempty f) as NE.
  destruct (split f) as [|l [|l2 ls]]; [contradiction| |]; intro E; injection E as <- _; reflexivity.
Qed.

Lemma isolate_1 f group hn : isolate f 1 = (group, hn) -> (2 < length (split f))%nat -> group = share_group f.
Proof.
  rewrite isolate_spec. intros E L. apply Nat.ltb_lt in L. rewrite L in E. injection E as <- _. reflexivity.
Qed.

Lemma path_of_2 f : (2 < length (split f))%nat -> path_of f 2 = skipn 2 (split f).
Proof. intro L. rewrite path_of_spec. apply Nat.ltb_lt in L. rewrite L. reflexivity. Qed.

Lemma eff_nonshare f : is_share f = false -> eff_filter f = f.
Proof. intro S. unfold eff_filter. rewrite S. reflexivity. Qed.

Lemma path_of_nonempty f d : path_of f d <> [].
Proof. unfold path_of. cbn [walk]. destruct (isolate f d). discriminate. Qed.

Lemma empty_F_subs_del c : set_subs (al_del beq_bytes c (c_subs empty_content)) empty_content = empty_content.
Proof. reflexivity. Qed.
Lemma empty_F_sh_del g c : set_shared (sh_del g c (c_shared empty_content)) empty_content = empty_content.
Proof. reflexivity. Qed.
Lemma empty_F_in_del c : set_inline (al_del N.eqb c (c_inline empty_content)) empty_content = empty_content.
Proof. reflexivity. Qed.

Lemma index_eta x : x = mkIx (ix_root x) (ix_ret x).
Proof. destruct x. reflexivity. Qed.

Lemma subscribe_R x a c f pay : R x a -> wf_opb (OSub c f pay) = true ->
  R (fst (subscribe x c f pay)) (fst (a_step a (OSub c f pay))) /\
  snd (subscribe x c f pay) = snd (a_step a (OSub c f pay)).
Proof.
  intros HR WO. pose proof (R_wf _ _ HR) as Wf. unfold subscribe. cbn [a_step wf_opb] in *.
  destruct (isolate f 0) as [prefix hn0] eqn:I0. rewrite (is_share_isolate _ _ _ I0). destruct (is_share f) eqn:S.
  - apply Nat.ltb_lt in WO. destruct (isolate f 1) as [group hn1] eqn:I1.
    rewrite (isolate_1 _ _ _ I1 WO), (path_of_2 f WO), <- (eff_split f S WO). cbn [fst snd]. split.
    + exact (R_put_sh x a _ c f (Some pay) HR S WO (set_upd _ _ _ Wf (fun c0 => wf_shared_put c0 _ c _))).
    + rewrite content_at_create, (Rsh_mem _ _ _ _ _ (R_sh _ _ HR)). reflexivity.
  - rewrite path_of_0. cbn [fst snd]. split.
    + exact (R_put_cl x a _ c f (Some pay) HR (set_upd _ _ _ Wf (fun c0 => wf_subs_put c0 c _))).
    + rewrite content_at_create, (Rkey_mem c f (R_cl _ _ HR)). reflexivity.
Qed.

Lemma unsubscribe_R x a c f : R x a -> wf_opb (OUnsub c f) = true ->
  R (fst (unsubscribe x f c)) (fst (a_step a (OUnsub c f))) /\
  snd (unsubscribe x f c) = snd (a_step a (OUnsub c f)).
Proof.
  intros HR WO. pose proof (R_wf _ _ HR) as Wf. unfold unsubscribe. cbn [a_step wf_opb] in *.
  destruct (isolate f 0) as [prefix hn0] eqn:I0. rewrite (is_share_isolate _ _ _ I0). destruct (is_share f) eqn:S.
  - apply Nat.ltb_lt in WO. destruct (isolate f 1) as [group hn1] eqn:I1.
    rewrite (isolate_1 _ _ _ I1 WO), (path_of_2 f WO), <- (eff_split f S WO).
    rewrite <- (Rsh_mem _ _ c (share_group f) (eff_filter f) (R_sh _ _ HR)).
    assert (H := R_put_sh x a _ c f None HR S WO
                   (seek_upd (split (eff_filter f)) _ true _ Wf (fun c0 => wf_shared_put c0 _ c None) eq_refl)).
    cbv zeta in H. destruct (seek (split (eff_filter f)) (ix_root x)) as [m|] eqn:SK; cbn [fst snd].
    + rewrite (seek_content _ _ _ SK). split; [exact H|reflexivity].
    + rewrite (content_at_seek_none _ _ SK). split; [|reflexivity]. rewrite (index_eta x) at 1. exact H.
  - rewrite path_of_0. rewrite <- (Rkey_mem c f (R_cl _ _ HR)).
    assert (H := R_put_cl x a _ c f None HR (seek_upd (split f) _ true _ Wf (fun c0 => wf_subs_put c0 c None) eq_refl)).
    cbv zeta in H. destruct (seek (split f) (ix_root x)) as [m|] eqn:SK; cbn [fst snd].
    + rewrite (seek_content _ _ _ SK). split; [exact H|reflexivity].
    + rewrite (content_at_seek_none _ _ SK). split; [|reflexivity]. rewrite (index_eta x) at 1. exact H.
Qed.

Lemma inline_subscribe_R x a id f pay : R x a ->
  R (fst (inline_subscribe x id f pay)) (fst (a_step a (OInSub id f pay))) /\
  snd (inline_subscribe x id f pay) = snd (a_step a (OInSub id f pay)).
Proof.
  intros HR. unfold inline_subscribe. cbn [a_step]. rewrite path_of_0. cbn [fst snd]. split.
  - exact (R_put_in x a _ id f (Some pay) HR (set_upd _ _ _ (R_wf _ _ HR) (fun c0 => wf_inline_put c0 id _))).
  - rewrite content_at_create, (Rkey_mem id f (R_in _ _ HR)). reflexivity.
Qed.

Lemma inline_unsubscribe_R x a id f : R x a ->
  R (fst (inline_unsubscribe x id f)) (fst (a_step a (OInUnsub id f))) /\
  snd (inline_unsubscribe x id f) = snd (a_step a (OInUnsub id f)).
Proof.
  intros HR. unfold inline_unsubscribe. cbn [a_step]. rewrite path_of_0, <- (Rkey_mem id f (R_in _ _ HR)).
  assert (H := fun tr => R_put_in x a _ id f None HR
                    (seek_upd (split f) _ tr _ (R_wf _ _ HR) (fun c0 => wf_inline_put c0 id None) eq_refl)).
  cbv zeta in H. destruct (seek (split f) (ix_root x)) as [m|] eqn:SK; cbn [fst snd].
  - rewrite (seek_content _ _ _ SK). split; [|reflexivity].
    destruct (nilb (al_del N.eqb id (c_inline (content_at (ix_root x) (split f))))); [exact (H true)|exact (H false)].
  - rewrite (content_at_seek_none _ _ SK). split; [|reflexivity]. rewrite (index_eta x) at 1. exact (H true).
Qed.

Lemma valid_topic_nonempty t : valid_topicb t = true -> t <> [].
Proof. destruct t; discriminate. Qed.

Lemma retain_R x a t pl : R x a -> wf_opb (ORetain t pl) = true ->
  R (fst (retain_message x t pl)) (fst (a_step a (ORetain t pl))) /\
  snd (retain_message x t pl) = snd (a_step a (ORetain t pl)).
Proof.
  intros HR WO. pose proof (R_wf _ _ HR) as Wf. cbn [wf_opb] in WO. apply valid_topic_nonempty in WO.
  unfold retain_message. cbn [a_step]. rewrite path_of_0.
  destruct (set_upd (split t) (set_retain (if nilb pl then [] else t)) _ Wf (fun _ H => H)) as [W U].
  destruct (nilb pl) eqn:E; cbn [negb fst snd].
  - (* clear: what was stored had a payload *)
    split.
    + apply (R_put_ret x a _ t None HR WO); [discriminate|]. split; [apply trim_wf, W|apply upd_trim; [exact W|exact U]].
    + rewrite (R_ret _ _ HR). unfold al_mem. destruct (al_get beq_bytes t (a_ret a)) as [pl0|] eqn:G; [|reflexivity].
      rewrite <- (R_ret _ _ HR) in G. apply (R_pl _ _ HR) in G. destruct pl0; [contradiction|reflexivity].
  - split; [|reflexivity]. apply (R_put_ret x a _ t (Some pl) HR WO); [|split; [exact W|exact U]].
    intros pl0 H. injection H as <-. intros ->. discriminate.
Qed.

Lemma expire_R x a t : R x a ->
  R (fst (expire_retained x t)) (fst (a_step a (OExpire t))) /\
  snd (expire_retained x t) = snd (a_step a (OExpire t)).
Proof.
  intros HR. pose proof HR as [Wf _ _ _ _ Re Rp (_ & _ & _ & N4) Pl]. rewrite Re in Rp, Pl.
  unfold expire_retained. cbn [a_step fst snd]. split; [|reflexivity]. rewrite Re.
  apply (R_upd x a _ [[]] (fun c => c)); try (left; split; reflexivity); [exact HR|exact Wf|apply upd_id|discriminate|].
  right. split; [apply Rrp_expire; exact Rp|]. split; [apply NoDup_al_del; exact N4|].
  intros t2 pl2. rewrite al_get_del by exact beq_bytes_eq. destruct (beq_bytes t t2); [discriminate|apply Pl].
Qed.

Lemma step_R x a o : R x a -> wf_opb o = true ->
  R (fst (t_step x o)) (fst (a_step a o)) /\ snd (t_step x o) = snd (a_step a o).
Proof.
  intros HR WO. destruct o; cbn [t_step].
  - apply subscribe_R; assumption.
  - apply unsubscribe_R; assumption.
  - apply inline_subscribe_R; assumption.
  - apply inline_unsubscribe_R; assumption.
  - apply retain_R; assumption.
  - apply expire_R; assumption.
Qed.

Lemma run_R ops : forall x a, R x a -> wf_ops ops -> R (t_run x ops) (a_run a ops).
Proof.
  induction ops as [|o ops IH]; intros x a HR WO; [exact HR|].
  inversion WO as [|? ? W1 W2]; subst. cbn [t_run a_run]. apply IH; [|exact W2].
  apply step_R; assumption.
Qed.

Lemma R_run ops : wf_ops ops -> R (run ops) (abs ops).
Proof. apply run_R. apply R_empty. Qed.

Fixpoint t_rets (x : index) (ops : list op) : list N :=
  match ops with [] => [] | o :: r => snd (t_step x o) :: t_rets (fst (t_step x o)) r end.
Fixpoint a_rets (a : astate) (ops : list op) : list N :=
  match ops with [] => [] | o :: r => snd (a_step a o) :: a_rets (fst (a_step a o)) r end.

Lemma rets_R ops : forall x a, R x a -> wf_ops ops -> t_rets x ops = a_rets a ops.
Proof.
  induction ops as [|o ops IH]; intros x a HR WO; [reflexivity|].
  inversion WO as [|? ? W1 W2]; subst. cbn [t_rets a_rets].
  destruct (step_R x a o HR W1) as [HR' E]. rewrite E. f_equal. apply IH; assumption.
Qed.

Lemma seq_run_a : forall ops a, seq_run a_step a ops = (a_run a ops, a_rets a ops).
Proof.
  induction ops as [|o ops IH]; intro a; cbn [seq_run a_run a_rets]; [reflexivity|].
  destruct (a_step a o) as [a' v]. cbn [fst snd]. rewrite IH. reflexivity.
Qed.

(* If every exported mutator runs atomically (x.root.Lock() held from its first to its last statement), then
   for every schedule the return values and the final index are those of the set / map specification under
   a serial order consistent with every goroutine's program order. *)
Theorem index_linearizable : forall prog sched xf restf h, wf_ops (concat prog) ->
  run_sched t_step sched ix_empty prog = (xf, restf, h) ->
  let serial := map (fun e : nat * op * N => snd (fst e)) h in
  (forall t, proj t h ++ nth t restf [] = nth t prog []) /\
  map snd h = a_rets a_empty serial /\
  R xf (a_run a_empty serial).
Proof.
  intros prog sched xf restf h W H serial.
  destruct (sched_simulation t_step a_step R step_R R_empty W H) as (P & RV & HR).
  fold serial in RV, HR. rewrite seq_run_a in RV, HR. auto.
Qed.
