(* split and join are inverse to each other (join_split; split_join on levels without '/', the notion
   [noslash] defined here), split is injective, and cut / isolate / path_of, which the Go code uses to walk a
   filter level by level, compute the levels of split (split_cut, isolate_spec, path_of_spec). *)
From MV Require Export Base.BytesEq.
From MV Require Import Base.Val Topics.Levels.
From Coq Require Import Lia.
Open Scope N_scope.

Lemma beq_levels_eq a b : beq_levels a b = true <-> a = b.
Proof.
  revert b. induction a as [|x a IH]; intros [|y b]; cbn [beq_levels]; try (split; [discriminate|congruence]).
  - split; reflexivity.
  - rewrite andb_true_iff, beq_bytes_eq, IH. split; [intros [-> ->]; reflexivity|intro E; injection E; auto].
Qed.

Lemma beq_levels_refl p : beq_levels p p = true.
Proof. apply beq_levels_eq. reflexivity. Qed.

Lemma nilb_nil {A} (l : list A) : nilb l = true <-> l = [].
Proof. destruct l; cbn; split; congruence. Qed.

Lemma split_aux_spec s : forall cur, exists l ls, split s = l :: ls /\ split_aux cur s = (rev cur ++ l) :: ls.
Proof.
  unfold split. induction s as [|c s IH]; intro cur; cbn [split_aux].
  - exists [], []. rewrite app_nil_r. auto.
  - destruct (c =? 47).
    + exists [], (split_aux [] s). rewrite app_nil_r. auto.
    + destruct (IH [c]) as (l & ls & E & ->), (IH (c :: cur)) as (l' & ls' & E' & ->).
      rewrite E in E'. injection E' as <- <-. exists (c :: l), ls. split; [reflexivity|].
      cbn [rev]. rewrite <- app_assoc. reflexivity.
Qed.

Lemma split_cons c s : exists l ls,
  split s = l :: ls /\ split (c :: s) = if c =? 47 then [] :: l :: ls else (c :: l) :: ls.
Proof.
  destruct (split_aux_spec s [c]) as (l & ls & E & E1). exists l, ls. split; [exact E|].
  unfold split in *. cbn [split_aux]. rewrite E1, E. reflexivity.
Qed.

Lemma split_nonempty s : split s <> [].
Proof. destruct (split_aux_spec s []) as (l & ls & -> & _). discriminate. Qed.

Lemma split_nil : split [] = [[]].
Proof. reflexivity. Qed.

Lemma split_head_first c s : c <> 47 -> exists l rest, split (c :: s) = (c :: l) :: rest.
Proof.
  intro NE. destruct (split_cons c s) as (l & ls & _ & ->). apply N.eqb_neq in NE. rewrite NE. eauto.
Qed.

Lemma split_app_slash a b : split (a ++ 47 :: b) = split a ++ split b.
Proof.
  induction a as [|c a IH]; cbn [app].
  - destruct (split_cons 47 b) as (l & ls & E & ->). rewrite E. reflexivity.
  - destruct (split_cons c (a ++ 47 :: b)) as (l & ls & E & ->), (split_cons c a) as (l' & ls' & E' & ->).
    rewrite IH, E' in E. injection E as <- <-. destruct (c =? 47); reflexivity.
Qed.

Lemma join_split s : join (split s) = s.
Proof.
  induction s as [|c s IH]; [reflexivity|]. destruct (split_cons c s) as (l & ls & E & ->). rewrite E in IH.
  destruct (c =? 47) eqn:C.
  - apply N.eqb_eq in C. subst c. cbn [join app]. cbn [join] in IH. rewrite IH. reflexivity.
  - cbn [join] in *. destruct ls; cbn [app]; rewrite IH; reflexivity.
Qed.

Lemma split_inj a b : split a = split b -> a = b.
Proof. intro H. rewrite <- (join_split a), <- (join_split b), H. reflexivity. Qed.

Lemma split_single_nil s : split s = [[]] -> s = [].
Proof. intro H. apply split_inj. rewrite H. reflexivity. Qed.

Lemma has_split c s : c = 47 \/ has c s = false -> Forall (fun l => has c l = false) (split s).
Proof.
  induction s as [|x s IH]; intro H; [repeat constructor|].
  destruct (split_cons x s) as (l & ls & E & ->). rewrite E in IH.
  assert (H' : c = 47 \/ has c s = false).
  { destruct H as [H|H]; [left; exact H|right]. apply orb_false_iff in H. apply H. }
  specialize (IH H'). destruct (x =? 47) eqn:X; [constructor; [reflexivity|exact IH]|].
  inversion IH as [|? ? Hl Hls]; subst. constructor; [|exact Hls]. cbn [has]. rewrite Hl, orb_false_r.
  destruct H as [->|H]; [exact X|]. apply orb_false_iff in H. apply H.
Qed.

Definition noslash (ls : list level) : Prop := Forall (fun l => has 47 l = false) ls.

Lemma split_noslash s : noslash (split s).
Proof. apply has_split. left. reflexivity. Qed.

Lemma noslash_skipn n ls : noslash ls -> noslash (skipn n ls).
Proof.
  revert ls. induction n as [|n IH]; intros ls H; [exact H|]. destruct ls; [exact H|].
  cbn [skipn]. apply IH. inversion H; assumption.
Qed.

Lemma split_level l : has 47 l = false -> split l = [l].
Proof.
  induction l as [|c l IH]; [reflexivity|]. cbn [has]. intro H. apply orb_false_iff in H. destruct H as [C H].
  destruct (split_cons c l) as (l0 & ls & E & ->). rewrite (IH H) in E. injection E as <- <-. rewrite C. reflexivity.
Qed.

Lemma split_join ls : ls <> [] -> noslash ls -> split (join ls) = ls.
Proof.
  induction ls as [|l r IH]; intros NE NS; [contradiction|]. inversion NS as [|? ? Hl Hr]; subst.
  destruct r as [|l2 r2]; [exact (split_level l Hl)|].
  change (join (l :: l2 :: r2)) with (l ++ 47 :: join (l2 :: r2)).
  rewrite split_app_slash, (split_level l Hl), IH by (discriminate || exact Hr). reflexivity.
Qed.

Lemma split_length_le s : (length (split s) <= S (length s))%nat.
Proof.
  induction s as [|c s IH]; [cbn; lia|]. destruct (split_cons c s) as (l & ls & E & ->). rewrite E in IH.
  destruct (c =? 47); cbn [length] in *; lia.
Qed.

Lemma split_cut s : split s = match cut s with None => [s] | Some (a, r) => a :: split r end.
Proof.
  induction s as [|c s IH]; [reflexivity|]. destruct (split_cons c s) as (l & ls & E & ->). rewrite E in IH.
  cbn [cut]. destruct (c =? 47); [rewrite E; reflexivity|].
  destruct (cut s) as [[a r]|]; injection IH as -> ->; reflexivity.
Qed.

Lemma isolate_spec f d :
  isolate f d = if (S d <? length (split f))%nat then (nth d (split f) [], true)
                else (last (split f) [], false).
Proof.
  revert f. induction d as [|d IH]; intro f; cbn [isolate]; rewrite (split_cut f).
  - destruct (cut f) as [[a r]|]; [|reflexivity].
    pose proof (split_nonempty r) as NE. destruct (split r) eqn:Sr; [contradiction|]. reflexivity.
  - destruct (cut f) as [[a r]|]; [|reflexivity]. rewrite IH.
    pose proof (split_nonempty r) as NE. destruct (split r) as [|x y] eqn:Sr; [contradiction|].
    cbn [length nth]. change (S (S d) <? S (S (length y)))%nat with (S d <? S (length y))%nat.
    destruct (S d <? S (length y))%nat; reflexivity.
Qed.

Lemma skipn_cons_nth {A} (l : list A) d x : (d < length l)%nat -> nth d l x :: skipn (S d) l = skipn d l.
Proof.
  revert d. induction l as [|y l IH]; intros d L; cbn in L; [lia|].
  destruct d; [reflexivity|]. apply IH. lia.
Qed.

Lemma skipn_last {A} (l : list A) x : l <> [] -> skipn (length l - 1) l = [last l x].
Proof.
  induction l as [|y l IH]; intro NE; [contradiction|]. destruct l as [|z l]; [reflexivity|].
  change (last (y :: z :: l) x) with (last (z :: l) x). rewrite <- IH by discriminate.
  cbn [length Nat.sub]. rewrite Nat.sub_0_r. reflexivity.
Qed.

Lemma walk_spec fuel f d : (d < length (split f))%nat -> (length (split f) - d <= fuel)%nat ->
  walk fuel f d = skipn d (split f).
Proof.
  revert d. induction fuel as [|fu IH]; intros d L1 L2; [lia|].
  cbn [walk]. rewrite isolate_spec. destruct (S d <? length (split f))%nat eqn:E.
  - apply Nat.ltb_lt in E. rewrite IH by lia. apply skipn_cons_nth. exact L1.
  - apply Nat.ltb_ge in E. replace d with (length (split f) - 1)%nat by lia.
    symmetry. apply skipn_last. apply split_nonempty.
Qed.

Lemma walk_over fuel f d : (length (split f) <= d)%nat -> walk (S fuel) f d = [last (split f) []].
Proof.
  intro L. cbn [walk]. rewrite isolate_spec.
  replace (S d <? length (split f))%nat with false; [reflexivity|]. symmetry. apply Nat.ltb_ge. lia.
Qed.

Lemma path_of_spec f d :
  path_of f d = if (d <? length (split f))%nat then skipn d (split f) else [last (split f) []].
Proof.
  unfold path_of. destruct (d <? length (split f))%nat eqn:E.
  - apply Nat.ltb_lt in E. apply walk_spec; [exact E|]. pose proof (split_length_le f). lia.
  - apply Nat.ltb_ge in E. apply walk_over. exact E.
Qed.

Lemma path_of_0 f : path_of f 0 = split f.
Proof.
  rewrite path_of_spec. pose proof (split_nonempty f). destruct (split f); [contradiction|reflexivity].
Qed.
