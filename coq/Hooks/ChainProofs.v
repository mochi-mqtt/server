(* Proofs for C19 over the hook-chain model: for ALL hook stacks (lists of records of arbitrary
   functions), clients, packets, protocol versions and QoS. *)
From MV Require Import Base.Val Base.BytesEq Topics.Levels Topics.Match Hooks.Chain.
Open Scope N_scope.

Lemma classify_wrap (e : rawerr) : e <> RNil -> classify (RWrap e) = classify e.
Proof. destruct e; intro H; try reflexivity. contradiction H; reflexivity. Qed.

Lemma classify_wrapn (n : nat) (e : rawerr) : e <> RNil -> classify (wrapn n e) = classify e.
Proof.
  intro H. induction n as [|k IH]; [reflexivity|]. cbn [wrapn]. rewrite classify_wrap; [exact IH|].
  destruct k; cbn; [exact H | discriminate].
Qed.

Lemma classify_sentinels (n : nat) (c : N) :
  classify (wrapn n RReject) = EReject /\ classify (wrapn n RIgnore) = EIgnore /\
  classify (wrapn n (RCode c)) = ECode c /\ classify (wrapn n RPlain) = EOther.
Proof. repeat split; rewrite classify_wrapn; try reflexivity; discriminate. Qed.

(* the invocation log is the trace over the providing hooks; the chain's result is the composition
   of all of them if nobody objects, else the ORIGINAL packet *)
Lemma publish_from_spec (hs : list hook) (cl : client) (pk0 p : ppkt) :
  pub_trace cl (providers hk_publish hs) p (snd (publish_from hs cl pk0 p)) /\
  let '(p', e, _) := publish_from hs cl pk0 p in
  (e = ENone -> p' = compose_pub hs cl p) /\ (e <> ENone -> p' = pk0).
Proof.
  revert p; induction hs as [|h r IH]; intro p; cbn [publish_from compose_pub providers filter].
  - split; [constructor|]. split; [reflexivity | intro H; contradiction H; reflexivity].
  - destruct (hk_publish h) as [f|] eqn:Hf; [|apply IH]. fold (providers hk_publish r).
    destruct (snd (f cl p)) eqn:He.
    1:{ destruct (IH (fst (f cl p))) as [T R]. destruct (publish_from r cl pk0 (fst (f cl p))) as [[p' e'] lg].
        split; [eapply pt_next; eauto | exact R]. }
    all: split; [eapply pt_stop; eauto; rewrite He; discriminate | split; [discriminate | reflexivity]].
Qed.

Lemma read_from_trace (hs : list hook) (cl : client) (pk0 p : ppkt) :
  read_trace cl (providers hk_read hs) p (snd (read_from hs cl pk0 p)).
Proof.
  revert p; induction hs as [|h r IH]; intro p; cbn [read_from providers filter]; [constructor|].
  destruct (hk_read h) as [f|] eqn:Hf; [|apply IH]. fold (providers hk_read r).
  destruct (snd (f cl p)) eqn:He.
  1:{ specialize (IH (fst (f cl p))). destruct (read_from r cl pk0 (fst (f cl p))) as [[p' e'] lg].
      eapply rt_next; eauto. }
  1:{ eapply rt_stop; eauto. }
  (* any other error: the hook's output is skipped *)
  all: specialize (IH p); destruct (read_from r cl pk0 p) as [[p' e'] lg]; eapply rt_skip; eauto; rewrite He; discriminate.
Qed.

(* the read chain reports nothing but nil or ErrRejectPacket, and a rejection returns the original packet *)
Lemma read_from_err (hs : list hook) (cl : client) (pk0 p : ppkt) :
  let '(p', e, _) := read_from hs cl pk0 p in (e = ENone \/ (e = EReject /\ p' = pk0)).
Proof.
  revert p; induction hs as [|h r IH]; intro p; cbn [read_from]; [left; reflexivity|].
  destruct (hk_read h) as [f|]; [|apply IH].
  destruct (snd (f cl p)).
  1:{ specialize (IH (fst (f cl p))). destruct (read_from r cl pk0 (fst (f cl p))) as [[p' e'] lg]. exact IH. }
  1:{ right; split; reflexivity. }
  all: specialize (IH p); destruct (read_from r cl pk0 p) as [[p' e'] lg]; exact IH.
Qed.

Lemma on_subscribe_trace (hs : list hook) (cl : client) (s : spkt) :
  sub_trace cl (providers hk_subscribe hs) s (snd (on_subscribe hs cl s)) /\
  fst (on_subscribe hs cl s) = compose_sub hs cl s.
Proof.
  revert s; induction hs as [|h r IH]; intro s; cbn [on_subscribe providers filter compose_sub].
  - split; [constructor | reflexivity].
  - destruct (hk_subscribe h) as [f|] eqn:Hf.
    + fold (providers hk_subscribe r). specialize (IH (f cl s)).
      destruct (on_subscribe r cl (f cl s)) as [s' lg]. cbn [fst snd] in *.
      destruct IH as [IH1 IH2]. split; [eapply st_next; eauto | exact IH2].
    + apply IH.
Qed.

Theorem chain_order (hs : list hook) (cl : client) (pk : ppkt) (s : spkt) :
  pub_trace cl (providers hk_publish hs) pk (snd (on_publish hs cl pk)) /\
  (snd (fst (on_publish hs cl pk)) = ENone -> fst (fst (on_publish hs cl pk)) = compose_pub hs cl pk) /\
  read_trace cl (providers hk_read hs) pk (snd (on_read hs cl pk)) /\
  sub_trace cl (providers hk_subscribe hs) s (snd (on_subscribe hs cl s)) /\
  fst (on_subscribe hs cl s) = compose_sub hs cl s.
Proof.
  unfold on_publish. destruct (publish_from_spec hs cl pk pk) as [T R]. split; [exact T|].
  split; [destruct (publish_from hs cl pk pk) as [[p' e] lg]; exact (proj1 R)|].
  split; [apply read_from_trace|]. apply on_subscribe_trace.
Qed.

(* the chains compute the boolean the monitors use, which says that some providing hook answers true *)
Lemma existsb_provided {A} (sel : hook -> option A) (P : A -> bool) (hs : list hook) :
  existsb (fun h => match sel h with Some f => P f | None => false end) hs = true <->
  exists h f, In h hs /\ sel h = Some f /\ P f = true.
Proof.
  rewrite existsb_exists. split.
  - intros [h [Hin H]]. destruct (sel h) as [f|] eqn:E; [|discriminate]. exists h, f. auto.
  - intros (h & f & Hin & E & H). exists h. rewrite E. auto.
Qed.

Lemma on_auth_any (hs : list hook) (cl : client) : fst (on_auth hs cl) = some_authb hs cl.
Proof.
  induction hs as [|h r IH]; cbn [on_auth some_authb existsb]; [reflexivity|].
  destruct (hk_auth h) as [f|]; [|exact IH]. destruct (f cl); [reflexivity|].
  destruct (on_auth r cl). exact IH.
Qed.

Lemma on_acl_any (hs : list hook) (cl : client) (t : bytes) (w : bool) :
  fst (on_acl hs cl t w) = some_aclb hs cl t w.
Proof.
  induction hs as [|h r IH]; cbn [on_acl some_aclb existsb]; [reflexivity|].
  destruct (hk_acl h) as [f|]; [|exact IH]. destruct (f cl t w); [reflexivity|].
  destruct (on_acl r cl t w). exact IH.
Qed.

Theorem any_auth (hs : list hook) (cl : client) : fst (on_auth hs cl) = true <-> some_auth hs cl.
Proof. rewrite on_auth_any. exact (existsb_provided hk_auth (fun f => f cl) hs). Qed.

Theorem any_acl (hs : list hook) (cl : client) (t : bytes) (w : bool) :
  fst (on_acl hs cl t w) = true <-> some_acl hs cl t w.
Proof. rewrite on_acl_any. exact (existsb_provided hk_acl (fun f => f cl t w) hs). Qed.

(* a publish the OnPublish chain objects to (reject / ignore / any error) is neither forwarded nor
   retained — for every protocol version and QoS *)
Lemma process_publish_error (hs : list hook) (ver : N) (cl : client) (pk : ppkt) :
  snd (fst (on_publish hs cl pk)) <> ENone ->
  po_forward (process_publish hs ver cl pk) = None /\ po_retain (process_publish hs ver cl pk) = None.
Proof.
  intro He. unfold process_publish.
  destruct (negb (valid_pub_topic (pp_topic pk))); [split; reflexivity|].
  destruct (on_acl hs cl (pp_topic pk) true) as [okw lg1].
  destruct (negb okw).
  { destruct (pp_qos pk =? 0); [split; reflexivity|]. destruct (negb (ver =? 5)); split; reflexivity. }
  destruct (on_publish hs cl pk) as [[pkx e] lg2]. cbn [fst snd] in He.
  destruct e; try contradiction; try (split; reflexivity).
  - destruct ((pp_qos pk =? 0) || negb (ver =? 5)); split; reflexivity.
  - destruct ((pp_qos pk =? 0) || negb (ver =? 5)); split; reflexivity.
Qed.

(* only a publish that some ACL hook permits is forwarded or retained *)
Lemma process_publish_permitted (hs : list hook) (ver : N) (cl : client) (pk : ppkt) :
  po_forward (process_publish hs ver cl pk) <> None \/ po_retain (process_publish hs ver cl pk) <> None ->
  some_acl hs cl (pp_topic pk) true /\ valid_pub_topic (pp_topic pk) = true.
Proof.
  unfold process_publish.
  destruct (valid_pub_topic (pp_topic pk)) eqn:Hv; cbn [negb].
  2:{ cbn. intros [H|H]; contradiction H; reflexivity. }
  pose proof (any_acl hs cl (pp_topic pk) true) as Ha.
  destruct (on_acl hs cl (pp_topic pk) true) as [okw lg1]. cbn [fst] in Ha.
  destruct okw; cbn [negb].
  - intros _. split; [apply Ha; reflexivity | reflexivity].
  - destruct (pp_qos pk =? 0); [cbn; intros [H|H]; contradiction H; reflexivity|].
    destruct (negb (ver =? 5)); cbn; intros [H|H]; contradiction H; reflexivity.
Qed.

(* a packet rejected on read is not processed: nothing is forwarded, retained or acknowledged, no
   OnPublish / ACL hook is consulted, the connection ends *)
Lemma receive_rejected (hs : list hook) (ver : N) (cl : client) (pk : ppkt) :
  snd (fst (on_read hs cl pk)) = EReject ->
  let o := receive_publish hs ver cl pk in
  po_forward o = None /\ po_retain o = None /\ po_ack o = None /\ po_close o = true /\
  po_log o = snd (on_read hs cl pk).
Proof.
  intro He. unfold receive_publish. destruct (on_read hs cl pk) as [[p' e] lg]. cbn [fst snd] in He. subst e.
  cbn. repeat split; reflexivity.
Qed.

Lemma receive_error (hs : list hook) (ver : N) (cl : client) (pk : ppkt) :
  snd (fst (on_publish hs cl (fst (fst (on_read hs cl pk))))) <> ENone ->
  po_forward (receive_publish hs ver cl pk) = None /\ po_retain (receive_publish hs ver cl pk) = None.
Proof.
  intro He. unfold receive_publish. destruct (on_read hs cl pk) as [[p' e] lg]. cbn [fst] in He.
  destruct e; try (split; reflexivity).
  cbn [po_forward po_retain]. apply process_publish_error. exact He.
Qed.

Definition no_publish_ev (evs : list (client * oev)) : Prop := forall e, In e evs -> is_publish_ev e = false.

Lemma no_publish_app (a b : list (client * oev)) : no_publish_ev a -> no_publish_ev b -> no_publish_ev (a ++ b).
Proof. intros Ha Hb e Hin. apply in_app_or in Hin. destruct Hin; auto. Qed.

Lemma no_publish_b (evs : list (client * oev)) :
  forallb (fun e => negb (is_publish_ev e)) evs = true -> no_publish_ev evs.
Proof. intros H e Hin. rewrite forallb_forall in H. apply negb_true_iff. exact (H e Hin). Qed.

Lemma step_quiet (hs : list hook) (ob : bool) (st : bst) (cl : client) (pk : ppkt) (ver : N) :
  assoc cl (b_conn st) = Some ver ->
  po_forward (receive_publish hs ver cl pk) = None -> po_retain (receive_publish hs ver cl pk) = None ->
  let '(st', evs, _) := step hs ob st (OPublish cl pk) in
  no_publish_ev evs /\ b_ret st' = b_ret st.
Proof.
  intros Hc Hf Hr. cbn [step]. rewrite Hc. rewrite Hf, Hr.
  destruct (po_ack (receive_publish hs ver cl pk)) as [[ty rc]|];
  destruct (po_close (receive_publish hs ver cl pk)); (split; [apply no_publish_b|]; reflexivity).
Qed.

(* [receive_error] at the level of the broker: no delivery to anybody, retained store unchanged *)
Theorem step_error_never_forwarded (hs : list hook) (ob : bool) (st : bst) (cl : client) (pk : ppkt) (ver : N) :
  assoc cl (b_conn st) = Some ver ->
  snd (fst (on_publish hs cl (fst (fst (on_read hs cl pk))))) <> ENone ->
  let '(st', evs, _) := step hs ob st (OPublish cl pk) in
  no_publish_ev evs /\ b_ret st' = b_ret st.
Proof.
  intros Hc He. destruct (receive_error hs ver cl pk He) as [Hf Hr]. apply (step_quiet hs ob st cl pk ver); assumption.
Qed.

Lemma assoc_remove_key {A} (k : bytes) (l : list (bytes * A)) : assoc k (remove_key k l) = None.
Proof.
  induction l as [|[k' v] r IH]; cbn [remove_key assoc]; [reflexivity|].
  destruct (beq_bytes k k') eqn:E; [exact IH|]. cbn [assoc]. rewrite E. exact IH.
Qed.

Theorem step_reject_not_processed (hs : list hook) (ob : bool) (st : bst) (cl : client) (pk : ppkt) (ver : N) :
  assoc cl (b_conn st) = Some ver ->
  snd (fst (on_read hs cl pk)) = EReject ->
  let '(st', evs, lg) := step hs ob st (OPublish cl pk) in
  evs = [(cl, VClosed)] /\ b_ret st' = b_ret st /\ lg = snd (on_read hs cl pk) /\
  assoc cl (b_conn st') = None.
Proof.
  intros Hc He. destruct (receive_rejected hs ver cl pk He) as (Hf & Hr & Ha & Hcl & Hl).
  cbn [step]. rewrite Hc, Hf, Hr, Ha, Hcl, Hl. cbn [app b_ret drop_client b_conn].
  repeat split; try reflexivity; try (rewrite app_nil_r; reflexivity). apply assoc_remove_key.
Qed.

(* a client is admitted exactly when some authentication hook allows it *)
Theorem step_any_auth (hs : list hook) (ob : bool) (st : bst) (cl : client) (ver : N) :
  let '(st', evs, _) := step hs ob st (OConnect cl ver) in
  (In (cl, VConnack true) evs <-> some_auth hs cl) /\ (assoc cl (b_conn st') = Some ver <-> some_auth hs cl \/ assoc cl (b_conn st) = Some ver).
Proof.
  cbn [step]. pose proof (any_auth hs cl) as Ha. destruct (on_auth hs cl) as [ok lg]. cbn [fst] in Ha.
  destruct ok.
  - split.
    + split; [intros _; apply Ha; reflexivity | intros _; left; reflexivity].
    + cbn [b_conn assoc]. rewrite beq_bytes_refl. split; [intros _; left; apply Ha; reflexivity | reflexivity].
  - assert (Hn : ~ some_auth hs cl) by (intro H; apply Ha in H; discriminate).
    split.
    + split; [|intro H; contradiction].
      cbn. intros [H|[H|[]]]; discriminate.
    + split; [intro H; right; exact H | intros [H|H]; [contradiction | exact H]].
Qed.

(* processSubscribe answers every filter and creates exactly the valid filters some ACL hook permits *)
Lemma sub_filters_granted (hs : list hook) (ver : N) (ob : bool) (cl : client) (fs : list (bytes * N)) :
  length (fst (fst (sub_filters hs ver ob cl fs))) = length fs /\
  snd (fst (sub_filters hs ver ob cl fs)) =
  filter (fun fq => valid_filter_spec (fst fq) && some_aclb hs cl (fst fq) false) fs.
Proof.
  induction fs as [|[f q] r IH]; cbn [sub_filters filter fst]; [split; reflexivity|].
  destruct (sub_filters hs ver ob cl r) as [[codes gr] lg]. cbn [fst snd] in IH. destruct IH as [IH1 IH2].
  rewrite <- on_acl_any. destruct (valid_filter_spec f); cbn [negb andb]; [|cbn; auto].
  destruct (on_acl hs cl f false) as [[|] lga]; cbn; rewrite IH1, IH2; auto.
Qed.

(* a subscription to a filter no ACL hook permits is refused with 0x87 (0x80 when obscured or MQTT 3) and
   not created; a permitted valid one is created *)
Lemma sub_filters_spec (hs : list hook) (ver : N) (ob : bool) (cl : client) (fs : list (bytes * N)) :
  let '(codes, gr, _) := sub_filters hs ver ob cl fs in
  length codes = length fs /\
  (forall f q, In (f, q) gr -> In (f, q) fs /\ valid_filter_spec f = true /\ some_acl hs cl f false) /\
  (forall f q, In (f, q) fs -> valid_filter_spec f = true -> some_acl hs cl f false -> In (f, q) gr).
Proof.
  destruct (sub_filters_granted hs ver ob cl fs) as [L G].
  destruct (sub_filters hs ver ob cl fs) as [[codes gr] lg]. cbn [fst snd] in L, G. subst gr.
  assert (A : forall f, some_aclb hs cl f false = true <-> some_acl hs cl f false)
    by (intro f; rewrite <- on_acl_any; apply any_acl).
  split; [exact L|]. split; intros f q; rewrite filter_In; cbn [fst]; rewrite andb_true_iff, A; tauto.
Qed.

Lemma sub_filters_refusal (hs : list hook) (ver : N) (ob : bool) (cl : client) (f : bytes) (q : N) :
  valid_filter_spec f = true -> ~ some_acl hs cl f false ->
  fst (fst (sub_filters hs ver ob cl [(f, q)])) = [if ver <? 5 then 128 else if ob then 128 else 135].
Proof.
  intros Hv Hn. cbn [sub_filters]. rewrite Hv. cbn [negb].
  pose proof (any_acl hs cl f false) as Ha. destruct (on_acl hs cl f false) as [ok lga]. cbn [fst] in Ha.
  destruct ok; [exfalso; apply Hn, Ha; reflexivity|]. cbn [negb fst]. unfold v3map.
  destruct ob; destruct (ver <? 5); reflexivity.
Qed.
