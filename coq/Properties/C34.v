(* C34 — Accepted output is flushed and every dropped message is reported. *)
From MV Require Import Base.Val IO.WriteBuf IO.WriteBufProofs IO.WriteFault.
From MV Require Conc.WriteQueue Conc.WriteQueueProofs.
Open Scope N_scope.

(* [wrun thr evs] is the state of one connection's write path after an arbitrary sequence of
   WritePacket calls [evs] — from the write loop (a PUBLISH taken from the pending-writes queue) or
   directly from the handler (acknowledgements) — each with its packet size, whether it is refused
   before the buffer logic (too large for the client's Maximum Packet Size, encoding error) and
   whether the pending-writes queue was empty when the call looked at it; [thr] is
   ClientNetWriteBufferSize.  [idle_after evs]: the last call that looked at the queue found it empty,
   i.e. the connection is quiescent. *)

(* whenever the connection is quiescent the internal buffer is empty and the packets reported as
   sent (OnPacketSent) are exactly the packets written to the connection, in order *)
Theorem C34_flushed : forall (thr : N) (evs : list wev),
  idle_after evs = true -> outbuf (wrun thr evs) = [] /\ reported (wrun thr evs) = written (wrun thr evs).
Proof. exact flushed_when_idle. Qed.

(* every PUBLISH taken from the queue has been written or has been reported dropped *)
Theorem C34_drops_reported : forall (thr : N) (evs : list wev),
  idle_after evs = true ->
  forall e, In e evs -> e_src e = Loop ->
    In (e_id e) (written (wrun thr evs)) \/ In (e_id e) (dropped (wrun thr evs)).
Proof. exact accounted_when_idle. Qed.

(* before the queue: a message for a connected client that publishToClient neither queues nor holds
   in flight is reported to a hook *)
Theorem C34_refusals_reported : forall f : fate, fate_is_drop f = true -> fate_report f <> None.
Proof. exact fate_drop_reported. Qed.

(* the Write calls have the shape the correspondence check looks for, in every history *)
Theorem C34_write_calls_shape : forall (thr : N) (evs : list wev),
  Forall (fun c => chunk_ok thr c = true) (chunks (wrun thr evs)).
Proof. exact chunks_shape. Qed.

(* non-vacuity: direct acknowledgements between queued publishes, a flush by threshold, a refusal *)
Definition mk (s : src) (id size : N) (early qempty : bool) : wev :=
  {| e_src := s; e_id := id; e_size := size; e_early := early; e_qempty := qempty |}.
Example C34_nonvacuous :
  let evs := [mk Direct 1 4 false false; mk Loop 2 30 false false; mk Loop 3 40 false false; mk Loop 4 10 false false;
              mk Loop 5 99 true true; mk Direct 6 4 false true] in
  idle_after evs = true /\
  chunks (wrun 64 evs) = [[4; 30; 40]; [10]; [4]] /\
  written (wrun 64 evs) = [1; 2; 3; 4; 6] /\ reported (wrun 64 evs) = [1; 2; 3; 4; 6] /\ dropped (wrun 64 evs) = [5].
Proof. vm_compute. repeat split. Qed.

(* Schedules: the write loop, the connection handlers and the publishers interleave arbitrarily
   (Conc/WriteQueue.v: the queue-empty test is made inside cl.Lock(), the write loop dequeues
   outside it).  For EVERY schedule, once nothing is left to do nothing is left in the write buffer.
   Only successful writes are modelled here; refusals before the buffer logic are C34_flushed's business,
   failing writes C34_flushed_despite_faults'. *)
Theorem C34_flushed_all_schedules :
  forall (q : list bytes) (handlers : list (list bytes)) (sched : list WriteQueue.action),
  let s := WriteQueue.run false sched (WriteQueue.init q handlers) in
  WriteQueue.finished s -> WriteQueue.buf s = [].
Proof. exact WriteQueueProofs.flushed_when_finished. Qed.

(* what the lock placement buys: with the queue sampled before the lock the statement is false *)
Example C34_stale_sample_refuted :
  let s := WriteQueue.run true
             [WriteQueue.AStep 1 false; WriteQueue.AStep 0 false; WriteQueue.AStep 0 false; WriteQueue.AStep 0 false;
              WriteQueue.AStep 0 false; WriteQueue.AStep 1 false; WriteQueue.AStep 1 false; WriteQueue.AStep 1 false]
             (WriteQueue.init [[7%N]] [[[8%N]]]) in
  WriteQueue.finished s /\ WriteQueue.buf s = [8%N].
Proof. vm_compute. repeat split; repeat constructor. Qed.

(* the monitor of the transient-write-fault engine (flushfault) means clause 1: when it accepts an observation of a
   connection that is still open, every packet reported as sent is among the packets written *)
Theorem C34_fault_monitor_sound : forall reported written,
  WriteBuf.fault_ok reported written false = true -> forall k, In k reported -> In k written.
Proof. exact WriteBufProofs.fault_ok_sound. Qed.

(* TRANSIENT WRITE FAULTS (IO/WriteFault.v: any Write call of the connection may fail once, writing nothing; the write
   loop's retry through flushIdle succeeds; a handler that gets the error ends the connection).  For every history of
   WritePacket calls and every placement of such faults (not on a packet refused before the buffer logic): if the
   connection was not ended and is idle, nothing is left in the write buffer and every packet reported as sent has been
   written - clause 1 "nothing is stranded in an internal buffer because a later write failed". *)
Theorem C34_flushed_despite_faults : forall thr (evs : list (wev * bool)),
  (forall e f, In (e, f) evs -> e_early e = true -> f = false) ->
  snd (frun thr evs) = false -> idle_after (map fst evs) = true ->
  outbuf (fst (frun thr evs)) = [] /\
  forall id, In id (reported (fst (frun thr evs))) -> In id (written (fst (frun thr evs))).
Proof. exact fault_flushed. Qed.

(* without faults the fault model IS the model the writebuf engine runs against clients.go *)
Theorem C34_fault_model_extends : forall thr evs,
  frun thr (map (fun e => (e, false)) evs) = (wrun thr evs, false).
Proof. exact frun_nofault. Qed.

(* non-vacuity: a parked PUBACK (1), then the queued PUBLISH (2) whose flush fails: reported dropped, the retry writes
   both; the hypotheses hold *)
Example C34_faults_nonvacuous :
  let evs := [({| e_src := Direct; e_id := 1; e_size := 4; e_early := false; e_qempty := false |}, false);
              ({| e_src := Loop; e_id := 2; e_size := 30; e_early := false; e_qempty := true |}, true)] in
  snd (frun 64 evs) = false /\ idle_after (map fst evs) = true /\
  written (fst (frun 64 evs)) = [1; 2] /\ reported (fst (frun 64 evs)) = [1] /\ dropped (fst (frun 64 evs)) = [2].
Proof. vm_compute. repeat split. Qed.

Print Assumptions C34_flushed.
Print Assumptions C34_drops_reported.
Print Assumptions C34_refusals_reported.
Print Assumptions C34_write_calls_shape.
Print Assumptions C34_flushed_all_schedules.
Print Assumptions C34_fault_monitor_sound.
Print Assumptions C34_flushed_despite_faults.
Print Assumptions C34_fault_model_extends.
