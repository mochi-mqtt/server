(* C09 — Unacknowledged QoS 1/2 messages survive reconnection until acknowledged; redeliveries reuse the
   identifier and set DUP; PUBREL after PUBREC; acknowledged messages are never resent.
   Model: Session/Inflight.v; verdict on the code: QosSpecs.chk09 on the observed history
   (in-flight snapshot after every step + what the reconnected connection receives).

   The full property is FALSE of the faithful model of the current code:
     - a message held back by flow control is written by the post-packet block of processPacket and its record
       DELETED (pinned by TestServerProcessPacketAndNextImmediate): it is not in the session any more, is never
       resent, its acknowledgement is unknown; if the session is resumed before the release, the marked record is
       resent with DUP and later sent once more without                                     KF_C09_deferred
     - the client's own PUBLISH / PUBREL identifier deletes, replaces or completes the outbound record stored
       under the same number (one id-keyed map for both directions)                         KF_C09_id_collision
   Outside these, proved for all histories / every oracle: the record stays (C09_modulo_findings), everything
   stored is resent on a reconnection with the session — PUBLISH with the same identifier and DUP, PUBREL once
   PUBREC was received — and nothing else is (C09_resend), an acknowledged message is no longer stored. *)
From MV Require Import Base.Val Session.Pkt Session.Inflight Session.InflightProofs Session.QosSpecs Session.QosProofs
  Session.QosSound Session.QosWitness.
Open Scope N_scope.

(* A stored record without the held-back mark (an outbound PUBLISH / PUBREL, or the PUBREC of an own exchange)
   is still stored, unchanged, after ANY history h in which no acknowledgement packet carries its identifier,
   (for an outbound record) no own PUBLISH of the client carries it [that would be KF_C09_id_collision], the
   session is kept (no clean start, no expiry interval 0) and no housekeeping expiry runs — whatever else happens:
   other messages in both directions, deferral and release of other messages, disconnections, reconnections. *)
Theorem C09_modulo_findings : forall c k r, cfg_ok c -> forall h s,
  wf c s -> persistent s ->
  get k (s_infl s) = Some r -> (0 <= r_expiry r)%Z -> r_ty r <> T_PUBACK -> r_ty r <> T_PUBCOMP ->
  leaves k (r_ty r =? T_PUBREC) h ->
  get k (s_infl (fst (run c s h))) = Some r.
Proof. exact run_keeps_record. Qed.

(* On a reconnection that keeps the session every stored record is written again — a PUBLISH record as PUBLISH
   with the same identifier, QoS, message and DUP = 1, a PUBREL record as PUBREL — and nothing that is not
   stored is written: for every oracle (map order / unstable sort). *)
Theorem C09_resend : forall c s v5 clean sei rm orc,
  wf c s -> persistent s -> keeps_session (Reconnect v5 clean sei rm) = true -> s_infl s <> [] ->
  exists sent, snd (reconnect c s v5 clean sei rm orc) = OPkt T_CONNACK 0 true 0 0 0 :: sent /\
    (forall k r, get k (s_infl s) = Some r -> In (pkt_of_rec true k r) sent) /\
    (forall p, In p sent -> exists k r, get k (s_infl s) = Some r /\ p = pkt_of_rec true k r).
Proof. intros c s v5 clean sei rm orc W P K _. exact (resume_resends c s v5 clean sei rm orc W P K). Qed.

(* acknowledged = no longer stored (hence, by C09_resend, never resent) *)
Theorem C09_puback_removes : forall c s k rc now orc, get k (s_infl (fst (in_ack c s T_PUBACK k rc now orc))) = None.
Proof. exact puback_removes. Qed.
Theorem C09_pubcomp_removes : forall c s k rc now orc, get k (s_infl (fst (in_ack c s T_PUBCOMP k rc now orc))) = None.
Proof. exact pubcomp_removes. Qed.

(* after a PUBREC with a reason code valid for PUBREC and below 0x80 (0x00, 0x10) the stored packet is a PUBREL:
   that is what is resent (any other code deletes the record: processPubrec) *)
Theorem C09_pubrel_after_pubrec : forall c s k rc now orc r,
  cfg_ok c -> (0 <= now)%Z -> wf c s -> get k (s_infl s) = Some r ->
  (128 <=? rc) || negb (pubrec_rc_valid rc) = false ->
  exists r', get k (s_infl (fst (in_ack c s T_PUBREC k rc now orc))) = Some r' /\ r_ty r' = T_PUBREL.
Proof. exact pubrec_turns_into_pubrel. Qed.

(* the step check of the monitor says what the specification says (client-side bookkeeping = QosSpecs.view_step) *)
Theorem C09_monitor_sound : forall c v o ob,
  chk09 c v o ob (view_step c v o ob) = None -> Spec09_step c v o ob.
Proof. exact chk09_sound. Qed.

Theorem C09_refuted_deferred : exists c h, model_verdict 9 c h = Some (1, Some (tag "KF_C09_deferred")).
Proof. exists (wcfg 2 8), [w_connect; w_out 1 1; w_out 1 2; w_ack T_PUBACK 1]. vm_compute. reflexivity. Qed.

Theorem C09_refuted_collision : exists c h, model_verdict 9 c h = Some (1, Some (tag "KF_C09_id_collision")).
Proof. exists (wcfg 2 8), [w_connect; w_out 1 1; w_pub 1 1 false 7]. vm_compute. reflexivity. Qed.

(* non-vacuity: a QoS 2 message delivered, PUBREC sent, connection lost, other traffic, reconnection: the PUBREL
   record is there and is resent; the monitor accepts the whole history *)
Definition c09_h : list (op * list N) :=
  [w_connect; w_out 2 1; w_ack T_PUBREC 1; w_netclose; w_out 0 2; (Reconnect true false 300 1, [1])].
Example C09_nonvacuous :
  model_verdict 9 (wcfg 2 8) c09_h = None /\
  snd (run (wcfg 2 8) init_st c09_h) =
    [[OPkt T_CONNACK 0 false 0 0 0]; [OPkt T_PUBLISH 1 false 2 1 0]; [OPkt T_PUBREL 1 false 0 0 0]; []; [];
     [OPkt T_CONNACK 0 true 0 0 0; OPkt T_PUBREL 1 false 0 0 0]].
Proof. vm_compute. split; reflexivity. Qed.

(* fault injection: the PUBREL answering the client's PUBREC cannot be written (processPubrec stores it BEFORE writing):
   the session holds PUBREL and resends PUBREL, not PUBLISH; the monitor accepts *)
Example C09_fault_nonvacuous :
  model_verdict_f 9 (wcfg 2 8)
    [(w_connect, false); (w_out 2 1, false); (w_ack T_PUBREC 1, true); ((Reconnect true false 300 1, [1]), false);
     (w_ack T_PUBCOMP 1, false)] = None.
Proof. vm_compute. reflexivity. Qed.

Print Assumptions C09_modulo_findings.
Print Assumptions C09_resend.
Print Assumptions C09_puback_removes.
Print Assumptions C09_pubcomp_removes.
Print Assumptions C09_pubrel_after_pubrec.
Print Assumptions C09_monitor_sound.
Print Assumptions C09_refuted_deferred.
Print Assumptions C09_refuted_collision.
