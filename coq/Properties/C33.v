(* C33 — Concurrent broker operation is free of data races.

   Shape of the argument.  (1) A hand-written declaration (Conc/Discipline.v, [decl]) says for
   every field of the shared broker types how it is protected: guarded by a lock (writes in write
   mode, reads in read or write mode), atomic, immutable after publication, or confined to the
   goroutine that owns the object; plus, per unit, the functions whose accesses are ordered by
   other means (initialisation before publication; hand-off through an atomic flag), each
   justified in a comment.  (2) The translator astx regenerates on every run the table of every
   syntactic access to those fields (Gen/AccessTable.v): function, read/write, atomic?, locks held
   (own object?), goroutine roots.  (3) The theorems below, once and for all: if every site keeps
   the protection of every declared unit it touches, then any two accesses to overlapping memory
   of which one is a write and which may run concurrently touch a common declared unit and are
   synchronised by its protection (common lock with the writer in write mode / both atomic /
   same owning goroutine), unless one of them is in a function declared exempt.  (4) Per run the
   kernel evaluates [sites_respect_modulo decl AccessTable.tbl = true] (Gen/AccessCheck.v, compiled
   by the translate step of ./check C33); units whose protection the current code does not keep
   are the listed findings (the KF_C33 entries).

   Partial by nature: the Go memory model is not formalised ("synchronised" is the lockset /
   atomic discipline, not happens-before); fields outside the declared types (Options /
   Capabilities, listeners, hooks' own state) are not covered; "may be concurrent" is an
   over-approximation from goroutine roots; [Confined] and the exempt functions rest on the
   stated ownership / ordering arguments, which the -race scenarios (hx race) exercise. *)
From Coq Require Import List String.
From MV Require Import Conc.Locks Conc.LocksProofs Conc.Discipline Conc.DisciplineProofs Findings.FixedC33.
Import ListNotations.
Open Scope string_scope.

Theorem C33_discipline_sound : forall (d : declaration) (t : access_table),
  decl_wf d -> sites_respect d t = true ->
  forall s1 s2, In s1 t -> In s2 t ->
    overlap s1 s2 = true -> conflicting s1 s2 = true -> may_be_concurrent s1 s2 = true ->
    exists u, In u d /\ In u (units_of d s1) /\ In u (units_of d s2) /\
              (exempt u s1 = true \/ exempt u s2 = true \/ synchronised u s1 s2).
Proof. intros d t Hwf H s1 s2 I1 I2 Ho Hc _. apply (discipline_sound_any d t Hwf H); assumption. Qed.

(* the current code does not keep the full discipline (next theorem); outside the units marked
   with a listed finding it does *)
Theorem C33_modulo_findings : forall (d : declaration) (t : access_table),
  decl_wf d -> sites_respect_modulo d t = true ->
  forall s1 s2, In s1 t -> In s2 t ->
    overlap s1 s2 = true -> conflicting s1 s2 = true -> may_be_concurrent s1 s2 = true ->
    exists u, In u d /\ In u (units_of d s1) /\ In u (units_of d s2) /\
              (u_kf u <> None \/ exempt u s1 = true \/ exempt u s2 = true \/ synchronised u s1 s2).
Proof. exact discipline_sound_modulo. Qed.

(* KF_C33_will: Client.Properties.Will is cleared / read by the connection handler
   (server.go attachClient, sendLWT) and cleared by the event loop (sendDelayedLWT) with nothing
   ordering the two: the pair is rejected by the declaration, is conflicting, possibly concurrent,
   and not synchronised.  (Reproduced under -race by the scenario will-window of hx race.) *)
Theorem C33_refuted :
  sites_respect decl [will_handler; will_eventloop] = false /\
  sites_respect_modulo decl [will_handler; will_eventloop] = true /\
  overlap will_handler will_eventloop = true /\ conflicting will_handler will_eventloop = true /\
  may_be_concurrent will_handler will_eventloop = true /\
  forall u, In u (units_of decl will_handler) -> In u (units_of decl will_eventloop) ->
    exempt u will_handler = false /\ exempt u will_eventloop = false /\
    u_kf u = Some "KF_C33_will" /\ ~ synchronised u will_handler will_eventloop.
Proof. exact will_refuted. Qed.

(* what "synchronised by a common lock" means in the lock machine of Conc/Locks.v (arbitrary
   programs, every schedule): a lock held in write mode by one goroutine is held by no other
   goroutine in any mode, and exactly once by its holder — the critical sections of a writer and of
   any other holder of the same lock instance never overlap in time *)
Theorem C33_mutual_exclusion : forall c0 : cfg, (forall t, In t c0 -> held t = []) ->
  forall (sched : list nat) i j t u l,
    nth_error (run sched c0) i = Some t -> nth_error (run sched c0) j = Some u -> i <> j ->
    holds_w l t = true -> holds l u = false /\ cnt l (held t) = 1.
Proof. exact mutual_exclusion. Qed.

(* the declaration names every unit once (needed by the theorems above) *)
Theorem C33_declaration_wf : decl_wf decl.
Proof. apply decl_wfb_sound. vm_compute. reflexivity. Qed.

(* non-vacuity: a guarded map with a reader and a writer on different goroutines is accepted, the
   pair is conflicting, concurrent, overlapping and the theorem's conclusion is the lock clause;
   the repaired retainPath defect is rejected in its pre-fix shape and accepted after the fix *)
Definition ex_w : asite :=
  mk_asite ["Clients"; "internal"] "Clients.Add" true false false [("Clients.RWMutex", W, true)] [RH].
Definition ex_r : asite :=
  mk_asite ["Clients"; "internal"] "Clients.GetAll" false false false [("Clients.RWMutex", R, true)] [RE].

Example C33_nonvacuous :
  sites_respect decl [ex_w; ex_r] = true /\
  overlap ex_w ex_r = true /\ conflicting ex_w ex_r = true /\ may_be_concurrent ex_w ex_r = true /\
  sites_respect decl [ex_w; mk_asite ["Clients"; "internal"] "Clients.GetAll" false false false [] [RE]] = false /\
  sites_respect decl [rp_write; rp_read_prefix; rp_read_trim] = false /\
  sites_respect decl [rp_write; rp_read_fixed; rp_read_trim] = true /\
  (* the session expiry interval may be read by the event loop only behind the StopTime() guard *)
  sites_respect decl [sei_write; sei_read_guarded] = true /\
  sites_respect_modulo decl [sei_write; sei_read_unguarded] = false.
Proof.
  do 5 (split; [vm_compute; reflexivity|]).
  split; [exact (proj1 retainPath_prefix_rejected)|]. split; [exact retainPath_fixed_accepted|].
  split; [exact (proj1 sei_guard_required)|exact (proj1 (proj2 (proj2 sei_guard_required)))].
Qed.

Print Assumptions C33_discipline_sound.
Print Assumptions C33_modulo_findings.
Print Assumptions C33_refuted.
Print Assumptions C33_mutual_exclusion.
Print Assumptions C33_declaration_wf.
