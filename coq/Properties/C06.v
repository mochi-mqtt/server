(* C06 — Each shared-subscription group receives each matching message exactly once.
   Model: Session/Deliver.v (Subscribers.SelectShared with the map iteration as an oracle,
   MergeSharedSelected, publishToSubscribers).  A well-formed oracle [wf_oracle] is any list with exactly one
   entry per key of Subscribers.Shared choosing a member of that key, in any order: the theorems hold for
   every such oracle.
   The code identifies a group by the FULL filter string ($share/<name>/<filter>), the property by the share
   name: one share name subscribed with two different matching filters is served twice
   (KF_C06_group_by_filter; MQTT itself defines a shared subscription by ShareName + filter). *)
From MV Require Import Base.Val Topics.Match Topics.Alist Session.Deliver Session.DeliverProofs Session.DeliverTheorems.
Open Scope N_scope.

(* one member per group (as the code identifies groups), it is a member, every group is served *)
Theorem C06_one_per_group : forall s t orc,
  wf_oracle s t orc = true ->
  NoDup (map fst orc)
  /\ (forall k c, In (k, c) orc -> shared_matches t k = true /\ is_member s k c = true /\ In k (shared_keys s t))
  /\ (forall k, In k (shared_keys s t) -> exists c, In (k, c) orc)
  /\ (forall k c c', In (k, c) orc -> In (k, c') orc -> c = c').
Proof. exact oracle_choice. Qed.

(* the chosen member is among the subscriptions the message is delivered for *)
Theorem C06_chosen_served : forall c cl t orc k o,
  In (k, c) orc -> shared_matches t k = true -> al_get beq_bytes k (cl_subs cl) = Some o ->
  In (k, o) (ent_subs c cl t orc).
Proof. exact chosen_in_ent_subs. Qed.

(* members that were not chosen (and hold no other matching subscription) receive nothing *)
Theorem C06_not_chosen_nothing : forall s orc drops m c cl,
  nonshared_matching cl (m_topic m) = [] -> (forall k, ~ In (k, c) orc) -> deliver_to s orc drops m c cl = PNone.
Proof. exact not_chosen_nothing. Qed.

(* no client receives more than one copy, whatever it holds and whatever the oracle *)
Theorem C06_at_most_one : forall s orc drops m0 c,
  wf_state s -> (length (filter (to_client c) (o_deliv (snd (publish orc drops s m0)))) <= 1)%nat.
Proof.
  intros s orc drops m0 c [[ND _] _]. rewrite publish_count by exact ND.
  destruct (get_client s c); [destruct (is_send _)|]; auto.
Qed.

(* the property as stated (groups = share names): exactly one member chosen per share name, outside the finding *)
Theorem C06_modulo_findings : forall s t orc g,
  wf_oracle s t orc = true -> KF_C06_group_by_filter s t = false ->
  In g (map share_group (shared_keys s t)) ->
  length (picks_for_name g orc) = 1%nat.
Proof. exact one_pick_per_name. Qed.

(* refutation: share name g, c1 on $share/g/a/+ and c2 on $share/g/a/#: both receive a publish to a/b *)
Definition so0 : subopt := mkSO 0 false false 0 0.
Definition ref_hist : hist :=
  map (fun o => ([], [], o))
    [OConnect (tag "c1") 5 true false false; OConnect (tag "c2") 5 true false false;
     OSubscribe (tag "c1") [(tag "$share/g/a/+", so0)]; OSubscribe (tag "c2") [(tag "$share/g/a/#", so0)]].
Definition ref_orc : oracle := [(tag "$share/g/a/+", tag "c1"); (tag "$share/g/a/#", tag "c2")].

Theorem C06_refuted : exists (h : hist) orc t g,
  let s := run (init 2 true []) h in
  wf_oracle s t orc = true /\ KF_C06_group_by_filter s t = true /\
  length (picks_for_name g orc) = 2%nat /\
  length (o_deliv (snd (step orc [] s (OPublish (tag "p") (mkMsg t (tag "x") 0 false mp_none []))))) = 2%nat.
Proof. exists ref_hist, ref_orc, (tag "a/b"), (tag "g"). vm_compute. repeat split. Qed.

(* non-vacuity: two members in one group, one chosen, the other gets nothing *)
Example C06_nonvacuous :
  let h := map (fun o => ([], [], o))
             [OConnect (tag "c1") 5 true false false; OConnect (tag "c2") 4 true false false;
              OSubscribe (tag "c1") [(tag "$share/g/a/+", so0)]; OSubscribe (tag "c2") [(tag "$share/g/a/+", so0)]] in
  let s := run (init 2 true []) h in
  let orc := [(tag "$share/g/a/+", tag "c2")] in
  wf_oracle s (tag "a/b") orc = true /\ KF_C06_group_by_filter s (tag "a/b") = false /\
  map d_to (o_deliv (snd (step orc [] s (OPublish (tag "p") (mkMsg (tag "a/b") (tag "x") 0 false mp_none [])))))
  = [TClient (tag "c2")].
Proof. vm_compute. repeat split. Qed.

Print Assumptions C06_one_per_group.
Print Assumptions C06_chosen_served.
Print Assumptions C06_not_chosen_nothing.
Print Assumptions C06_at_most_one.
Print Assumptions C06_modulo_findings.
Print Assumptions C06_refuted.
