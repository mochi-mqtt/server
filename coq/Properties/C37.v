(* C37 — Idle connections are closed after one and a half keepalive periods.
   Times are in milliseconds; [run K (Open t0) l] is the packet loop of Client.Read started (deadline
   armed) at time t0 over the packets arriving at the times l; [closed_by K c t] says whether the
   connection is closed at time t when nothing else has arrived.  Partial: the OS / Go runtime timers
   are trusted to fire at the deadline that was set, and packet processing time is taken as zero (it
   only delays the real deadline). *)
From MV Require Import Base.Val IO.Keepalive IO.KeepaliveProofs Findings.FixedC37.
Open Scope Z_scope.

(* The deadline the code sets is exactly one and a half keepalive periods (the int64 nanosecond
   product cannot wrap for any 16-bit keepalive). *)
Theorem C37_deadline : forall K, 0 < K <= 65535 ->
  deadline_ms K = Some (1500 * K) /\ 0 <= K * second_ns * 3 < 2 ^ 63.
Proof.
  intros K H. split; [apply deadline_ms_pos; apply H | apply deadline_ns_no_overflow; split; [|apply H]].
  destruct H as [H _]. apply Z.lt_le_incl. exact H.
Qed.

(* K > 0: whatever packets arrived (in order, any gaps) — once nothing has arrived for 1.5 K
   seconds after the last of them, the connection is closed. *)
Theorem C37_closes_by : forall K t0 arrivals t, 0 < K <= 65535 ->
  ordered_from t0 arrivals ->
  last arrivals t0 + 1500 * K <= t ->
  closed_by K (run K (Open t0) arrivals) t = true.
Proof. intros K t0 arrivals t [HK _]. exact (closes_by K t0 arrivals t HK). Qed.

(* While packets keep arriving less than 1.5 K seconds apart every one of them is read, the loop
   is still open and armed at the last arrival, and the connection is not closed at any time
   earlier than 1.5 K seconds after the last packet. *)
Theorem C37_never_early : forall K t0 arrivals t, 0 <= K <= 65535 ->
  gaps_below t0 arrivals (1500 * K) ->
  t < last arrivals t0 + 1500 * K ->
  run K (Open t0) arrivals = Open (last arrivals t0) /\
  closed_by K (run K (Open t0) arrivals) t = false.
Proof. intros K t0 arrivals t [HK _]. exact (never_early K t0 arrivals t HK). Qed.

(* A packet that comes 1.5 K seconds or more after its predecessor is not read, nor anything after. *)
Theorem C37_late_packet_not_read : forall K t0 arrivals late rest, 0 < K <= 65535 ->
  gaps_below t0 arrivals (1500 * K) ->
  last arrivals t0 + 1500 * K <= late ->
  run K (Open t0) (arrivals ++ late :: rest) = Closed (last arrivals t0 + 1500 * K).
Proof. intros K t0 arrivals late rest [HK _]. exact (late_packet_not_read K t0 arrivals late rest HK). Qed.

(* Keepalive 0: never closed for inactivity, whatever the arrival times. *)
Theorem C37_zero_disables : forall t0 arrivals t,
  run 0 (Open t0) arrivals = Open (last arrivals t0) /\
  closed_by 0 (run 0 (Open t0) arrivals) t = false.
Proof. exact zero_disables. Qed.

(* Histories that mix inbound packets with what the broker itself writes to the connection
   (deliveries, retained messages, wills): the writes are no-ops for the keepalive state, so the
   connection is closed exactly 1.5 K s after the last INBOUND packet whatever the outbound traffic. *)
Theorem C37_outbound_irrelevant : forall K c h, run_ev K c h = run K c (inbounds h).
Proof. exact (fun K c h => run_ev_inbounds K h c). Qed.

Theorem C37_mixed_closes_by : forall K t0 h t, 0 < K <= 65535 ->
  ordered_from t0 (inbounds h) ->
  last (inbounds h) t0 + 1500 * K <= t ->
  closed_by K (run_ev K (Open t0) h) t = true.
Proof. intros K t0 h t [HK _]. exact (mixed_closes_by K t0 h t HK). Qed.

Theorem C37_mixed_never_early : forall K t0 h t, 0 <= K <= 65535 ->
  gaps_below t0 (inbounds h) (1500 * K) ->
  t < last (inbounds h) t0 + 1500 * K ->
  run_ev K (Open t0) h = Open (last (inbounds h) t0) /\
  closed_by K (run_ev K (Open t0) h) t = false.
Proof. intros K t0 h t [HK _]. exact (mixed_never_early K t0 h t HK). Qed.

(* a connection that only receives is closed 1.5 K s after it was armed, however often the broker
   writes to it *)
Theorem C37_writes_do_not_extend : forall K t0 outs t, 0 < K <= 65535 -> t0 + 1500 * K <= t ->
  closed_by K (run_ev K (Open t0) (map HOut outs)) t = true.
Proof. intros K t0 outs t [HK _]. exact (writes_do_not_extend K t0 outs t HK). Qed.

Example C37_mixed_nonvacuous :
  run_ev 1 (Open 0) [HIn 100; HOut 600; HOut 1100; HOut 1590; HIn 1650] = Closed 1600 /\
  closed_by 1 (run_ev 1 (Open 0) [HIn 100; HOut 600; HOut 1100; HOut 1590]) 1599 = false /\
  closed_by 1 (run_ev 1 (Open 0) [HIn 100; HOut 600; HOut 1100; HOut 1590]) 1600 = true.
Proof. vm_compute. repeat split. Qed.

(* non-vacuity: keepalive 1, packets 1.25 s apart survive, 1.5 s of silence closes; keepalive
   65535 has the full 98302.5 s *)
Example C37_nonvacuous :
  run 1 (Open 0) [1250; 2500; 3749] = Open 3749 /\
  closed_by 1 (run 1 (Open 0) [1250; 2500; 3749]) 5248 = false /\
  closed_by 1 (run 1 (Open 0) [1250; 2500; 3749]) 5249 = true /\
  run 1 (Open 0) [1250; 2750; 2800] = Closed 2750 /\
  deadline_ms 65535 = Some 98302500 /\
  gaps_below 0 [1250; 2500; 3749] (1500 * 1).
Proof. vm_compute. repeat split; intro; discriminate. Qed.

(* the repaired defect (fixed in /repo): whole-second uint16 arithmetic *)
Example C37_prefix_refuted :
  deadline_ms_prefix 1 = Some 1000 /\ deadline_ms_prefix 43691 = Some 0 /\
  step_prefix (Open 0) 1 1250 = Closed 1000.
Proof.
  split; [exact (proj1 prefix_odd_loses_half_second)|].
  split; [exact (proj1 prefix_wraps)|exact prefix_closes_early].
Qed.

Print Assumptions C37_deadline.
Print Assumptions C37_closes_by.
Print Assumptions C37_never_early.
Print Assumptions C37_late_packet_not_read.
Print Assumptions C37_zero_disables.
Print Assumptions C37_outbound_irrelevant.
Print Assumptions C37_mixed_closes_by.
Print Assumptions C37_mixed_never_early.
Print Assumptions C37_writes_do_not_extend.
