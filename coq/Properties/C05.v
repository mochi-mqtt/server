(* C05 — Retained store reflects the latest retained publish per topic.
   Model: Session/Deliver.v (retainMessage / TopicsIndex.RetainMessage as a map topic ->
   message, publishRetainedToClient with its Retain Handling and shared-filter checks, processSubscribe).
   Specification: [latest] — the most recent retained publish to the topic in the history, nothing if it had
   an empty payload, nothing at all while retain is unavailable — written as a fold over the history,
   independent of the store.  Which retained topics a filter selects is topic_matches (the trie side is C02). *)
From MV Require Import Base.Val Topics.Match Topics.Alist Session.Deliver Session.DeliverProofs.
Open Scope N_scope.

(* after ANY history, the messages a new subscription to f is served from the store are exactly: for each
   matching topic the latest retained message, once, retain flag set, never an empty payload *)
Theorem C05_latest : forall mq ra deny (h : hist) f,
  forallb op_ok (ops_of h) = true ->
  let s := run (init mq ra deny) h in
  (forall m, In m (retained_matching s f) <->
             topic_matches f (m_topic m) = true /\ latest ra mq (ops_of h) (m_topic m) None = Some m)
  /\ NoDup (map m_topic (retained_matching s f))
  /\ (forall m, In m (retained_matching s f) -> m_retain m = true /\ m_payload m <> []).
Proof. exact retained_matching_latest. Qed.

(* the store itself, topic by topic *)
Theorem C05_store : forall (h : hist) s t,
  al_get beq_bytes t (st_retained (run s h))
  = latest (st_retain_avail s) (st_maxqos s) (ops_of h) t (al_get beq_bytes t (st_retained s)).
Proof. exact latest_run. Qed.

(* Retain Handling 0 always sends, 1 only if the subscription did not exist, 2 never; shared never *)
Theorem C05_rh : forall s c cl f o existed,
  so_rh o <= 2 ->
  retained_for s c cl f o existed =
  if is_share f || negb (rh_sends (so_rh o) existed) then []
  else map (fun m => publish_to_client s c cl (retained_sub f o) m false) (retained_matching s f).
Proof. exact retained_for_cases. Qed.

Theorem C05_shared_none : forall s c cl f o existed, is_share f = true -> retained_for s c cl f o existed = [].
Proof. exact retained_for_shared. Qed.

(* nothing is retained while retain is unavailable *)
Theorem C05_unavailable : forall mq deny (h : hist), st_retained (run (init mq false deny) h) = [].
Proof. intros mq deny h. apply aget_all_None. intro t. rewrite latest_run. apply latest_unavailable. Qed.

(* a retained delivery carries the stored message with its retain flag *)
Theorem C05_flag : forall s c cl f o m d,
  publish_to_client s c cl (retained_sub f o) m false = PSend d ->
  d_topic d = m_topic m /\ d_payload d = m_payload m /\ d_retain d = m_retain m.
Proof. intros s c cl f o m d H. destruct (retained_delivery s c cl f o m d H) as (_ & H2 & H3 & H4 & _). auto. Qed.

(* non-vacuity: overwrite, delete by empty payload, retain handling on a repeated subscription *)
Definition pm (t p : bytes) (r : bool) : msg := mkMsg t p 1 r mp_none [].
Definition ex_hist : hist :=
  map (fun o => ([], [], o))
    [OConnect (tag "p") 4 true false false;
     OPublish (tag "p") (pm (tag "a/b") (tag "one") true);
     OPublish (tag "p") (pm (tag "a/c") (tag "x") true);
     OPublish (tag "p") (pm (tag "a/b") (tag "two") true);
     OPublish (tag "p") (pm (tag "a/b") (tag "live") false);
     OPublish (tag "p") (pm (tag "a/c") (tag "") true);
     OConnect (tag "s") 5 true false false].

Example C05_nonvacuous :
  let s := run (init 2 true []) ex_hist in
  map (fun m => (m_topic m, m_payload m)) (retained_matching s (tag "a/+")) = [(tag "a/b", tag "two")]
  /\ map (fun d => d_payload d)
       (o_deliv (snd (step [] [] s (OSubscribe (tag "s") [(tag "a/#", mkSO 1 false false 1 5)])))) = [tag "two"]
  /\ (let s1 := fst (step [] [] s (OSubscribe (tag "s") [(tag "a/#", mkSO 1 false false 1 5)])) in
      o_deliv (snd (step [] [] s1 (OSubscribe (tag "s") [(tag "a/#", mkSO 1 false false 1 5)]))) = [])
  /\ st_retained (run (init 2 false []) ex_hist) = [].
Proof. vm_compute. repeat split. Qed.

Print Assumptions C05_latest.
Print Assumptions C05_store.
Print Assumptions C05_rh.
Print Assumptions C05_shared_none.
Print Assumptions C05_unavailable.
Print Assumptions C05_flag.

(* Concurrency, at the level of the topic index (Topics/RetainConc.v, RetainConcProofs.v).
   Retained publishes and clears (TopicsIndex.RetainMessage) interleaved with client subscribes / unsubscribes on
   the same branch of the particle tree and with Messages(filter) queries for exact and wildcard filters.  Model:
   every index operation, RetainMessage's set + store included, is one atomic step under the root lock
   (Topics.Trie.t_step).  For every program (one list per goroutine) and EVERY schedule: the history keeps every
   goroutine's order, every return value and every Messages result is what the map "topic -> latest retained publish"
   gives in that serial order, and the final tree is related to the final map — so after quiescence Messages(f)
   returns the latest retained publish of every matching topic for exact and wildcard filters alike. *)
From MV Require Topics.IndexSpec Topics.Trie Topics.TrieRefine Topics.Lin Topics.InlineConcProofs Topics.RetainConc Topics.RetainConcProofs.

Theorem C05_retain_atomic_all_schedules : forall x0 a0 prog (sched : list nat) xf restf h,
  Topics.TrieRefine.R x0 a0 ->
  Forall (fun c => Topics.RetainConc.wf_ropb c = true) (concat prog) ->
  Topics.Lin.run_sched Topics.RetainConc.r_model_step sched x0 prog = (xf, restf, h) ->
  let serial := map (fun e : nat * Topics.RetainConc.rop * N => snd (fst e)) h in
  (forall t, Topics.Lin.proj t h ++ nth t restf [] = nth t prog []) /\
  map snd h = snd (Topics.Lin.seq_run Topics.RetainConc.r_spec_step a0 serial) /\
  Topics.TrieRefine.R xf (fst (Topics.Lin.seq_run Topics.RetainConc.r_spec_step a0 serial)).
Proof. exact Topics.RetainConcProofs.retain_atomic_all_schedules. Qed.

(* The split variant (root lock released after set(...), message stored afterwards) is refuted by the schedule
   set / client unsubscribe / store: the message lands on a pruned particle; the exact filter still returns it, the
   wildcard filter a/# never does — no serial order of the specification separates the two; the run-time checker
   rejects that observation. *)
Example C05_split_refuted :
  (let '(xf, _, _) := Topics.Lin.run_sched Topics.RetainConc.rs_step [0; 1; 0]%nat Topics.InlineConcProofs.x_pre
       [[Topics.RetainConc.RWalk Topics.InlineConcProofs.ab; Topics.RetainConc.RStore Topics.InlineConcProofs.ab (tag "m")];
        [Topics.RetainConc.RS (Topics.RetainConc.RO (Topics.IndexSpec.OUnsub (tag "c1") Topics.InlineConcProofs.ab))]] in
   (Topics.Trie.messages xf Topics.InlineConcProofs.ab, Topics.Trie.messages xf (tag "a/#")))
  = ([(Topics.InlineConcProofs.ab, tag "m")], []) /\
  Topics.RetainConc.conc_explainedg Topics.RetainConc.r_spec_step Topics.IndexSpec.a_empty
    [(Topics.RetainConc.RO (Topics.IndexSpec.OSub (tag "c1") Topics.InlineConcProofs.ab 1), 1)]
    [[(Topics.RetainConc.RO (Topics.IndexSpec.ORetain Topics.InlineConcProofs.ab (tag "m")), 1)];
     [(Topics.RetainConc.RO (Topics.IndexSpec.OUnsub (tag "c1") Topics.InlineConcProofs.ab), 1)]]
    [(Topics.RetainConc.RMsgs Topics.InlineConcProofs.ab [(Topics.InlineConcProofs.ab, tag "m")], 1);
     (Topics.RetainConc.RMsgs (tag "a/#") [], 1)] = false.
Proof.
  exact (conj (proj1 Topics.RetainConcProofs.retain_split_refuted)
              (proj1 Topics.RetainConcProofs.retain_split_observation_rejected)).
Qed.

Print Assumptions C05_retain_atomic_all_schedules.
