(* C41 — Pooled buffers are never shared or returned dirty.
   [run max init acts = Some s]: s is the state after the schedule [acts] — any list of atomic
   actions of any threads, with any behaviour of sync.Pool (which pooled item a Get returns, misses,
   items forgotten by GC) — in which every thread writes and puts only buffers it obtained and has
   not put since (an action of a thread that breaks this is not enabled: the caller's side of the
   contract).  max = 0 is the uncapped constructor, max > 0 the capped one.  Partial: sync.Pool itself
   is modelled (a multiset that returns each item at most once), not verified. *)
From MV Require Import Base.Val Conc.Pool Conc.PoolProofs.
Open Scope N_scope.

(* Whatever Get hands out is empty. *)
Theorem C41_empty_on_get : forall max acts s t c s' b v,
  run max init acts = Some s ->
  step max s (AGet t c) = Some (s', OGot b v) ->
  blen v = 0.
Proof. exact sched_empty_on_get. Qed.

(* No buffer is held twice (by two threads or twice by one), no held buffer is in the pool, and a
   Get never returns a buffer that somebody holds. *)
Theorem C41_exclusive : forall max acts s,
  run max init acts = Some s ->
  NoDup (held_ids s) /\
  (forall b, In b (held_ids s) -> ~ In b (pool s)) /\
  (forall h1 h2, In h1 (held s) -> In h2 (held s) -> h_bid h1 = h_bid h2 -> h1 = h2) /\
  (forall t c s' b v, step max s (AGet t c) = Some (s', OGot b v) -> ~ In b (held_ids s)).
Proof. exact sched_exclusive. Qed.

(* A capped pool keeps no buffer above the cap, hands none out, and a Put of an over-sized buffer
   leaves the pool as it was (the buffer is gone from both the pool and its holder). *)
Theorem C41_cap : forall max acts s, 0 < max ->
  run max init acts = Some s ->
  (forall b, In b (pool s) -> exists v, lookup (heap s) b = Some v /\ bcap v <= max) /\
  (forall t c s' b v, step max s (AGet t c) = Some (s', OGot b v) -> bcap v <= max) /\
  (forall t b v s' o, lookup (heap s) b = Some v -> max < bcap v ->
     step max s (APutReset t b) = Some (s', o) -> pool s' = pool s /\ ~ In b (held_ids s')).
Proof. exact sched_cap. Qed.

(* The model is never stuck on a sync.Pool.Get of a pooled item. *)
Theorem C41_get_enabled : forall max acts s t i b,
  run max init acts = Some s -> nth_error (pool s) i = Some b ->
  exists s' v, step max s (AGet t (CPool i)) = Some (s', OGot b v).
Proof. exact get_enabled. Qed.

(* The ordering obligation inside Put.  The theorems above are about "x.Reset() ; b.pool.Put(x)"
   (APutReset ; APutPool).  With the two swapped — release first, Reset afterwards, e.g. a deferred
   Reset — the same pool is refuted by a concrete schedule: Get hands thread 2 buffer 7 with 5 bytes
   in it while thread 1 still holds it, thread 2 writes 3 bytes (8 in all), and thread 1's late
   Reset wipes them although thread 2 still owns the buffer. *)
Theorem C41_release_before_reset_refuted :
  exists s4 s5 sf,
    run2 0 init (firstn 4 swapped_sched) = Some (s4, [OGot 7 (mkBuf 0 0); ONone; ONone; OGot 7 (mkBuf 64 5)]) /\
    map h_tid (held s4) = [2; 1] /\ held_ids s4 = [7; 7] /\
    run2 0 init (firstn 5 swapped_sched) = Some (s5, [OGot 7 (mkBuf 0 0); ONone; ONone; OGot 7 (mkBuf 64 5); ONone]) /\
    lookup (heap s5) 7 = Some (mkBuf 64 8) /\
    option_map fst (run2 0 init swapped_sched) = Some sf /\
    lookup (heap sf) 7 = Some (mkBuf 64 0) /\ holds 2 7 Using (held sf) = true.
Proof. exact swapped_order_refuted. Qed.

(* What the structural check accepts as the body of Put (read from the Go source on every run, in
   execution order, deferred calls last): uses by the owner, a Reset, then only Resets / capacity
   guards, the release, and nothing after it. *)
Theorem C41_put_shape : forall l, put_shape_ok l = true ->
  exists pre mid, l = pre ++ 1 :: mid ++ [2] /\ only [1; 3; 5] pre = true /\ only [1; 3] mid = true.
Proof. exact put_shape_ok_sound. Qed.

(* non-vacuity: an interleaved schedule of two threads is enabled; the reused buffer comes back
   empty with its capacity; on a pool capped at 64 the same buffer (capacity 128) is not kept *)
Example C41_nonvacuous :
  (exists s, run 0 init demo_sched = Some s /\ held_ids s = [7; 8] /\ pool s = [] /\
             lookup (heap s) 7 = Some (mkBuf 128 0)) /\
  run 64 init demo_sched = None /\
  (exists s, run 64 init (firstn 5 demo_sched) = Some s /\ pool s = [] /\ held_ids s = [8]).
Proof. vm_compute. repeat split; eexists; repeat split. Qed.

Print Assumptions C41_empty_on_get.
Print Assumptions C41_exclusive.
Print Assumptions C41_cap.
Print Assumptions C41_get_enabled.
Print Assumptions C41_release_before_reset_refuted.
Print Assumptions C41_put_shape.
