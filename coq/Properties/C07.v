(* C07 — Every request that requires a response gets one. *)
From MV Require Import Base.Val Session.Pkt Session.Respond Session.RespondProofs.
Open Scope N_scope.

(* Full statement demanded by the property (for the response-deciding model of server.go):
     forall c p, wf_request c p = true -> resp_ok p (model_response c p) = true.
   It is FALSE of the faithful model of the current code; the two witnesses below replay on the
   real broker (KNOWN_FINDINGS.json: KF_C07_pubrel_error, KF_C07_qos_downgrade; both behaviours are
   pinned by existing tests).  Outside exactly those two predicates the statement is proved. *)

Theorem C07_modulo_findings : forall (c : ctx) (p : pkt),
  wf_request c p = true ->
  KF_C07_pubrel_error c p = false ->
  KF_C07_qos_downgrade c p = false ->
  resp_ok p (model_response c p) = true.
Proof. exact respond_sound. Qed.

(* the same for the model the engine runs, which includes the refusal of a response larger than the client's
   Maximum Packet Size (the connection is closed with DISCONNECT 0x95 instead) *)
Theorem C07_modulo_findings_sized : forall (c : ctx) (p : pkt),
  wf_request c p = true ->
  KF_C07_pubrel_error c p = false ->
  KF_C07_qos_downgrade c p = false ->
  resp_ok p (model_response_sized c p) = true.
Proof. exact respond_sized_sound. Qed.

Definition props0 : props :=
  {| p_alias := 0; p_subids := []; p_mei := 0; p_ct := []; p_rt := []; p_cd := []; p_user := []; p_rs := [];
     p_sei := 0; p_seiflag := false; p_rm := 0; p_tam := 0; p_maxqos := 0; p_maxqosflag := false; p_aci := [];
     p_ska := 0; p_skaflag := false; p_pfi := 0; p_pfiflag := false; p_mps := 0; p_wdi := 0; p_ri := []; p_sr := [];
     p_rpi := 0; p_rpiflag := false; p_rri := 0 |}.
Definition mkpk (ty qos pid rc : N) : pkt :=
  {| k_type := ty; k_dup := false; k_qos := qos; k_retain := false; k_pid := pid; k_topic := [116];
     k_payload := []; k_rc := rc; k_rcs := []; k_sp := false; k_props := props0; k_filters := [] |}.
Definition ctx0 (maxqos : N) (infl : option N) : ctx :=
  {| x_ver := 5; x_maxqos := maxqos; x_obscure := false; x_topic_valid := true; x_recvq := 10%Z;
     x_acl_write := true; x_infl := infl; x_filters := []; x_too_large := false |}.

(* refutation 1: PUBREL with reason 0x92 for an identifier the broker knows gets no PUBCOMP *)
Theorem C07_refuted_pubrel : exists c p,
  wf_request c p = true /\ resp_ok p (model_response c p) = false /\ KF_C07_pubrel_error c p = true.
Proof. exists (ctx0 2 (Some T_PUBREC)), (mkpk T_PUBREL 1 7 146). vm_compute. repeat split. Qed.

(* refutation 2: with server maximum QoS 1 a QoS 2 PUBLISH is answered with PUBACK, not PUBREC *)
Theorem C07_refuted_downgrade : exists c p,
  wf_request c p = true /\ resp_ok p (model_response c p) = false /\ KF_C07_qos_downgrade c p = true.
Proof. exists (ctx0 1 None), (mkpk T_PUBLISH 2 7 0). vm_compute. repeat split. Qed.

(* non-vacuity: a QoS 2 publish, a PUBREL and a SUBSCRIBE meet the hypotheses *)
Example C07_nonvacuous :
  let c := ctx0 2 None in
  wf_request c (mkpk T_PUBLISH 2 7 0) = true /\ KF_C07_qos_downgrade c (mkpk T_PUBLISH 2 7 0) = false /\
  model_response c (mkpk T_PUBLISH 2 7 0) = RAck T_PUBREC 7 0 /\
  wf_request (ctx0 2 (Some T_PUBREC)) (mkpk T_PUBREL 1 7 0) = true /\
  model_response (ctx0 2 (Some T_PUBREC)) (mkpk T_PUBREL 1 7 0) = RAck T_PUBCOMP 7 0.
Proof. vm_compute. repeat split. Qed.

Print Assumptions C07_modulo_findings.
Print Assumptions C07_modulo_findings_sized.
Print Assumptions C07_refuted_pubrel.
Print Assumptions C07_refuted_downgrade.
