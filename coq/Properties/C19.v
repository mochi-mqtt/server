(* C19 — Hook chain results are honoured consistently.
   Everything is quantified over ALL hook stacks (lists, in registration order, of records of arbitrary
   functions; [None] = the hook does not provide the method), all clients, packets, protocol versions
   and QoS.  The model is that of the repaired code (fix fcb436d); the pre-fix behaviour is documented
   in Findings/FixedC19.v. *)
From MV Require Import Base.Val Topics.Match Hooks.Chain Hooks.ChainProofs.
Open Scope N_scope.

(* Hooks run in registration order and each packet-modifying hook sees the previous hook's output:
   the invocation logs of the OnPublish, OnPacketRead and OnSubscribe chains are exactly the traces over
   the providing hooks in registration order ([pub_trace], [read_trace], [sub_trace]: the n-th entry is
   the n-th providing hook applied to the output of the one before; a chain stops early only at a hook
   that objects), and a chain nobody objects to returns the composition of all providing hooks. *)
Theorem C19_order : forall (hs : list hook) (cl : client) (pk : ppkt) (s : spkt),
  pub_trace cl (providers hk_publish hs) pk (snd (on_publish hs cl pk)) /\
  (snd (fst (on_publish hs cl pk)) = ENone -> fst (fst (on_publish hs cl pk)) = compose_pub hs cl pk) /\
  read_trace cl (providers hk_read hs) pk (snd (on_read hs cl pk)) /\
  sub_trace cl (providers hk_subscribe hs) s (snd (on_subscribe hs cl s)) /\
  fst (on_subscribe hs cl s) = compose_sub hs cl s.
Proof. exact chain_order. Qed.

(* A packet rejected on read is not processed: in every broker state the publisher only sees its
   connection end; nothing is delivered to anybody, nothing is acknowledged, the retained store is
   unchanged, and no hook beyond the read chain (OnPublish, OnACLCheck) is consulted. *)
Theorem C19_reject_not_processed : forall (hs : list hook) (ob : bool) (st : bst) (cl : client) (pk : ppkt) (ver : N),
  assoc cl (b_conn st) = Some ver ->
  snd (fst (on_read hs cl pk)) = EReject ->
  let '(st', evs, lg) := step hs ob st (OPublish cl pk) in
  evs = [(cl, VClosed)] /\ b_ret st' = b_ret st /\ lg = snd (on_read hs cl pk) /\ assoc cl (b_conn st') = None.
Proof. exact step_reject_not_processed. Qed.

(* A publish that the OnPublish chain rejects, marks as ignored or answers with any error is never
   forwarded and never retained — for every protocol version and every QoS (both are arbitrary here:
   [ver] and [pp_qos pk]), in every broker state. *)
Theorem C19_error_never_forwarded : forall (hs : list hook) (ob : bool) (st : bst) (cl : client) (pk : ppkt) (ver : N),
  assoc cl (b_conn st) = Some ver ->
  snd (fst (on_publish hs cl (fst (fst (on_read hs cl pk))))) <> ENone ->
  let '(st', evs, _) := step hs ob st (OPublish cl pk) in
  no_publish_ev evs /\ b_ret st' = b_ret st.
Proof. exact step_error_never_forwarded. Qed.

(* A client is admitted if (and only if) ANY authentication hook allows it. *)
Theorem C19_any_auth : forall (hs : list hook) (ob : bool) (st : bst) (cl : client) (ver : N),
  (fst (on_auth hs cl) = true <-> some_auth hs cl) /\
  let '(st', evs, _) := step hs ob st (OConnect cl ver) in
  (In (cl, VConnack true) evs <-> some_auth hs cl) /\
  (assoc cl (b_conn st') = Some ver <-> some_auth hs cl \/ assoc cl (b_conn st) = Some ver).
Proof. intros. split; [apply any_auth | apply step_any_auth]. Qed.

(* An access is permitted if (and only if) ANY access-control hook allows it; and the server honours
   it: only a permitted publish is forwarded or retained, a subscription is created exactly for the
   valid filters somebody permits, a valid filter nobody permits is answered 0x87 (0x80 when obscured
   or for MQTT 3). *)
Theorem C19_any_acl : forall (hs : list hook) (ver : N) (ob : bool) (cl : client) (t : bytes) (w : bool) (pk : ppkt)
                             (fs : list (bytes * N)),
  (fst (on_acl hs cl t w) = true <-> some_acl hs cl t w) /\
  (po_forward (process_publish hs ver cl pk) <> None \/ po_retain (process_publish hs ver cl pk) <> None ->
   some_acl hs cl (pp_topic pk) true /\ valid_pub_topic (pp_topic pk) = true) /\
  (let '(codes, gr, _) := sub_filters hs ver ob cl fs in
   length codes = length fs /\
   (forall f q, In (f, q) gr -> In (f, q) fs /\ valid_filter_spec f = true /\ some_acl hs cl f false) /\
   (forall f q, In (f, q) fs -> valid_filter_spec f = true -> some_acl hs cl f false -> In (f, q) gr)) /\
  (forall f q, valid_filter_spec f = true -> ~ some_acl hs cl f false ->
   fst (fst (sub_filters hs ver ob cl [(f, q)])) = [if ver <? 5 then 128 else if ob then 128 else 135]).
Proof.
  intros. split; [apply any_acl|]. split; [apply process_publish_permitted|].
  split; [apply sub_filters_spec|]. intros; apply sub_filters_refusal; assumption.
Qed.

Definition h_mod (id : N) (sfx : N) : hook :=
  mkHook id None None None (Some (fun _ p => (mkP (pp_topic p) (pp_payload p ++ [sfx]) (pp_qos p) (pp_retain p) (pp_pid p), ENone))) None.
Definition h_err (id : N) (e : herr) : hook := mkHook id None None None (Some (fun _ p => (p, e))) None.
Definition h_allow (id : N) : hook := mkHook id (Some (fun _ => true)) (Some (fun _ _ _ => true)) None None None.
Definition h_deny (id : N) : hook := mkHook id (Some (fun _ => false)) (Some (fun _ _ _ => false)) None None None.
Definition m0 : ppkt := mkP (tag "a/b") [1] 1 true 7.
Definition st0 : bst := mkB [(tag "p", 4); (tag "s", 4)] [(tag "s", tag "#")] [].

(* two modifying hooks run in order, the second sees the first one's output; a third hook's error
   stops the chain and the original packet comes back *)
Example C19_order_example :
  on_publish [h_mod 1 10; h_deny 2; h_mod 3 11] (tag "p") m0 =
    (mkP (tag "a/b") [1; 10; 11] 1 true 7, ENone,
     [CPublish 1 (tag "p") m0; CPublish 3 (tag "p") (mkP (tag "a/b") [1; 10] 1 true 7)]) /\
  on_publish [h_mod 1 10; h_err 2 (ECode 153); h_mod 3 11] (tag "p") m0 =
    (m0, ECode 153, [CPublish 1 (tag "p") m0; CPublish 2 (tag "p") (mkP (tag "a/b") [1; 10] 1 true 7)]).
Proof. vm_compute. split; reflexivity. Qed.

(* the premise of C19_error_never_forwarded is met by a concrete stack, and without the objecting hook
   the same publish IS delivered and retained (the conclusion is not trivial) *)
Example C19_error_example :
  snd (fst (on_publish [h_allow 1; h_err 2 EOther] (tag "p") m0)) <> ENone /\
  step [h_allow 1; h_err 2 EOther] false st0 (OPublish (tag "p") m0) = (st0, [], [CAcl 1 (tag "p") (tag "a/b") true; CPublish 2 (tag "p") m0]) /\
  step [h_allow 1; h_mod 2 10] false st0 (OPublish (tag "p") m0) =
    (mkB (b_conn st0) (b_subs st0) [(tag "a/b", [1; 10])],
     [(tag "p", VAck 4 7 0); (tag "s", VPublish (tag "a/b") [1; 10] false)],
     [CAcl 1 (tag "p") (tag "a/b") true; CPublish 2 (tag "p") m0; CAcl 1 (tag "s") (tag "a/b") false]).
Proof. vm_compute. split; [discriminate | split; reflexivity]. Qed.

Example C19_any_example :
  fst (on_auth [h_deny 1; h_allow 2] (tag "c")) = true /\ fst (on_auth [h_deny 1; h_deny 2] (tag "c")) = false /\
  fst (on_acl [h_deny 1; h_mod 2 0; h_allow 3] (tag "c") (tag "t") true) = true /\
  snd (on_acl [h_allow 1; h_allow 2] (tag "c") (tag "t") true) = [CAcl 1 (tag "c") (tag "t") true].
Proof. vm_compute. repeat split. Qed.

Print Assumptions C19_order.
Print Assumptions C19_reject_not_processed.
Print Assumptions C19_error_never_forwarded.
Print Assumptions C19_any_auth.
Print Assumptions C19_any_acl.
