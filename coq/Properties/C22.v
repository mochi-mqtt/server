(* C22 — All bundled storage back ends behave identically. *)
From Coq Require Import Permutation.
From MV Require Import Base.Val Storage.StoreHooks Storage.StoreProofs Findings.FixedC22.
Open Scope N_scope.

(* The property at full strength: for every sequence of storage hook events and every two back
   ends, reading the stored state back gives the same clients, subscriptions, in-flight messages,
   retained messages and system info, up to ordering. *)
Definition C22_same_statement : Prop :=
  forall (evs : list event) (b1 b2 : backend),
    rb_equiv (read_back (run_hooks b1 evs)) (read_back (run_hooks b2 evs)).

(* It does not hold of the code: bbolt refuses keys longer than 32768 bytes and badger keys longer
   than 65000 bytes (the failed write is only logged), pebble and redis accept them; MQTT allows
   client identifiers and topics of up to 65535 bytes.  Known finding KF_C22_key_limit. *)
Theorem C22_refuted : exists evs,
  KF_C22_key_limit evs = true /\
  ~ rb_equiv (read_back (run_hooks Bolt evs)) (read_back (run_hooks Redis evs)).
Proof. exists long_history. split; [exact long_history_kf | exact long_history_differs]. Qed.

(* Outside that finding the statement holds for all histories and all four back ends. *)
Theorem C22_same_modulo_findings : forall evs, KF_C22_key_limit evs = false ->
  forall b1 b2, rb_equiv (read_back (run_hooks b1 evs)) (read_back (run_hooks b2 evs)).
Proof. exact same_modulo_key_limit. Qed.

(* The two back ends without a key-size limit in the MQTT range agree on every history. *)
Theorem C22_pebble_redis_same : forall evs,
  rb_equiv (read_back (run_hooks Pebble evs)) (read_back (run_hooks Redis evs)).
Proof. exact pebble_redis_same. Qed.

(* non-vacuity: a history with colliding subscription keys ("a","b:c") / ("a:b","c"), an in-flight
   message, a retained message and a system info tick; all four back ends hold one subscription, one
   in-flight message with its packet identifier, one retained message and the system info *)
Definition demo_client : rclient :=
  mkRClient (mkClientRec (tag "a") (tag "l") [] [] false 5 60 true 0 false (VL []) (VL [])) false.
Definition demo_pkt : pkt := mkPkt (VL []) 7 (tag "t/u") (tag "x") (tag "o") 100 160%Z 5 1 true 60 (VL []).
Definition demo_history : list event :=
  [ESessionEstablished demo_client;
   ESubscribed (tag "a") [(mkSub (tag "b:c") 0 0 1 false false, 1)];
   ESubscribed (tag "a:b") [(mkSub (tag "c") 0 0 2 false false, 2)];
   EQosPublish (tag "a") demo_pkt 101;
   ERetain (tag "a") demo_pkt false;
   ESysTick (VN 5)].

Example C22_nonvacuous :
  KF_C22_key_limit demo_history = false /\
  forall b, In b [Badger; Pebble; Bolt; Redis] ->
    let r := read_back (run_hooks b demo_history) in
    map cr_sei_flag (rb_clients r) = [true] /\ map sr_qos (rb_subs r) = [2] /\
    map mr_pid (rb_inflight r) = [7] /\ map mr_pf_flag (rb_retained r) = [true] /\
    rb_sys r = Some (tag "SYS", VN 5).
Proof.
  split; [vm_compute; reflexivity|].
  intros b [<-|[<-|[<-|[<-|[]]]]]; vm_compute; repeat split.
Qed.

(* the repaired defects C22-1 and C22-2 (fixed in /repo): before the repair bolt and redis kept a
   stale client record at disconnect and lost the packet identifier of in-flight messages *)
Example C22_prefix_disconnect :
  let evs := [ESessionEstablished (cl (VN 1)); EDisconnect (cl (VN 0)) false] in
  map cr_will (rb_clients (read_back (run_hooks_prefix Badger evs))) = [VN 0] /\
  map cr_will (rb_clients (read_back (run_hooks_prefix Bolt evs))) = [VN 1] /\
  map cr_will (rb_clients (read_back (run_hooks_prefix Redis evs))) = [VN 1].
Proof. exact prefix_disconnect_differs. Qed.

Example C22_prefix_packet_id :
  let evs := [EQosPublish (tag "a") pk 0] in
  map mr_pid (rb_inflight (read_back (run_hooks_prefix Pebble evs))) = [2] /\
  map mr_pid (rb_inflight (read_back (run_hooks_prefix Bolt evs))) = [0] /\
  map mr_pid (rb_inflight (read_back (run_hooks_prefix Redis evs))) = [0].
Proof. exact prefix_packet_id_lost. Qed.

Print Assumptions C22_refuted.
Print Assumptions C22_same_modulo_findings.
Print Assumptions C22_pebble_redis_same.
