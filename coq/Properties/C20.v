(* C20 — Persistent state is restored faithfully after a restart. *)
From MV Require Import Base.Val Storage.StoreHooks Storage.StoreProofs Storage.Restart
                       Storage.RestartProofs Findings.FixedC20.
Open Scope N_scope.

(* The property at full strength, for a server with maximum message expiry interval [maxcap]: for
   every sequence of storage writes (so: for every history of hook events, [awrites_of evs]) and
   every back end, the broker restarted on the store has, under every client id / (client id,
   filter) / (client id, packet id) / topic, exactly what the writes describe: the sessions that
   outlive their connection with all persisted settings, their subscriptions with options, their
   in-flight messages and the retained messages with content, properties, the time at which they
   expire and the expiry time the interval sent to receivers is computed from. *)
Definition C20_restart_statement : Prop :=
  forall (maxcap : N) (aws : list awr) (b : backend),
    restores maxcap (restart maxcap (read_back (run_awrites b aws))) (arun aws).

(* It does not hold of the code; three known findings, one witness each. *)
Theorem C20_refuted :
  (exists aws, KF_C20_sub_key_collision aws = true /\
     rest_sub (restart 86400 (read_back (run_awrites Redis aws))) (tag "a", tag "b:c") <>
     spec_sub (arun aws) (tag "a", tag "b:c")) /\
  (exists aws, KF_C20_irregular_expiry 86400 aws = true /\
     rest_ret 86400 (restart 86400 (read_back (run_awrites Redis aws))) (tag "w") <>
     spec_ret 86400 (arun aws) (tag "w")) /\
  (exists aws id, key_limit_exceeded aws = true /\
     rest_session (restart 86400 (read_back (run_awrites Bolt aws))) id <> spec_session (arun aws) id).
Proof.
  split; [|split].
  - exists collision_history. destruct collision_witness as [A [B C]]. split; [exact A|]. rewrite B, C. discriminate.
  - exists irregular_history. destruct irregular_witness as [A [B C]]. split; [exact A|].
    intro E. rewrite E in B. rewrite C in B. discriminate B.
  - exists long_key_history, long_id. destruct long_key_witness as [A [B C]]. split; [exact A|]. rewrite B.
    intro E. rewrite <- E in C. discriminate C.
Qed.

(* Outside the findings — no two (client id, filter) pairs of the history sharing the key
   "<id>:<filter>", no message whose expiry time is not the one the broker derives from its creation
   time and expiry interval, no key beyond bbolt's 32768 bytes — and for 16-bit packet identifiers,
   the statement holds for every sequence of writes and all four back ends. *)
Theorem C20_restart_modulo_findings : forall maxcap aws b,
  key_limit_exceeded aws = false ->
  KF_C20_sub_key_collision aws = false ->
  KF_C20_irregular_expiry maxcap aws = false ->
  pids_ok aws = true ->
  restores maxcap (restart maxcap (read_back (run_awrites b aws))) (arun aws).
Proof. exact restart_restores. Qed.

(* in particular for the writes of any history of storage hook events *)
Theorem C20_restart_history_modulo_findings : forall maxcap evs b,
  KF_C22_key_limit evs = false ->
  KF_C20_sub_key_collision (awrites_of evs) = false ->
  KF_C20_irregular_expiry maxcap (awrites_of evs) = false ->
  pids_ok (awrites_of evs) = true ->
  restores maxcap (restart maxcap (read_back (run_hooks b evs))) (arun (awrites_of evs)).
Proof. intros maxcap evs b. exact (restart_restores maxcap (awrites_of evs) b). Qed.

(* non-vacuity: a history over ids / filters / topics with ':' '/' '_' and unicode, free of findings,
   restores a session with its expiry settings, a subscription with options, an in-flight message
   and a retained message with its own expiry time, on every back end *)
Definition nv_client : client_rec :=
  mkClientRec (tag "a:b_c/ü") (tag "t") (tag "r") (tag "u") false 5 60 true 0 true (VL []) (VL []).
Definition nv_pub : pkt :=
  mkPkt (VL [VN 3; VN 1; VN 0; VN 1; VN 9]) 7 (tag "x:y/z_ü") (tag "m") (tag "o:1") 1000 1005%Z 5 1 true 5 (VL []).
Definition nv_history : list awr :=
  [ASetClient nv_client; ASetSub (tag "a:b_c/ü") (mkSub (tag "x:y/#") 3 1 2 true true) 1;
   ASetIfm (tag "a:b_c/ü") nv_pub 1001; ASetRet (tag "o:1") nv_pub; ASetSys (VN 1)].

Example C20_nonvacuous :
  key_limit_exceeded nv_history = false /\ KF_C20_sub_key_collision nv_history = false /\
  KF_C20_irregular_expiry 86400 nv_history = false /\ pids_ok nv_history = true /\
  forall b, In b [Badger; Pebble; Bolt; Redis] ->
    let rs := restart 86400 (read_back (run_awrites b nv_history)) in
    option_map cr_sei_flag (rest_session rs (tag "a:b_c/ü")) = Some true /\
    option_map su_qos (rest_sub rs (tag "a:b_c/ü", tag "x:y/#")) = Some 1 /\
    option_map mo_deadline (rest_ifm 86400 rs (tag "a:b_c/ü", 7)) = Some (Some 1005%Z) /\
    option_map mo_pf_flag (rest_ret 86400 rs (tag "x:y/z_ü")) = Some true.
Proof.
  repeat split; try (vm_compute; reflexivity).
  all: destruct H as [<-|[<-|[<-|[<-|[]]]]]; vm_compute; reflexivity.
Qed.

(* the repaired defects (fixed in /repo), one witness each *)
Example C20_prefix_flags_lost :
  cr_sei_flag (client_rec_prefix c1) = false /\ cr_rpi_flag (client_rec_prefix c1) = false.
Proof. exact prefix_flags_lost. Qed.

Example C20_prefix_expiry_lost :
  deadline 86400 p1 = Some 1005%Z /\
  deadline 86400 (to_packet_prefix (retained_record (tag "o") p1)) = Some 87400%Z /\
  deadline 86400 (to_packet 86400 (retained_record (tag "o") p1)) = Some 1005%Z.
Proof. exact prefix_expiry_lost. Qed.

Print Assumptions C20_refuted.
Print Assumptions C20_restart_modulo_findings.
Print Assumptions C20_restart_history_modulo_findings.
