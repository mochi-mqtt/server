(* C38 — Reported $SYS statistics match the broker's actual state. *)
From MV Require Import Base.Val Session.Pkt Session.Stats Session.StatsProofs.
From MV Require Base.Sched Conc.Limit Session.StatsLimit Session.StatsLimitProofs.
Open Scope Z_scope.

(* [stats_ok s]: Info.ClientsConnected / Subscriptions / Retained / Inflight of the model state equal
   the number of connected clients in Clients, of client subscriptions in the topic index, of
   retained messages in the store and of in-flight records over all sessions, and none is negative.
   [run init ops] is the state after the history [ops]; an operation is one harness step (CONNECT
   incl. takeover with clean start 0/1, end of a connection with or without session expiry,
   SUBSCRIBE incl. re-subscription and shared filters, UNSUBSCRIBE incl. absent filters, PUBLISH
   QoS 0-2 with retain / clear and any fan-out incl. deferred deliveries and rolled-back ones,
   every acknowledgement incl. error reason codes, expiry of sessions / retained / in-flight
   messages, the $SYS tick).  The five defects that made this false on the pinned tree are repaired
   (Findings/FixedC38.v, a file by itself, keeps the old primitives and a state each of them breaks),
   so the full statement holds for ALL histories. *)

Theorem C38_counters : forall ops : list op, stats_ok (run init ops).
Proof. exact stats_always_ok. Qed.

(* at every quiescent point on the way, i.e. after every prefix of the history *)
Theorem C38_every_quiescent_point : forall (ops : list op) (k : nat), stats_ok (run init (firstn k ops)).
Proof. intros ops k. apply stats_always_ok. Qed.

(* one step from any consistent state (the inductive core; also covers states restored from a store
   provided they are consistent) *)
Theorem C38_step : forall (s : st) (o : op), inv_off 0 s -> inv_off 0 (step s o).
Proof. exact step_inv. Qed.

(* Concurrent connection attempts (the interleaving model of attachClient's limit check / slot
   reservation / release, Conc/Limit.v): under EVERY schedule of any number of attempts, at every point
   where no connection closed by a takeover still waits for its handler's teardown, the connected-clients
   counter equals the number of established connections, and it is never negative.  A refused attempt
   therefore leaves nothing behind in the counter. *)
Theorem C38_connected_under_schedules :
  forall (max : Z) (specs : list Conc.Limit.tspec) (sched : list Base.Sched.tid),
  0 <= max ->
  let c := Base.Sched.run Conc.Limit.exec sched (Conc.Limit.limit_threads max specs) in
  Session.StatsLimit.quiet c = true ->
  Session.StatsLimit.connected_ok c /\ 0 <= Conc.Limit.l_counter (Base.Sched.shared c).
Proof. exact Session.StatsLimitProofs.connected_exact_when_quiet. Qed.

(* non-vacuity: a history with subscription, QoS 1 fan-out, disconnection, takeover, acknowledgement
   and expiry drives every counter away from zero and back *)
Definition a : bytes := tag "a".
Definition b : bytes := tag "b".
Definition h1 : list op :=
  [ OConnect a false 4 true;
    OSubscribe a 1 [(tag "t/+", tag "N|t/+", true); (tag "$share/g/t/1", tag "S|g|t/1", true)] [] None;
    OConnect b true 5 true;
    OPublish b 1 7 1 (tag "t/1") false [(a, 1%N, 0%N)] None;
    OPublish b 2 8 0 (tag "t/1") false [(a, 2%N, 0%N); (a, 3%N, 1%N)] None;
    OClose a false;
    OConnect a false 4 true;
    OAck a T_PUBACK 1 false None ].

Example C38_nonvacuous :
  let s := run init h1 in
  (n_conn s, n_subs s, n_ret s, n_infl s) = (2, 2, 1, 2) /\
  (act_conn s, act_subs s, act_ret s, act_infl s) = (2, 2, 1, 2) /\
  let s' := run s [OClose a false; OExpireClients [a]; OExpireRetained [tag "t/1"]; OClose b true] in
  (n_conn s', n_subs s', n_ret s', n_infl s') = (0, 0, 0, 0) /\ s_clients s' = [].
Proof. vm_compute. repeat split. Qed.

Print Assumptions C38_counters.
Print Assumptions C38_every_quiescent_point.
Print Assumptions C38_step.
Print Assumptions C38_connected_under_schedules.
