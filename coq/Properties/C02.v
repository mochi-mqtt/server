(* C02 — retained messages returned for a subscription filter are exactly those whose topic the filter matches. *)
From MV Require Import Base.Val Topics.Match Topics.IndexSpec Topics.Trie
  Topics.TrieRefine Topics.TrieSelect Topics.RetSub Topics.RetSubProofs Topics.Lin Topics.RetainConc Topics.RetainConcProofs
  Findings.FixedC02.
From MV Require Base.ListMisc.
From Coq Require Import Permutation.
Open Scope N_scope.

(* For every history of retain / clear (empty payload) / expiry operations, interleaved with any subscription
   operations, and every well-formed filter, Messages(filter) returns — as a multiset, i.e. each message exactly
   once — the currently retained messages (the map abs ops) whose topic the filter matches under the same
   [topic_matches] as live delivery (C01). *)
Theorem C02_refines : forall ops f, wf_ops ops -> msg_filter_ok f = true ->
  Permutation (messages (run ops) f) (spec_retained (abs ops) f).
Proof. intros ops f W OK. exact (messages_perm _ _ f (R_run ops W) OK). Qed.

(* spelled out: membership and multiplicity *)
Theorem C02_exactly : forall ops f t pl, wf_ops ops -> msg_filter_ok f = true ->
  (In (t, pl) (messages (run ops) f) <->
   In (t, pl) (a_ret (abs ops)) /\ topic_matches f t = true).
Proof.
  intros ops f t pl W OK. pose proof (C02_refines ops f W OK) as P. split.
  - intro H. apply (Permutation_in _ P) in H. unfold spec_retained in H. apply filter_In in H. exact H.
  - intro H. apply (Permutation_in _ (Permutation_sym P)). unfold spec_retained. apply filter_In. exact H.
Qed.

Theorem C02_once : forall ops f, wf_ops ops -> msg_filter_ok f = true -> NoDup (map fst (messages (run ops) f)).
Proof.
  intros ops f W OK. apply (Permutation_NoDup (Permutation_sym (Permutation_map fst (C02_refines ops f W OK)))).
  apply ListMisc.NoDup_map_filter. apply (R_nd _ _ (R_run ops W)).
Qed.

(* What the new subscriber is actually sent (server.go publishRetainedToClient over Messages(filter), with the
   failure paths of publishToClient: read access denied for a topic, QoS 1/2 with no free in-flight slot / packet
   id): for EVERY order in which the index may return the matching messages, the subscriber gets exactly the
   matching retained messages it may read and can take — each at most once, at the QoS min(message, subscription,
   server maximum), every readable QoS 0 one, and as many QoS 1/2 ones as the window has room for; an
   undeliverable message never suppresses another one. *)
Theorem C02_delivered_every_order : forall ops f qt denied subq maxq free scan,
  wf_ops ops -> msg_filter_ok f = true ->
  Permutation scan (map (annot qt) (messages (run ops) f)) ->
  retsub_okb denied subq maxq free (map (annot qt) (spec_retained (abs ops) f))
             (deliver denied subq maxq free scan) = true.
Proof. exact deliver_on_index. Qed.

(* Concurrency: with every index operation (RetainMessage's set + store included) one atomic step under the root
   lock, after ANY schedule of retained publishes / clears / subscribes / unsubscribes on several goroutines,
   Messages(f) returns — for every well-formed filter f, exact or wildcard — exactly the retained messages whose topic
   f matches in the map obtained by running the history of the schedule serially (which keeps every goroutine's
   program order).  The split variant (lock released before the store) is refuted in Properties/C05.v. *)
Theorem C02_after_any_schedule : forall prog (sched : list nat) xf restf h f,
  Forall (fun c => wf_ropb c = true) (concat prog) ->
  run_sched r_model_step sched ix_empty prog = (xf, restf, h) ->
  msg_filter_ok f = true ->
  let serial := map (fun e : nat * rop * N => snd (fst e)) h in
  (forall t, proj t h ++ nth t restf [] = nth t prog []) /\
  Permutation (messages xf f) (spec_retained (fst (seq_run r_spec_step a_empty serial)) f).
Proof.
  intros prog sched xf restf h f W H OK serial.
  destruct (retain_atomic_all_schedules ix_empty a_empty prog sched xf restf h R_empty W H) as (P & _ & HR).
  split; [exact P|]. exact (messages_perm _ _ f HR OK).
Qed.

(* non-vacuity of the delivery statement: one topic denied, window of one slot, three QoS 1 and one QoS 0 message;
   a loop that stops at the first failure (seeded change C02b) is rejected by the same specification *)
Example C02_delivery_nonvacuous :
  let cands := [((tag "a", tag "m1"), 1); ((tag "b", tag "m2"), 1); ((tag "c", tag "m3"), 0); ((tag "d", tag "m4"), 1)] in
  deliver [tag "a"] 1 2 1 cands = [((tag "b", tag "m2"), 1); ((tag "c", tag "m3"), 0)] /\
  retsub_okb [tag "a"] 1 2 1 cands [((tag "b", tag "m2"), 1); ((tag "c", tag "m3"), 0)] = true /\
  retsub_okb [tag "a"] 1 2 1 cands [] = false /\
  retsub_okb [tag "a"] 1 2 1 cands [((tag "b", tag "m2"), 1)] = false /\
  retsub_okb [tag "a"] 1 2 1 cands [((tag "b", tag "m2"), 1); ((tag "c", tag "m3"), 0); ((tag "d", tag "m4"), 1)] = false.
Proof. vm_compute. repeat split. Qed.

(* non-vacuity: parent level of a trailing '#', a $-topic, a cleared and an overwritten message *)
Example C02_nonvacuous :
  let ops := [ORetain (tag "x") (tag "m1"); ORetain (tag "x/y") (tag "m2"); ORetain (tag "$foo/y") (tag "m3");
              ORetain (tag "z") (tag "m4"); ORetain (tag "z") []; ORetain (tag "x/y") (tag "m5")] in
  wf_ops ops /\
  messages (run ops) (tag "x/#") = [(tag "x", tag "m1"); (tag "x/y", tag "m5")] /\
  messages (run ops) (tag "+/y") = [(tag "x/y", tag "m5")] /\
  messages (run ops) (tag "#") = [(tag "x", tag "m1"); (tag "x/y", tag "m5")] /\
  messages (run ops) (tag "$foo/#") = [(tag "$foo/y", tag "m3")] /\
  messages (run ops) (tag "z") = [].
Proof. vm_compute. repeat split; repeat constructor. Qed.

(* the repaired defects (fixed in /repo) *)
Example C02_prefix_refuted :
  messages_prefix (run three) (tag "x/#") = [(tag "x/y", tag "m2")] /\
  messages_prefix (run three) (tag "+/y") = [(tag "x/y", tag "m2"); (tag "$foo/y", tag "m3")].
Proof. exact (conj (proj1 prefix_hash_omits_parent) (proj1 prefix_wild_matches_dollar)). Qed.

Print Assumptions C02_refines.
Print Assumptions C02_exactly.
Print Assumptions C02_once.
Print Assumptions C02_delivered_every_order.
Print Assumptions C02_after_any_schedule.
