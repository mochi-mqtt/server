(* C32 — The broker never deadlocks on its internal locks; no code path re-acquires a read lock
   it already holds.

   Shape of the argument.  (1) A machine of goroutines acquiring / releasing Go (RW) mutexes with
   writer preference ([Locks.can_step]).  (2) The translator astx extracts from the Go source a
   table of lock-acquisition and call sites (Gen/LockGraph.v, regenerated on every run).  (3) The
   theorems below: if the lock-order graph of a table has a topological numbering (is acyclic) and
   no function re-acquires a class it holds, then goroutines whose lock behaviour conforms to the
   table never reach a deadlocked configuration, under any schedule, and can always run to
   completion.  (4) Per run the kernel checks a call closure and a numbering computed from the
   regenerated table with the checker's tests [balanced_ok], [closedb] and [rankedb]
   (LocksProofs.certified_table_sound, which C32_checker_sound instantiates with the closure and
   numbering the checker computes itself; Gen/LockCheck.v, compiled by the translate step of
   ./check C32).

   Partial by nature: blocking on channels, sockets, WaitGroups and sync.Once is outside the lock
   model; callees reached only through interfaces / function values implemented outside the
   analysed packages are assumed not to take broker locks (the translator lists every such call
   made under a lock in the evidence); lock instances are abstracted to classes (owner type .
   mutex field), with one declared refinement (the root particle of the topic index). *)
From Coq Require Import List String.
From MV Require Import Base.Val Conc.Locks Conc.LocksProofs Findings.FixedC32.
Import ListNotations.
Open Scope N_scope.

(* Instance level: threads that acquire locks in strictly increasing rank, release only what they
   hold and end holding nothing never deadlock, whatever the schedule. *)
Theorem C32_rank_discipline_sound : forall (rk : lock -> N) (c0 : cfg),
  (forall t, In t c0 -> held t = [] /\ chk rk [] (prog t) = true) ->
  forall sched : list nat, ~ deadlocked (run sched c0).
Proof. exact discipline_sound. Qed.

(* Table level: acyclic lock order + no re-entrant acquisition =>
   for every set of goroutines conforming to the table and every schedule, no deadlock. *)
(* [conforms cl tbl unb [(f, [])] es]: the goroutine started at f performs the events es, every
   acquisition and call happens at a site the table lists, every activation releases what it
   acquired before it exits, and no function of [unb] (the functions with a path that leaves them
   holding a lock) is entered. *)
Theorem C32_discipline_sound : forall (cl : lock -> cls) (tbl : lock_table) (unb : list fname) (A : fname -> list cls),
  closed tbl A -> acyclic (lock_order tbl A) -> no_reentrant tbl A ->
  forall gs : list (fname * list ev),
    (forall f es, In (f, es) gs -> conforms cl tbl unb [(f, [])] es = true) ->
    forall sched : list nat, ~ deadlocked (run sched (map (fun g => thread_of (snd g)) gs)).
Proof. intros cl tbl unb A Hc Ha _ gs Hgs sched. apply (numbered_table_sound cl tbl unb A Hc Ha gs Hgs). Qed.

(* ... and no goroutine blocks forever: every schedule prefix can be extended to a schedule after
   which every goroutine has finished (so no subset of goroutines is stuck either). *)
Theorem C32_all_goroutines_can_finish : forall (cl : lock -> cls) (tbl : lock_table) (unb : list fname) (A : fname -> list cls),
  closed tbl A -> acyclic (lock_order tbl A) -> no_reentrant tbl A ->
  forall gs : list (fname * list ev),
    (forall f es, In (f, es) gs -> conforms cl tbl unb [(f, [])] es = true) ->
    forall sched, exists sched', all_done (run (sched ++ sched') (map (fun g => thread_of (snd g)) gs)).
Proof. intros cl tbl unb A Hc Ha _ gs Hgs sched. apply (numbered_table_sound cl tbl unb A Hc Ha gs Hgs). Qed.

(* [acyclic] is stated through a numbering; it excludes every cycle, and in particular the
   re-acquisition of a held class (a read lock taken twice). *)
Theorem C32_acyclic_means_no_cycle : forall g, acyclic g -> forall a, ~ path g a a.
Proof. exact numbering_no_cycle. Qed.

(* The boolean checker is sound for the hypotheses above; its first conjunct (every function releases
   on every path what it acquired: no function is unbalanced) makes the restriction of [conforms] to
   balanced functions vacuous for an accepted table. *)
Theorem C32_checker_sound : forall names unb tbl, lock_discipline_ok_full names unb tbl = true ->
  (forall g, existsb (N.eqb g) unb = false) /\
  forall (cl : lock -> cls) (gs : list (fname * list ev)),
    (forall f es, In (f, es) gs -> conforms cl tbl unb [(f, [])] es = true) ->
    forall sched,
      ~ deadlocked (run sched (map (fun g => thread_of (snd g)) gs)) /\
      exists sched', all_done (run (sched ++ sched') (map (fun g => thread_of (snd g)) gs)).
Proof. exact checked_table_sound_full. Qed.

(* non-vacuity: a table with genuine nesting (function 0 holds class 0 in write mode and calls 1,
   which read-locks class 1) is accepted, has conforming executions that really nest, and two such
   goroutines plus a writer on the inner lock run to completion *)
Definition ex_table : lock_table :=
  [ mk_site 0 [] (Acquire 0 W); mk_site 0 [(0, W)] (Call 1);
    mk_site 1 [] (Acquire 1 R);
    mk_site 2 [] (Acquire 1 W) ].
Definition ex_cl (l : lock) : cls := if l <? 10 then 0 else 1.
Definition ex_g0 : list ev := [EAcq 3 W; EEnter 1; EAcq 12 R; ERel 12 R; EExit; ERel 3 W].
Definition ex_g2 : list ev := [EAcq 12 W; ERel 12 W].

Example C32_nonvacuous :
  lock_discipline_ok ex_table = true /\
  conforms ex_cl ex_table [] [(0, [])] ex_g0 = true /\
  conforms ex_cl ex_table [] [(2, [])] ex_g2 = true /\
  ops_of ex_g0 = [Acq 3 W; Acq 12 R; Rel 12 R; Rel 3 W] /\
  (* an execution with real contention: g0 takes 3, the writer announces on 12 and obtains it,
     g0 waits for 12, the writer releases, g0 proceeds *)
  map prog (run [0; 0; 2; 2; 1; 1; 0; 2; 0; 0; 0; 1; 1; 1; 1]%nat
                [thread_of ex_g0; thread_of ex_g0; thread_of ex_g2]) = [[]; []; []].
Proof. vm_compute. repeat split. Qed.

(* the repaired defects: the pre-fix shape is rejected and does deadlock *)
Example C32_prefix_refuted :
  lock_discipline_ok prefix_table = false /\
  conforms (fun _ => 0) prefix_table [] [(0, [])] reader_evs = true /\
  conforms (fun _ => 0) prefix_table [] [(2, [])] writer_evs = true /\
  deadlocked (run [0%nat; 1%nat] [thread_of reader_evs; thread_of writer_evs]).
Proof.
  split; [exact (proj1 prefix_rejected)|]. split; [exact (proj1 prefix_conforms)|].
  split; [exact (proj2 prefix_conforms) | exact prefix_deadlocks].
Qed.

(* a function that returns on some path without releasing: rejected by the complete check although
   its nesting is fine; the leaked lock blocks the next goroutine for ever *)
Example C32_unbalanced_refuted :
  lock_discipline_ok leak_table = true /\
  lock_discipline_ok_full [(0, "Client.flushIdle"%string)] [0] leak_table = false /\
  conforms (fun _ => 0) leak_table [0] [(1, [])] [EEnter 0; EAcq 7 W; EExit] = false /\
  deadlocked (run [0; 0; 1]%nat [mk_thread [] false [Acq 7 W]; mk_thread [] false [Acq 7 W; Rel 7 W]]).
Proof.
  split; [exact (proj1 leak_rejected)|]. split; [exact (proj1 (proj2 leak_rejected))|].
  split; [vm_compute; reflexivity | exact leak_deadlocks].
Qed.

Print Assumptions C32_rank_discipline_sound.
Print Assumptions C32_discipline_sound.
Print Assumptions C32_all_goroutines_can_finish.
Print Assumptions C32_acyclic_means_no_cycle.
Print Assumptions C32_checker_sound.
