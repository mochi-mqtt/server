(* C26 — Packet codec round-trips every well-formed packet.
   [wf_packet] (Codec/CodecNorm.v): every field within its Go type, header flags as the packet type
   requires, strings valid UTF-8 of at most 65535 bytes, the packet within the protocol's maximum
   size.  [norm pk rem] = the packet the encoded bytes mean ([expected] of the specification-level
   packet [abs pk]); its properties are the explicit normal form [norm_props] (C26_properties), which
   states the encoder's suppression rules: response information only with Mods.AllowResponseInfo,
   reason string / user properties dropped with Mods.DisallowProblemInfo or at Mods.MaxSize, zero /
   empty / out-of-range values written as "absent". *)
From MV Require Import Base.Val Codec.Vbi Codec.Wire Codec.Props Codec.MochiCodec Codec.SpecCodec Codec.SpecBridge
  Codec.CodecRT Codec.CodecNorm Codec.CodecNormProofs Codec.CodecRoundTrip Codec.CodecDecWf Codec.CodecReencode
  Findings.FixedC26.
Open Scope N_scope.

(* Encoding a well-formed packet of any of the 15 types under protocol version 3, 4 or 5 succeeds
   (unless the packet identifier is the refused 0, C26_encoder_refuses_only_pid0), and decoding the
   result with the same version (fixed header, remaining length, body — whatever follows in the stream
   is left unread) gives the normal form of the packet; the remaining-length field of the encoding
   is the number of bytes that follow it. *)
Theorem C26_roundtrip : forall pk, wf_packet pk = true -> KF_C26_pid0 pk = false ->
  exists bs rem, mochi_encode pk = Ok bs /\
    (exists hb body, bs = hb :: put_vbi rem ++ body /\ blen body = rem /\ rem <= 268435455) /\
    forall rest, Vbi.wf_bytes (bs ++ rest) ->
      mochi_decode_packet (pk_version pk) (bs ++ rest) = Ok (norm pk rem, rest).
Proof. exact roundtrip_total. Qed.

Theorem C26_encoder_refuses_only_pid0 : forall pk, wf_packet pk = true ->
  KF_C26_pid0 pk = true -> mochi_encode pk = Err ENoPacketID.
Proof. exact (fun pk _ => encode_pid0 pk). Qed.

(* The encoder's output is one of the forms the standard permits for the specification-level
   packet [abs pk] (byte for byte). *)
Theorem C26_encodes_permitted_form : forall pk bs,
  wf_packet pk = true -> mochi_encode pk = Ok bs ->
  exists body, bs = frame (abs pk) body /\ In body (bodies (pk_version pk) (abs pk)) /\
               len body <= 268435455.
Proof. exact encode_is_form. Qed.

(* The decoded properties are exactly the properties valid for the packet type and not suppressed. *)
Theorem C26_properties : forall pkt m p n, props_of (entries pkt m p n) = norm_props pkt m p n.
Proof. exact props_of_entries. Qed.

(* What "equivalent" means field by field: the normal form has the type, flags, identifiers, topic,
   payload, reason codes, filters, subscription options and CONNECT parameters of the packet
   ([same_fields], by packet type; reason codes and properties only where the protocol version
   carries them), and its properties are [norm_props]. *)
Theorem C26_fields_preserved : forall pk rem, wf_packet pk = true ->
  let q := norm pk rem in
  pk_version q = pk_version pk /\
  fh_type (pk_fh q) = fh_type (pk_fh pk) /\ fh_qos (pk_fh q) = fh_qos (pk_fh pk) /\
  fh_dup (pk_fh q) = fh_dup (pk_fh pk) /\ fh_retain (pk_fh q) = fh_retain (pk_fh pk) /\
  fh_remaining (pk_fh q) = rem /\
  same_fields pk q /\
  ((pk_version pk = 5 \/ fh_type (pk_fh pk) = 15) -> fh_type (pk_fh pk) <> 12 -> fh_type (pk_fh pk) <> 13 ->
   exists n, pk_props q = norm_props (fh_type (pk_fh pk)) (pk_mods pk) (pk_props pk) n).
Proof. exact norm_preserves. Qed.

(* Every packet the decoder returns is well-formed (so the theorems above apply to it), for every
   version byte and whatever Mods the caller sets for re-encoding — with two provisos stated in the
   hypotheses: a CONNECT must have the standard protocol name / level and no will bits without the
   will flag ([connect_standard]: the decoder also accepts CONNECTs that ConnectValidate refuses; the
   proof does not cover those), and the input must not be within 0.4 MB of the protocol's maximum
   size (IN_MAX = 268000000). *)
Theorem C26_decoded_wellformed : forall v bs pk rest m,
  v < 256 -> Vbi.wf_bytes bs -> blen bs <= IN_MAX ->
  mochi_decode_packet v bs = Ok (pk, rest) ->
  (fh_type (pk_fh pk) = 1 -> connect_standard pk = true) ->
  wf_packet (set_pk_mods m pk) = true.
Proof. exact decoded_wf. Qed.

(* Re-encoding: any byte string the decoder accepts re-encodes to bytes that decode to the normal
   form of the decoded packet ([C26_fields_preserved] says what the normal form keeps) — modulo the
   known finding KF_C26_pid0 and the two provisos of C26_decoded_wellformed.  The size proviso is
   real: Properties.Decode lets the last property of a block run past the declared block length, so
   a re-encoding can be up to one property per block longer than the accepted input. *)
Theorem C26_reencode_modulo_findings : forall v bs pk rest m,
  v < 256 -> Vbi.wf_bytes bs -> blen bs <= IN_MAX ->
  mochi_decode_packet v bs = Ok (pk, rest) ->
  (fh_type (pk_fh pk) = 1 -> connect_standard pk = true) ->
  KF_C26_pid0 pk = false ->
  let pk' := set_pk_mods m pk in
  exists bs' rem, mochi_encode pk' = Ok bs' /\
    forall rest', Vbi.wf_bytes (bs' ++ rest') ->
      mochi_decode_packet (pk_version pk) (bs' ++ rest') = Ok (norm pk' rem, rest').
Proof. exact reencode. Qed.

(* The model's validity predicate for strings (codec.go validUTF8 = utf8.Valid and no NUL, modelled
   in Wire.v) IS the specification: well-formed UTF-8 per RFC 3629 section 4 (SpecCodec.utf8_wf, the
   ABNF alternatives one by one; surrogates, overlong forms and code points above U+10FFFF excluded)
   without the null character [MQTT-1.5.4-1,2]. *)
Theorem C26_utf8_is_spec : forall s, valid_utf8 s = utf8_wf s.
Proof. exact valid_utf8_is_spec. Qed.

(* special code points are well-formed strings — U+FFFD (EF BF BD, what lenient decoders substitute
   for errors, but a valid character when sent literally), U+FEFF, U+0001, U+007F/0080, U+07FF/0800,
   the noncharacters U+FFFE/U+FFFF, U+D7FF/U+E000 around the surrogates, U+10000, U+10FFFF — and
   the ill-formed forms are not: surrogates, overlong encodings, truncated sequences, > U+10FFFF, NUL;
   a PUBLISH with U+FFFD in topic and user property satisfies wf_packet and round-trips *)
Example C26_special_code_points :
  forallb valid_utf8 [[239;191;189]; [239;187;191]; [1]; [127]; [194;128]; [223;191]; [224;160;128];
                      [239;191;190]; [239;191;191]; [237;159;191]; [238;128;128]; [240;144;128;128];
                      [244;143;191;191]] = true /\
  forallb (fun s => negb (valid_utf8 s))
          [[237;160;128]; [237;191;191]; [192;128]; [193;191]; [224;128;128]; [224;159;191];
           [240;128;128;128]; [240;143;191;191]; [194]; [226;130]; [240;159;152]; [128]; [191];
           [244;144;128;128]; [245;128;128;128]; [255]; [0]; [97;0;98]] = true /\
  let fffd := [239; 191; 189] in
  let pk := set_pk_props (set_user [(fffd, fffd)] props0)
            (set_pk_payload [104] (set_pk_topic fffd (fresh_packet 5 (mkfh 0 PUBLISH 0 false false)))) in
  wf_packet pk = true /\
  exists bs q, mochi_encode pk = Ok bs /\ mochi_decode_packet 5 bs = Ok (q, []) /\
               pk_topic q = fffd /\ p_user (pk_props q) = [(fffd, fffd)].
Proof.
  split; [vm_compute; reflexivity|]. split; [vm_compute; reflexivity|]. cbv zeta.
  split; [vm_compute; reflexivity|]. eexists. eexists.
  split; [vm_compute; reflexivity|]. split; [vm_compute; reflexivity|]. split; reflexivity.
Qed.

(* Known finding KF_C26_pid0: the decoder accepts a packet identifier 0 where one is required; the
   encoder refuses such a packet, so these accepted byte strings cannot be re-encoded. *)
Theorem C26_reencode_refuted :
  exists v bs, match mochi_decode_packet v bs with
               | Ok (pk, []) => mochi_encode pk = Err ENoPacketID
               | _ => False
               end.
Proof. exists 4, [50; 5; 0; 1; 97; 0; 0]. vm_compute. reflexivity. Qed.

(* non-vacuity: an MQTT 5 PUBLISH with properties round-trips; the fixed defect *)
Example C26_nonvacuous :
  let pk := set_pk_props (set_user [([107], [118])] (set_topic_alias_flag true (set_topic_alias 3 props0)))
            (set_pk_payload [104; 105] (set_pk_topic [116] (set_pk_packet_id 9
            (fresh_packet 5 (mkfh 0 PUBLISH 1 false true))))) in
  wf_packet pk = true /\
  mochi_encode pk = Ok [51; 18; 0; 1; 116; 0; 9; 10; 35; 0; 3; 38; 0; 1; 107; 0; 1; 118; 104; 105] /\
  exists q, mochi_decode_packet 5 [51; 18; 0; 1; 116; 0; 9; 10; 35; 0; 3; 38; 0; 1; 107; 0; 1; 118; 104; 105]
            = Ok (q, []) /\ pk_topic q = [116] /\ p_topic_alias (pk_props q) = 3 /\ p_user (pk_props q) = [([107], [118])].
Proof.
  cbv zeta. split; [vm_compute; reflexivity|]. split; [vm_compute; reflexivity|].
  eexists. split; [vm_compute; reflexivity|]. repeat split.
Qed.

Example C26_prefix_refuted :
  ack_encode_prefix pubrec_0x10 = Ok [80; 2; 0; 7] /\ mochi_encode pubrec_0x10 = Ok [80; 3; 0; 7; 16].
Proof. split; [exact (proj1 prefix_ack_drops_reason) | exact (proj1 fixed_ack_keeps_reason)]. Qed.

Print Assumptions C26_roundtrip.
Print Assumptions C26_encodes_permitted_form.
Print Assumptions C26_properties.
Print Assumptions C26_fields_preserved.
Print Assumptions C26_encoder_refuses_only_pid0.
Print Assumptions C26_decoded_wellformed.
Print Assumptions C26_reencode_modulo_findings.
Print Assumptions C26_reencode_refuted.
Print Assumptions C26_utf8_is_spec.
