(* C11 — Receive Maximum flow control holds in both directions without leaking quota.
   Model: Session/Inflight.v (the four quota counters with inflight.go's saturating inc / dec at
   the places server.go calls them); verdict on the code: QosSpecs.chk11 on the observed history.

   The full property is FALSE of the faithful model of the current code (each replays on the real broker):
     KF_C11_pubrec_takes_receive_quota   processPubrec lowers the RECEIVE quota for an outbound message: a client with
                                         no publish of its own in flight gets DISCONNECT 0x93 (pinned by
                                         TestServerProcessPacketPubrec)
     KF_C11_limit_checked_first          receiveQuota == 0 is tested before QoS / retransmission: a QoS 0 publish or a
                                         retransmission at the limit is refused with 0x93
     KF_C11_receive_quota_lost           an own exchange whose record another direction's acknowledgement removed
                                         never returns its unit
     KF_C11_refused_retransmit_keeps_quota  after PUBREC 0x91 the client gives the exchange up, the broker keeps counting it
     KF_C11_send_quota_raised            processPubrel / processPubcomp / a cross-direction PUBACK raise the SEND quota
                                         (pinned by TestServerProcessPacketPubrel / ...Pubcomp): more in transit than declared
     KF_C11_resume_resets_quota          resuming a session resets the quota with N messages outstanding and resends all
     KF_C11_record_lost                  a message whose record was deleted (deferred send, id collision) is not counted
     KF_C11_send_quota_lost              deferred send, id collision, PUBREC >= 0x80 and expiry never return the unit of
                                         send quota: messages queued behind the limit are never sent
   Proved for all histories WITHOUT those operations (executable predicates clean_send / clean_recv evaluated along the
   model's run), for every oracle: exact send accounting and its bound, the one-sided receive accounting and "no
   refusal inside the maximum"; unconditionally: quotas stay within [0, maximum]; locally: the post-packet block
   releases a held-back message as soon as quota is available. *)
From MV Require Import Base.Val Session.Pkt Session.Inflight Session.InflightProofs Session.QosSpecs Session.QosProofs
  Session.QosLive Session.QosWitness Conc.Quota Conc.QuotaProofs.
Open Scope N_scope.

(* unconditional, all histories, all oracles: the counters never leave [0, maximum] *)
Theorem C11_quota_bounds : forall c, cfg_ok c -> forall h, hist_ok h ->
  let s := fst (run c init_st h) in
  (0 <= s_sendq s <= s_maxsend s)%Z /\ (0 <= s_recvq s <= s_maxrecv s)%Z.
Proof. exact quota_bounds. Qed.

(* send side: quota + (stored outbound messages handed to the connection) = the client's receive maximum; so never
   more of them than the maximum, and quota is free only when nothing is held back *)
Theorem C11_out_modulo_findings : forall c, cfg_ok c -> forall h s,
  hist_ok h -> wf c s -> sbal s -> clean_send c s h = true ->
  let s' := fst (run c s h) in
  sbal s' /\ ((0 < s_maxsend s')%Z -> (n_f sent_out (s_infl s') <= s_maxsend s')%Z).
Proof. exact run_sbal. Qed.

(* the property-level corollary, from the start: along every history that avoids the listed accounting defects the
   stored outbound messages handed to the connection and not yet acknowledged never outnumber the receive maximum *)
Theorem C11_out : forall c, cfg_ok c -> forall h,
  hist_ok h -> clean_send c init_st h = true ->
  let s := fst (run c init_st h) in
  (0 < s_maxsend s)%Z -> (n_f sent_out (s_infl s) <= s_maxsend s)%Z.
Proof. exact in_transit_bounded. Qed.

(* liveness over histories: the client acknowledges promptly - a run of PUBACK / PUBCOMP, each ending an outbound flow
   whose message was handed to the connection, not more of them than messages are waiting behind the limit.  Every
   acknowledgement releases exactly one held-back message in its own step, the released messages leave in non-decreasing
   uint16(Created) order, and that many fewer are waiting afterwards; with as many acknowledgements as waiting messages
   every one of them is transmitted (C11_all_released).  The acknowledgements of the RELEASED messages themselves free
   nothing (their records are gone): that is KF_C11_send_quota_lost / KF_C09_deferred, see C11_refuted_starved. *)
Theorem C11_live_modulo_findings : forall c, cfg_ok c -> forall acks s,
  waiting c s ->
  (forall o orc, In (o, orc) acks -> op_ok o /\ ends_flow s o) ->
  NoDup (map (fun x => ack_pid (fst x)) acks) ->
  (Z.of_nat (length acks) <= n_f marked (s_infl s))%Z ->
  exists rel,
    concat (snd (run c s acks)) = map pkt_of_held rel /\
    length rel = length acks /\
    (forall k r, In (k, r) rel -> get k (s_infl s) = Some r /\ (r_expiry r < 0)%Z) /\
    sorted_keys (map (fun kv => key16 (snd kv)) rel) /\
    waiting c (fst (run c s acks)) /\
    n_f marked (s_infl (fst (run c s acks))) = (n_f marked (s_infl s) - Z.of_nat (length acks))%Z /\
    (forall k r, get k (s_infl s) = Some r -> (r_expiry r < 0)%Z ->
                 In (k, r) rel \/ get k (s_infl (fst (run c s acks))) = Some r).
Proof. exact release_run. Qed.

Theorem C11_all_released : forall c, cfg_ok c -> forall acks s,
  waiting c s ->
  (forall o orc, In (o, orc) acks -> op_ok o /\ ends_flow s o) ->
  NoDup (map (fun x => ack_pid (fst x)) acks) ->
  Z.of_nat (length acks) = n_f marked (s_infl s) ->
  forall k r, get k (s_infl s) = Some r -> (r_expiry r < 0)%Z ->
  In (OPkt T_PUBLISH k false (r_qos r) (r_uid r) 0) (concat (snd (run c s acks))).
Proof. exact all_released. Qed.

(* CONCURRENT deliveries to one client (interleaving model Conc/Quota.v: read the quota, take a unit atomically, then be
   queued or - queue full - return the unit by an atomic saturating increment; acknowledgements return units too): for EVERY
   schedule of n deliveries, whichever of them find the queue full, the messages in transit never outnumber the receive
   maximum.  Tied to the code by forced schedules across publishToClient's rollback (schedule points write.beforeLock and
   publish.afterAlias). *)
Theorem C11_quota_all_schedules : forall rm n full sched,
  (0 <= rm)%Z ->
  let '(q, ths) := qrun false rm full rm (repeat QStart n) sched in
  (in_transit ths <= rm)%Z /\ (0 <= q <= rm)%Z.
Proof. exact quota_all_schedules. Qed.

(* returning the unit by storing back the value read at the start hands back a unit another delivery took in between:
   a schedule of four deliveries ends with three messages in transit under receive maximum 2; the same schedule is
   harmless with the atomic increment *)
Theorem C11_refuted_snapshot_restore : exists rm full sched,
  in_transit (snd (qrun true rm full rm (repeat QStart 4) sched)) = 3%Z /\
  in_transit (snd (qrun false rm full rm (repeat QStart 4) sched)) = 2%Z /\ rm = 2%Z.
Proof.
  exists 2%Z, (fun j => Nat.eqb j 0), [0; 0; 1; 1; 1; 0; 2; 2; 2; 3; 3; 3]%nat. vm_compute. repeat split; reflexivity.
Qed.

(* receive side: quota + (stored own QoS 2 exchanges) >= the advertised maximum; so with fewer exchanges stored
   than the maximum the quota is not 0 ... *)
Theorem C11_in_modulo_findings : forall c, cfg_ok c -> forall h s,
  hist_ok h -> wf c s -> rlow s -> clean_recv c s h = true ->
  let s' := fst (run c s h) in
  rlow s' /\ ((n_f inbound (s_infl s') < s_maxrecv s')%Z -> (s_recvq s' =? 0)%Z = false).
Proof. exact run_rlow. Qed.

(* ... and then the next PUBLISH (any QoS) is acknowledged or forwarded, not answered DISCONNECT 0x93 *)
Theorem C11_accepted_within_quota : forall c s qos p uid now orc,
  (s_recvq s =? 0)%Z = false ->
  match snd (in_publish c s qos p uid now orc) with
  | OPkt t q _ _ _ _ :: _ => q = p /\ (t = T_PUBREC \/ t = T_PUBACK)
  | OFwd u :: _ => u = uid
  | _ => False
  end.
Proof. exact in_publish_accepts. Qed.

(* the one-step form of the release (the history statements are C11_live_modulo_findings above): with quota available, a connected client and a held-back message,
   the post-packet block writes a held-back message, one with the smallest uint16(Created) *)
Theorem C11_progress_partial : forall c s orc k0 r0,
  wf c s -> s_conn s = true -> (0 < s_sendq s)%Z -> get k0 (s_infl s) = Some r0 -> (r_expiry r0 < 0)%Z ->
  exists p r, snd (deferred s orc) = [OPkt T_PUBLISH p false (r_qos r) (r_uid r) 0] /\
              get p (s_infl s) = Some r /\ (r_expiry r < 0)%Z /\
              forall k' r', get k' (s_infl s) = Some r' -> (r_expiry r' < 0)%Z -> (key16 r <= key16 r')%Z.
Proof. exact deferred_progress. Qed.

Theorem C11_refuted_pubrec : exists c h, model_verdict 11 c h = Some (2, Some (tag "KF_C11_pubrec_takes_receive_quota")).
Proof. exists (wcfg 1 8), [w_connect; w_out 2 1; w_ack T_PUBREC 1; w_pub 1 7 false 2]. vm_compute. reflexivity. Qed.
Theorem C11_refuted_limit_first : exists c h, model_verdict 11 c h = Some (2, Some (tag "KF_C11_limit_checked_first")).
Proof. exists (wcfg 1 8), [w_connect; w_pub 2 3 false 1; w_pub 0 0 false 2]. vm_compute. reflexivity. Qed.
Theorem C11_refuted_recv_lost : exists c h, model_verdict 11 c h = Some (2, Some (tag "KF_C11_receive_quota_lost")).
Proof.
  exists (wcfg 1 8), [w_connect; w_out 1 1; w_pub 2 1 false 9; w_ack T_PUBACK 1; w_ack T_PUBREL 1; w_pub 1 7 false 10].
  vm_compute. reflexivity.
Qed.
Theorem C11_refuted_refused : exists c h, model_verdict 11 c h = Some (2, Some (tag "KF_C11_refused_retransmit_keeps_quota")).
Proof.
  exists (wcfg 2 8), [w_connect; w_pub 2 3 false 1; w_pub 2 3 true 1; w_pub 2 4 false 2; w_pub 1 5 false 3].
  vm_compute. reflexivity.
Qed.
Theorem C11_refuted_raised : exists c h, model_verdict 11 c h = Some (1, Some (tag "KF_C11_send_quota_raised")).
Proof. exists (wcfg 2 8), [w_connect; w_out 1 1; w_pub 2 9 false 2; w_ack T_PUBREL 9; w_out 1 3]. vm_compute. reflexivity. Qed.
Theorem C11_refuted_resume : exists c h, model_verdict 11 c h = Some (1, Some (tag "KF_C11_resume_resets_quota")).
Proof. exists (wcfg 2 8), [w_connect; w_out 1 1; w_netclose; w_connect; w_out 1 2]. vm_compute. reflexivity. Qed.
Theorem C11_refuted_record_lost : exists c h, model_verdict 11 c h = Some (1, Some (tag "KF_C11_record_lost")).
Proof.
  exists (wcfg 2 8), [w_connect; w_out 1 1; w_out 1 2; w_ack T_PUBACK 1; w_netclose; w_connect; w_out 1 3].
  vm_compute. reflexivity.
Qed.
Theorem C11_refuted_starved : exists c h, model_verdict 11 c h = Some (3, Some (tag "KF_C11_send_quota_lost")).
Proof.
  exists (wcfg 2 8), [w_connect; w_out 1 1; w_out 1 2; w_ack T_PUBACK 1; w_ack T_PUBACK 2; w_out 1 3; w_ping].
  vm_compute. reflexivity.
Qed.

(* non-vacuity: a history with traffic in both directions up to the limits satisfies clean_recv, its first six
   operations satisfy clean_send (the seventh, PUBREL for an own exchange, raises the send quota: one of the listed
   findings) and end with the send quota used up, and the monitor accepts the whole history *)
Definition c11_h : list (op * list N) :=
  [(Reconnect true false 300 2, []); w_out 1 1; w_out 1 2; w_pub 2 7 false 5; w_ack T_PUBACK 1; w_out 1 3;
   w_ack T_PUBREL 7; w_pub 1 8 false 6; w_ack T_PUBACK 3; w_ack T_PUBACK 2].
Example C11_nonvacuous :
  clean_recv (wcfg 2 8) init_st c11_h = true /\
  clean_send (wcfg 2 8) init_st (firstn 6 c11_h) = true /\
  model_verdict 11 (wcfg 2 8) c11_h = None /\
  s_sendq (fst (run (wcfg 2 8) init_st (firstn 6 c11_h))) = 0%Z.
Proof. vm_compute. repeat split; reflexivity. Qed.

Print Assumptions C11_quota_bounds.
Print Assumptions C11_out_modulo_findings.
Print Assumptions C11_out.
Print Assumptions C11_live_modulo_findings.
Print Assumptions C11_all_released.
Print Assumptions C11_quota_all_schedules.
Print Assumptions C11_refuted_snapshot_restore.
Print Assumptions C11_in_modulo_findings.
Print Assumptions C11_accepted_within_quota.
Print Assumptions C11_progress_partial.
Print Assumptions C11_refuted_pubrec.
Print Assumptions C11_refuted_limit_first.
Print Assumptions C11_refuted_recv_lost.
Print Assumptions C11_refuted_refused.
Print Assumptions C11_refuted_raised.
Print Assumptions C11_refuted_resume.
Print Assumptions C11_refuted_record_lost.
Print Assumptions C11_refuted_starved.
