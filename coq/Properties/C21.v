(* C21 — A crash never loses acknowledged state or resurrects discarded state. *)
From MV Require Import Base.Val Storage.StoreHooks Storage.Restart
                       Storage.Crash Storage.CrashProofs Findings.FixedC20.
Open Scope N_scope.

(* The property at full strength: for every recorded history (storage hook events interleaved with
   the acknowledgements the broker wrote), every number k of storage writes that reached the store
   before the process died, and every back end, the restarted broker holds exactly the state the
   first k writes describe, and everything acknowledged to a client before the (k+1)-th write is
   among those writes. *)
Definition C21_crash_statement : Prop :=
  forall (maxcap : N) (evs : list event) (k : nat) (b : backend),
    crash_ok maxcap evs k (restart maxcap (read_back (crashed_store b evs k))).

(* It does not hold of the code: processPublish acknowledges a QoS 1/2 PUBLISH to its publisher
   before the message is stored for its subscribers (known finding KF_C21_ack_before_forward; the
   history below is the shape `hx crash` records from the real broker), and the findings of C20
   apply to the state part. *)
Theorem C21_refuted : exists evs k,
  KF_C21_ack_before_forward evs k = true /\
  rest_ifm 86400 (restart 86400 (read_back (crashed_store Bolt evs k))) (tag "s", 1) = None /\
  rest_ifm 86400 (restart 86400 (read_back (crashed_store Bolt evs (S k)))) (tag "s", 1) <> None.
Proof. exists w_history, 4%nat. exact w_history_window. Qed.

(* State part, outside the findings of C20: at every crash point of every history the restarted
   broker holds exactly what the writes made so far describe — nothing written is lost, nothing
   deleted comes back, no subscription or in-flight message exists without its session. *)
Theorem C21_crash_modulo_findings : forall maxcap evs k b,
  key_limit_exceeded (awrites_of evs) = false ->
  KF_C20_sub_key_collision (awrites_of evs) = false ->
  KF_C20_irregular_expiry maxcap (awrites_of evs) = false ->
  pids_ok (awrites_of evs) = true ->
  restores maxcap (restart maxcap (read_back (crashed_store b evs k))) (arun (firstn k (awrites_of evs))).
Proof. exact crash_restores. Qed.

(* A crash inside an operation: whatever the writes still to come ([more]) do not touch is as the
   writes before ([done], all acknowledged or older) left it. *)
Theorem C21_untouched_state_kept : forall maxcap done more,
  (forall cid, ~ In cid (touched_cl more) ->
     spec_session (arun (done ++ more)) cid = spec_session (arun done) cid) /\
  (forall k, ~ In (fst k) (touched_cl more) -> ~ In k (touched_sub more) ->
     spec_sub (arun (done ++ more)) k = spec_sub (arun done) k) /\
  (forall k, ~ In (fst k) (touched_cl more) -> ~ In k (touched_ifm more) ->
     spec_ifm maxcap (arun (done ++ more)) k = spec_ifm maxcap (arun done) k) /\
  (forall t, ~ In t (touched_ret more) ->
     spec_ret maxcap (arun (done ++ more)) t = spec_ret maxcap (arun done) t).
Proof. exact untouched_kept. Qed.

(* Writes issued for a superseded session: the storage hooks write nothing to the client record on
   behalf of a client whose session was taken over (that the broker issues no other storage event
   touching the session for such a client is checked on every recorded history: [superseded_writes]). *)
Theorem C21_superseded_never_deletes_live : forall c expire, rc_takenover c = true ->
  hook_awrites (ESessionEstablished c) = [] /\ hook_awrites (EWillSent c) = [] /\
  hook_awrites (EDisconnect c expire) = [].
Proof. exact superseded_no_client_writes. Qed.

(* Clean Start 1: once the writes have discarded everything recorded for a client id - which the
   broker has to have done when it establishes the clean session; checked on every recorded history
   by [clean_start_leftover] - a restart restores no subscription and no in-flight message for it. *)
Theorem C21_clean_start_nothing_restored : forall maxcap aws b c,
  key_limit_exceeded aws = false -> KF_C20_sub_key_collision aws = false ->
  KF_C20_irregular_expiry maxcap aws = false -> pids_ok aws = true ->
  session_leftover c (arun aws) = false ->
  forall f pid,
    rest_sub (restart maxcap (read_back (run_awrites b aws))) (c, f) = None /\
    rest_ifm maxcap (restart maxcap (read_back (run_awrites b aws))) (c, pid) = None.
Proof. exact clean_start_nothing_restored. Qed.

(* non-vacuity: at the crash point between deleting the client record of an ended session and
   deleting its subscriptions, the restarted broker has neither the session nor the subscription *)
Definition gone : client_rec := mkClientRec (tag "g:1") (tag "t") [] [] true 4 0 false 0 false (VL []) (VL []).
Definition nv_events : list event :=
  [ESessionEstablished (mkRClient gone false);
   ESubscribed (tag "g:1") [(mkSub (tag "a/#") 0 0 1 false false, 1)];
   EDisconnect (mkRClient gone false) true;
   EUnsubscribed (tag "g:1") [tag "a/#"]].

Example C21_nonvacuous :
  length (awrites_of nv_events) = 5%nat /\
  forall b, In b [Badger; Pebble; Bolt; Redis] ->
    let rs := restart 86400 (read_back (crashed_store b nv_events 4)) in
    rest_session rs (tag "g:1") = None /\ rest_sub rs (tag "g:1", tag "a/#") = None /\
    length (rb_subs (read_back (crashed_store b nv_events 4))) = 1%nat.
Proof.
  split; [reflexivity|]. intros b H.
  destruct H as [<-|[<-|[<-|[<-|[]]]]]; vm_compute; repeat split.
Qed.

(* the repaired defects (fixed in /repo) *)
Example C21_prefix_orphan_restored :
  aget sub_key_eqb (tag "gone", tag "a/b") (load_subs_prefix [orphan]) <> None /\
  aget sub_key_eqb (tag "gone", tag "a/b") (load_subs [] [orphan]) = None.
Proof. exact prefix_orphan_restored. Qed.

Example C21_prefix_takeover_clobbers :
  spec_session (arun [ASetClient new_conn; ASetClient old_conn]) (tag "a") = None /\
  spec_session (arun (awrites_of [ESessionEstablished (mkRClient new_conn false);
                                  EDisconnect (mkRClient old_conn true) true])) (tag "a") <> None.
Proof. exact prefix_takeover_clobbers. Qed.

Print Assumptions C21_refuted.
Print Assumptions C21_crash_modulo_findings.
Print Assumptions C21_untouched_state_kept.
Print Assumptions C21_superseded_never_deletes_live.
Print Assumptions C21_clean_start_nothing_restored.
