(* C15 — Expired or ended sessions leave nothing behind. *)
From MV Require Import Base.Val Session.Lifecycle Session.LifeSpec Session.LifeInv Session.LifeProofs15
  Session.LifeProofs15J Findings.FixedC15.
Open Scope N_scope.

Definition model_obs (k : caps) (ops : list op) : list obs := map obs_of (trace k init ops).

(* Nothing of a discarded session survives.  After every history of operations (connects, takeovers,
   disconnects, expiry ticks at arbitrary times, ...) the specification monitor reports
   - no stale index entry: every entry of the topic index belongs to a session that is registered and
     holds that subscription; in particular an identifier without a session has no entry;
   - no unjustified delivery: every PUBLISH the broker forwards to a connection (or re-sends when a
     session is resumed) carries a topic that the CURRENT session of the connection's identifier has
     subscribed to, where the monitor forgets the subscriptions of an identifier whenever its session
     is discarded (the identifier leaves Clients) or replaced by a clean start.  So a connection that
     reuses the identifier of a discarded session receives nothing because of the old session.
   These are the clauses the pre-fix code violated (C15_prefix_expiry_refuted below reports both tags
   on the pre-fix trace). *)
Theorem C15_nothing_left : forall (k : caps) (ops : list op),
  Forall (fun v => v_tag v <> V15_stale_index /\ v_tag v <> V15_unjustified) (mon15 k (model_obs k ops)).
Proof. exact mon15_nothing_left. Qed.

Theorem C15_index_belongs_to_sessions : forall (k : caps) (ops : list op),
  ixinv (fold_left (fun s o => fst (step k s o)) ops init).
Proof. exact index_belongs_to_sessions. Qed.

Definition after (k : caps) (ops : list op) : state := fold_left (fun s o => fst (step k s o)) ops init.

(* WHEN a session is discarded.  In every state reachable by any history, an operation removes the
   session of an identifier from Clients only
   - if it is the housekeeping tick, the session is disconnected, and more than its expiry interval
     has elapsed since the disconnect stamp ([interval]: the session's own interval for MQTT 5 with
     the property, the server maximum otherwise), or
   - if it is the end of that session's own connection and the session ends with the connection
     ([expire_cond]: MQTT 5 with interval 0, MQTT 3 with clean session);
   a takeover (OConnect) and all other operations never remove one; the teardown of a taken-over
   connection (OTeardown) falls under the second case, which asks that the connection is still the one
   registered under the identifier.  Together with C15_interval_capped (the stored interval never
   exceeds the server maximum) this is the first sentence of the property.
   Stated on the model's own state rather than through the monitor [mon15] (whose clauses V15_when /
   V15_late are checked on every run against the real broker). *)
Theorem C15_when : forall (k : caps) (ops : list op) (o : op) (id : bytes),
  removed (after k ops) (fst (step k (after k ops) o)) id ->
  match o with
  | OTickClients now =>
      exists c ob, aget id (st_clients (after k ops)) = Some c /\ get_obj c (st_objs (after k ops)) = Some ob /\
                   o_open ob = false /\ (o_disc ob + Z.of_N (interval k ob) < now)%Z
  | ODisconnect c _ _ _ | ONetClose c _ | OSecondConnect c _ | OTeardown c _ =>
      aget id (st_clients (after k ops)) = Some c /\
      exists ob', get_obj c (st_objs (fst (step k (after k ops) o))) = Some ob' /\ o_id ob' = id /\ expire_cond ob' = true
  | _ => False
  end.
Proof. intros k ops o id. apply discard_only_when_due. apply inv_reachable. Qed.

(* a connected session is never discarded: an open connection's object is always the one registered under its identifier *)
Theorem C15_never_while_connected : forall (k : caps) (ops : list op) (c : N) (ob : cobj),
  get_obj c (st_objs (after k ops)) = Some ob -> o_open ob = true ->
  aget (o_id ob) (st_clients (after k ops)) = Some c.
Proof. intros k ops c ob G O. destruct (inv_reachable k ops) as [W _]. destruct (wf_open _ W c ob G O) as [A _]. exact A. Qed.

(* the interval the broker keeps for a session never exceeds the server maximum *)
Theorem C15_interval_capped : forall (k : caps) (ops : list op) (c : N) (ob : cobj),
  get_obj c (st_objs (after k ops)) = Some ob -> o_sei ob <= k_maxsei k.
Proof. intros k ops. apply interval_capped. Qed.

(* a DISCONNECT cannot raise a zero session expiry interval: protocol error (DISCONNECT 0x82 is sent),
   the interval stays zero and the session is gone after the step *)
Theorem C15_disconnect_cannot_raise : forall (k : caps) (ops : list op) (c : N) (now : Z) (rc v : N) (ob : cobj),
  reading (after k ops) c = Some ob -> o_ver ob = 5 -> o_sei ob = 0 -> 0 < v ->
  aget (o_id ob) (st_clients (fst (do_disconnect k c now rc (Some v) (after k ops)))) = None /\
  (forall ob', get_obj c (st_objs (fst (do_disconnect k c now rc (Some v) (after k ops)))) = Some ob' -> o_sei ob' = 0) /\
  In (OPkt c (PDisconnect 130)) (snd (do_disconnect k c now rc (Some v) (after k ops))).
Proof. intros k ops c now rc v ob R V S P. apply (disconnect_cannot_raise k _ c now rc v ob (inv_reachable k ops) R V S P). Qed.

(* the monitor rejects what the broker did before the two repairs, and accepts the repaired model *)
Theorem C15_prefix_expiry_refuted :
  map v_tag (mon15 caps10 (map obs_of (trace_prefix caps10 init hist_c15_1)))
    = [V15_stale_index; V15_stale_index; V15_stale_index; V15_unjustified] /\
  mon15 caps10 (map obs_of (trace caps10 init hist_c15_1)) = [].
Proof. destruct prefix_expiry_leaves_subscriptions as (A & _ & B & _). split; assumption. Qed.

Theorem C15_prefix_disconnect_cap_refuted :
  map v_tag (mon15 caps10 (map obs_of (trace_prefix caps10 init hist_c15_2))) = [V15_late] /\
  mon15 caps10 (map obs_of (trace caps10 init hist_c15_2)) = [].
Proof. exact prefix_disconnect_expiry_uncapped. Qed.

(* non-vacuity: a session with expiry 5 subscribes, disconnects at 1000, survives the tick at 1005, is
   discarded by the tick at 1006, and the next connection with its identifier receives nothing; a
   DISCONNECT cannot raise a zero expiry (protocol error, the session ends) *)
Definition hist1 : list op :=
  [OConnect 0 1000 (cp5 [111] true None) true [111]; OConnect 1 1000 (cp5 [97] false (Some 5)) true [97];
   OSubscribe 1 [116] 1; OPublish 0 (mk [116] [49] 1); ODisconnect 1 1000 0 None; OPublish 0 (mk [116] [50] 1);
   OTickClients 1005; OTickClients 1006; OConnect 2 1000 (cp5 [97] false (Some 0)) true [97]; OPublish 0 (mk [116] [51] 1);
   ODisconnect 2 1000 0 (Some 7)].

Example C15_nonvacuous :
  mon15 caps10 (model_obs caps10 hist1) = [] /\
  map (fun t => has_client [97] (sn_clients (snap_of (t_post t)))) (trace caps10 init hist1)
  = [false; true; true; true; true; true; true; false; true; true; false] /\
  flat_map (fun t => pkts_to 2 (t_outs t)) (trace caps10 init hist1) = [PConnack 0 false; PDisconnect 130].
Proof. vm_compute. repeat split. Qed.

Print Assumptions C15_nothing_left.
Print Assumptions C15_index_belongs_to_sessions.
Print Assumptions C15_when.
Print Assumptions C15_never_while_connected.
Print Assumptions C15_interval_capped.
Print Assumptions C15_disconnect_cannot_raise.
Print Assumptions C15_prefix_expiry_refuted.
Print Assumptions C15_prefix_disconnect_cap_refuted.
