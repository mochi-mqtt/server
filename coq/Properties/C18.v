(* C18 — Auth ledger decisions are deterministic and use MQTT level semantics.
   Model and specification: Auth/Ledger.v. *)
From Coq Require Import String Permutation.
From MV Require Import Base.Val Topics.Valid Auth.Ledger Auth.LedgerProofs Findings.FixedC18.
Import VLevels.
Open Scope N_scope.
Open Scope list_scope.

(* A rule filter matches a topic only level by level. *)

(* MatchTopic is [level_match] on the levels of filter and topic, for every filter in which a "#"
   level occurs only as the last level (a trailing '#'; see Auth/Ledger.v for the guard) and every
   topic, of any length. *)
Theorem C18_match_spec : forall f t,
  hash_only_last (split f) = true -> match_topic f t = level_match (split f) (split t).
Proof. exact match_topic_spec. Qed.

(* a filter without wildcards matches only the identical topic *)
Theorem C18_match_exact : forall f t,
  no_wildcard (split f) -> (match_topic f t = true <-> f = t).
Proof. exact match_topic_exact. Qed.

(* '+' matches exactly one level *)
Theorem C18_match_plus : forall fl tl,
  level_match ([43] :: fl) tl = true <-> exists x tl', tl = x :: tl' /\ level_match fl tl' = true.
Proof. exact level_match_plus. Qed.

(* a trailing '#' matches one or more further levels *)
Theorem C18_match_trailing_hash : forall pre tl,
  hash_only_last pre = true -> Forall (fun l => is_hash l = false) pre ->
  (level_match (pre ++ [[35]]) tl = true <->
   exists t1 t2, tl = t1 ++ t2 /\ level_match pre t1 = true /\ t2 <> []).
Proof. exact level_match_trailing_hash. Qed.

(* The decisions are the same on every evaluation: they do not depend on the order in which Go
   enumerates the Users map or any Filters map. *)

Theorem C18_deterministic_user_acl : forall acl acl' topic write,
  Permutation acl acl' -> user_acl_loop acl topic write false = user_acl_loop acl' topic write false.
Proof. exact user_acl_loop_perm. Qed.

Theorem C18_deterministic : forall l l' c topic write pw,
  ledger_equiv l l' ->
  acl_ok l c topic write = acl_ok l' c topic write /\ auth_ok l c pw = auth_ok l' c pw.
Proof. intros l l' c topic write pw E. split; [exact (acl_ok_equiv l l' c topic write E) | exact (auth_ok_equiv l l' c pw E)]. Qed.

(* ledger_equiv covers every re-enumeration of the Users map (keys are unique in a Go map) *)
Theorem C18_users_map_order : forall us us',
  NoDup (map fst us) -> Permutation us us' -> users_equiv us us'.
Proof. exact users_equiv_perm. Qed.

(* Global rules are consulted in list order (first matching rule decides). *)

Theorem C18_order_auth : forall pre n r post c pw,
  Forall (fun x => auth_rule_matches x c pw = false) pre -> auth_rule_matches r c pw = true ->
  auth_global (pre ++ r :: post) n c pw = (n + N.of_nat (length pre), a_allow r).
Proof. exact auth_global_first. Qed.

Theorem C18_order_acl : forall pre n r post c topic write,
  Forall (fun x => acl_decisive x c topic = false) pre -> acl_decisive r c topic = true ->
  acl_global (pre ++ r :: post) n c topic write = (n + N.of_nat (length pre), acl_rule_decision r topic write).
Proof. exact acl_global_first. Qed.

(* no rule decides: connect is refused, publish/subscribe is allowed *)
Theorem C18_order_default : forall rs rs' n c pw topic write,
  Forall (fun x => auth_rule_matches x c pw = false) rs ->
  Forall (fun x => acl_decisive x c topic = false) rs' ->
  auth_global rs n c pw = (0, false) /\ acl_global rs' n c topic write = (0, true).
Proof.
  intros rs rs' n c pw topic write F F'.
  split; [exact (auth_global_none rs n c pw F) | exact (acl_global_none rs' n c topic write F')].
Qed.

(* A user's own rules take precedence. *)

Theorem C18_user_precedence : forall l c topic write pw u,
  find_user (l_users l) (cl_username c) = Some u ->
  (u_password u <> [] -> u_password u = pw -> auth_ok l c pw = (0, negb (u_disallow u))) /\
  (any_matching (u_acl u) topic = true -> acl_ok l c topic write = (0, any_granting (u_acl u) topic write)).
Proof.
  intros l c topic write pw u F.
  split; [exact (user_auth_precedence l c pw u F) | exact (user_acl_precedence l c topic write u F)].
Qed.

(* The model refines the declarative specification used by the checker. *)

Theorem C18_refines_spec : forall l c topic write pw,
  (forall d, acl_spec match_topic l c topic write = Some d -> snd (acl_ok l c topic write) = d) /\
  snd (auth_ok l c pw) = auth_spec l c pw.
Proof.
  intros l c topic write pw. split; [exact (acl_ok_refines_spec l c topic write) | exact (auth_ok_is_spec l c pw)].
Qed.

Example C18_nonvacuous_match :
  map (fun p => match_topic (B (fst p)) (B (snd p)))
      [("a/b","a/b"); ("a/+","a/b"); ("a/+","a/"); ("a/#","a/b"); ("a/#","a/b/c"); ("#","a"); ("+/+","a/b");
       ("a/+","a/b/c"); ("a","a/b"); ("a/b","a"); ("a/#","a"); ("a/+","a"); ("+","a/b"); ("a/b","a/c"); ("a+","ab")]%string
  = [true; true; true; true; true; true; true;
     false; false; false; false; false; false; false; false].
Proof. vm_compute. reflexivity. Qed.

Example C18_nonvacuous_decisions :
  let u := Build_user_rule (B "pw") [(B "a/#", 3); (B "a/b", 0); (B "c", 1)] false in
  let l := Build_ledger [(B "u1", u)]
                        [Build_auth_rule (B "cl*") [] [] [] false; Build_auth_rule [] [] [] [] true]
                        [Build_acl_rule [] (B "u2") [] [(B "x/#", 1)]; Build_acl_rule [] [] [] [(B "#", 0)]] in
  let c1 := Build_client (B "cl1") (B "u1") (B "127.0.0.1") in
  let c2 := Build_client (B "k") (B "u2") (B "127.0.0.1") in
  acl_ok l c1 (B "a/b") true = (0, true) /\        (* own rules: a granting filter wins, in any order *)
  acl_ok l c1 (B "c") true = (0, false) /\         (* own rules: matched, not granted *)
  acl_ok l c1 (B "zz") true = (1, false) /\        (* own rules silent: first decisive global rule *)
  acl_ok l c2 (B "x/y") false = (0, true) /\ acl_ok l c2 (B "x/y") true = (0, false) /\
  auth_ok l c1 (B "pw") = (0, true) /\             (* own record before the refusing rule 0 *)
  auth_ok l c1 (B "bad") = (0, false) /\ auth_ok l c2 (B "bad") = (1, true).
Proof. vm_compute. repeat split. Qed.

(* the repaired defects (fixed in /repo): what the pre-fix code did *)
Example C18_prefix_refuted :
  match_topic_prefix (B "a/+") (B "a/b/c") = true /\ match_topic_prefix (B "a") (B "a/b") = true /\
  exists acl acl', Permutation acl acl' /\
    user_acl_loop_prefix acl (B "a/b") true <> user_acl_loop_prefix acl' (B "a/b") true.
Proof.
  destruct prefix_matches_deeper_topics as (M1 & _ & M2 & _).
  destruct prefix_user_acl_depends_on_order as (P & E1 & E2).
  split; [exact M1|]. split; [exact M2|].
  exists [(B "a/#", 3); (B "a/b", 0)], [(B "a/b", 0); (B "a/#", 3)].
  split; [exact P|]. rewrite E1, E2. discriminate.
Qed.

Print Assumptions C18_match_spec.
Print Assumptions C18_match_exact.
Print Assumptions C18_match_plus.
Print Assumptions C18_match_trailing_hash.
Print Assumptions C18_deterministic_user_acl.
Print Assumptions C18_deterministic.
Print Assumptions C18_users_map_order.
Print Assumptions C18_order_auth.
Print Assumptions C18_order_acl.
Print Assumptions C18_order_default.
Print Assumptions C18_user_precedence.
Print Assumptions C18_refines_spec.
