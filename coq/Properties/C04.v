(* C04 — Delivered QoS, subscription identifiers and retain flag follow the options.
   Model: Session/Deliver.v (publishToSubscribers, Subscription.Merge, SelectShared / MergeSharedSelected,
   publishToClient, publishRetainedToClient, processSubscribe) after the fixes d481be6 (identifier on retained deliveries), ad56d60 (identifiers of
   merged shared selections), 97e644e (Retain As Published of overlapping subscriptions) in /repo; the
   pre-fix behaviour is kept in Findings/FixedC04.v.  The specification side (ent_subs, spec_qos, spec_ids,
   spec_retain, spec_granted) is computed from the set of matching subscriptions given by topic_matches. *)
From MV Require Import Base.Val Session.Deliver Session.DeliverProofs Session.DeliverTheorems.
From Coq Require Import Permutation.
Open Scope N_scope.

(* delivered QoS = min (published QoS, highest QoS among the matching subscriptions, server maximum),
   for every client, every set of overlapping subscriptions (shared and non-shared), every oracle *)
Theorem C04_qos : forall s orc drops m c cl d,
  NoDup (map fst (cl_subs cl)) -> NoDup (map fst orc) -> cl_ver cl <= 5 ->
  deliver_to s orc drops m c cl = PSend d ->
  d_qos d = spec_qos (st_maxqos s) (m_qos m) (ent_subs c cl (m_topic m) orc).
Proof. intros s orc drops m c cl d N1 N2 V H. apply (deliver_fields s orc drops m c cl d N1 N2 V H). Qed.

(* QoS granted in SUBACK = requested QoS capped at the server maximum *)
Theorem C04_granted : forall s c ver fo,
  sub_accepted s c fo = true -> so_qos (snd fo) <= 2 ->
  sub_code s c ver fo = spec_granted (st_maxqos s) (so_qos (snd fo)).
Proof. intros s c ver fo A _. exact (granted_qos s c ver fo A). Qed.

(* live deliveries carry exactly the identifiers of the matching subscriptions that have one *)
Theorem C04_ids : forall s orc drops m c cl d,
  NoDup (map fst (cl_subs cl)) -> NoDup (map fst orc) -> cl_ver cl = 5 ->
  deliver_to s orc drops m c cl = PSend d ->
  Permutation (d_ids d) (spec_ids (ent_subs c cl (m_topic m) orc)).
Proof.
  intros s orc drops m c cl d N1 N2 V H. assert (V' : cl_ver cl <= 5) by (rewrite V; discriminate).
  apply (deliver_fields s orc drops m c cl d N1 N2 V' H), V.
Qed.

(* retained deliveries (answer to a SUBSCRIBE) carry the identifier of the new subscription, the retain
   flag of the stored message, and QoS = min (stored, subscription, server maximum) *)
Theorem C04_ids_retained : forall s c cl f o m d,
  publish_to_client s c cl (retained_sub f o) m false = PSend d ->
  d_ids d = (if (cl_ver cl =? 5) && pos (so_id o) then [so_id o] else [])
  /\ d_retain d = m_retain m
  /\ d_qos d = N.min (m_qos m) (N.min (so_qos o) (st_maxqos s)).
Proof. intros s c cl f o m d H. destruct (retained_delivery s c cl f o m d H) as (_ & _ & _ & H4 & H5 & H6 & _). auto. Qed.

(* retain flag on live delivery: cleared unless a matching MQTT 5 subscription asked for Retain As Published *)
Theorem C04_retain : forall s orc drops m c cl d,
  NoDup (map fst (cl_subs cl)) -> NoDup (map fst orc) -> cl_ver cl <= 5 ->
  deliver_to s orc drops m c cl = PSend d ->
  d_retain d = spec_retain (cl_ver cl) (m_retain m) (ent_subs c cl (m_topic m) orc).
Proof. intros s orc drops m c cl d N1 N2 V H. apply (deliver_fields s orc drops m c cl d N1 N2 V H). Qed.

(* the same on every state reachable by a history of operations, stated on the output of the publish step *)
Theorem C04_history : forall mq ra deny (h : hist) orc drops pub m0 c d,
  forallb op_ok (ops_of h) = true -> NoDup (map fst orc) -> valid_pub_topic (m_topic m0) = true ->
  let s := run (init mq ra deny) h in
  In d (filter (to_client c) (o_deliv (snd (step orc drops s (OPublish pub m0))))) ->
  exists cl, get_client s c = Some cl /\
    let L := ent_subs c cl (m_topic m0) orc in
    d_qos d = spec_qos mq (m_qos m0) L /\
    d_retain d = spec_retain (cl_ver cl) (m_retain m0) L /\
    (cl_ver cl = 5 -> Permutation (d_ids d) (spec_ids L)) /\
    (cl_ver cl <> 5 -> d_ids d = []).
Proof. exact DeliverTheorems.C04_history. Qed.

(* the copy stored for a client that cannot take the message now (offline persistent session; in the Go code
   also the copy held back by Receive Maximum — the same value `out`) is the copy a connected client would
   have been sent: same QoS, identifiers and retain flag, so C04_qos / C04_ids / C04_retain apply to every later
   transmission made from it (release after an acknowledgement, delivery on reconnection, DUP resend) *)
Theorem C04_stored_copy : forall s c cl sub m dr d,
  publish_to_client s c cl sub m dr = PQueue d ->
  publish_to_client s c (online cl) sub m false = PSend (wire (online cl) d) /\ 0 < d_qos d.
Proof. exact stored_copy_same. Qed.

(* a resumed session is sent exactly its stored copies, encoded for the new connection's protocol version *)
Theorem C04_resume : forall orc drops s c ver persist rpi0 old,
  get_client s c = Some old ->
  o_deliv (snd (step orc drops s (OConnect c ver false persist rpi0)))
  = map (wire (mkCl true ver rpi0 (if ver <? 5 then true else persist) (cl_subs old) [])) (cl_pending old).
Proof. exact resume_sends_stored. Qed.

(* non-vacuity: three overlapping subscriptions (one shared) with different QoS / identifiers / RAP *)
Definition so (q : N) (rap : bool) (id : N) : subopt := mkSO q false rap 0 id.
Definition ex_hist : hist :=
  map (fun o => ([], [], o))
    [OConnect (tag "s") 5 true false false;
     OSubscribe (tag "s") [(tag "a/b", so 0 false 1)];
     OSubscribe (tag "s") [(tag "a/+", so 1 true 0)];
     OSubscribe (tag "s") [(tag "$share/g/a/#", so 2 false 3)]].
Definition ex_msg (q : N) (r : bool) : msg := mkMsg (tag "a/b") (tag "x") q r mp_none (tag "p").

Example C04_nonvacuous :
  let s := run (init 2 true []) ex_hist in
  map (fun d => (d_qos d, d_retain d, d_ids d))
      (o_deliv (snd (step [(tag "$share/g/a/#", tag "s")] [] s (OPublish (tag "p") (ex_msg 2 true)))))
  = [(2, true, [1; 3])]
  /\ map (fun d => (d_qos d, d_retain d, d_ids d))
      (o_deliv (snd (step [(tag "$share/g/a/#", tag "s")] [] (run (init 1 true []) ex_hist) (OPublish (tag "p") (ex_msg 2 false)))))
  = [(1, false, [1; 3])].
Proof. vm_compute. split; reflexivity. Qed.

Print Assumptions C04_qos.
Print Assumptions C04_granted.
Print Assumptions C04_ids.
Print Assumptions C04_ids_retained.
Print Assumptions C04_retain.
Print Assumptions C04_history.
Print Assumptions C04_stored_copy.
Print Assumptions C04_resume.
