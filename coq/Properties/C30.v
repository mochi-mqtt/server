(* C30 — Filter and topic-name validation follows the MQTT rules.

   The server-level clause ("a subscription with an invalid filter is answered with 0x8F (0x80 for
   MQTT 3) and creates nothing") is stated over the routing model of Auth/Acl.v (C30_suback below)
   and checked by the broker harness; the functions it must call are [is_valid_filter s false]
   (= [valid_filter_spec s] by C30_filter) and [is_shared_filter]. *)
From Coq Require Import String.
From MV Require Import Base.Val Topics.Valid Topics.ValidProofs Findings.FixedC30.
From MV Require Hooks.Chain Auth.Acl Auth.AclProofs Topics.PubValid.
Import VLevels.
Open Scope N_scope.
Open Scope list_scope.

(* A subscription filter is accepted exactly when it is non-empty, '#' occupies only the whole last
   level, '+' occupies only whole levels, and a '$share' filter has a non-empty share name without
   wildcards followed by a non-empty filter — for every byte string. *)
Theorem C30_filter : forall s, is_valid_filter s false = valid_filter_spec s.
Proof. exact filter_model_is_spec. Qed.

(* A client publish topic is accepted exactly when it contains no wildcard and does not start with
   '$SYS' — for every byte string. *)
Theorem C30_topic : forall s, is_valid_filter s true = valid_pub_topic_spec s.
Proof. exact topic_model_is_spec. Qed.

(* IsSharedFilter recognises exactly the filters whose first level is "$share" up to case folding
   (the reading of "a '$share' filter" used by valid_filter_spec; see Topics/Valid.v). *)
Theorem C30_shared : forall s, is_shared_filter s = is_share s.
Proof. exact shared_model_is_spec. Qed.

(* Under the literal reading ("$share" in lower case only) the same holds for every string whose
   first level is not another case variant of "$share" (those the broker also treats as shared). *)
Theorem C30_filter_literal : forall s,
  share_case_variant s = false -> is_valid_filter s false = valid_filter_spec_lit s.
Proof. exact filter_model_is_literal_spec. Qed.

(* levels_ok, the heart of the specification, says what the property text says. *)
Theorem C30_levels_ok_meaning : forall ls,
  levels_ok ls = true <->
  (forall pre l post, ls = pre ++ l :: post ->
     (In 35 l -> l = [35] /\ post = []) /\ (In 43 l -> l = [43])).
Proof. exact levels_ok_iff. Qed.

(* the accumulator formulation of split in DESIGN.md appendix G is the split used here, and join
   is its inverse *)
Theorem C30_split_join : forall s, split_acc s = split s /\ join (split s) = s.
Proof. intro s. split; [exact (split_acc_eq s) | exact (join_split s)]. Qed.

(* non-vacuity: accepted and refused inputs of every clause *)
Example C30_nonvacuous :
  map (fun s => is_valid_filter (bytes_of_string s) false)
      ["a/b/c"; "a/+/c"; "a/#"; "#"; "+"; "a//b"; "$share/g/t"; "$SHARE/g/+/#"; "$share/g//";
       ""; "a/b#"; "a+"; "+a"; "a/#/c"; "#/"; "$share"; "$share/g"; "$share//t"; "$share/g/"; "$share/+/t"; "$share/g#/t"]%string
  = [true; true; true; true; true; true; true; true; true;
     false; false; false; false; false; false; false; false; false; false; false; false] /\
  map (fun s => is_valid_filter (bytes_of_string s) true)
      [""; "a/b"; "$sys/x"; "$share"; "$share/g"; "$SY"; "$SYS"; "$SYS/x"; "$SYSx"; "a/+"; "a/#"; "a+"]%string
  = [true; true; true; true; true; true; false; false; false; false; false; false].
Proof. vm_compute. split; reflexivity. Qed.

(* the repaired defects (fixed in /repo): what the pre-fix function did *)
Example C30_prefix_refuted :
  is_valid_filter_prefix (bytes_of_string "a/b#") false = true /\
  is_valid_filter_prefix (bytes_of_string "a+") false = true /\
  is_valid_filter_prefix (bytes_of_string "$share//t") false = true /\
  is_valid_filter_prefix (bytes_of_string "$share/g/") false = true /\
  is_valid_filter_prefix (bytes_of_string "$sys/x") true = false /\
  is_valid_filter_prefix (bytes_of_string "$share") true = false.
Proof.
  destruct prefix_accepts_wildcard_inside_level as (A1 & _ & A2 & _).
  destruct prefix_accepts_empty_share_parts as (B1 & _ & B2 & _).
  exact (conj A1 (conj A2 (conj B1 (conj B2
        (conj (proj1 prefix_refuses_lowercase_sys) (proj1 prefix_refuses_share_topic_names)))))).
Qed.

(* Server-level clause: a SUBSCRIBE filter the validator rejects (equivalently, by C30_filter, one
   the specification rejects) is answered 0x8F (0x80 for MQTT 3) at its own position in the SUBACK,
   is not granted, and no reachable broker state ever holds a subscription on it — whatever the
   permission relation and the matching relation.  The subscribe path is the routing model of
   Auth/Acl.v (C17), instantiated with the proved validator. *)
Theorem C30_suback :
  forall (perm : Chain.client -> bytes -> bool -> bool) (matches : bytes -> bytes -> bool)
         (is_shared : bytes -> bool) (eff : bytes -> bytes)
         (ob : bool) (ver : N) (cl : Chain.client) (fs : list (bytes * (N * bool))) (i : nat) (f : bytes) (q : N) (nl : bool),
  let valid := fun s => is_valid_filter s false in
  nth_error fs i = Some (f, (q, nl)) -> valid_filter_spec f = false ->
  nth_error (fst (Acl.sub_codes perm valid is_shared ver ob cl fs)) i = Some (if (ver <? 5)%N then 128%N else 143%N) /\
  (forall o, ~ In (f, o) (snd (Acl.sub_codes perm valid is_shared ver ob cl fs))) /\
  (forall st c o, AclProofs.reachable perm matches valid is_shared eff ob st -> ~ In (c, (f, o)) (Acl.a_subs st)).
Proof.
  intros perm matches is_shared eff ob ver cl fs i f q nl valid Hn Hs.
  assert (Hv : valid f = false) by (unfold valid; rewrite C30_filter; exact Hs).
  destruct (AclProofs.subinvalid_code perm valid is_shared ob ver cl fs i f q nl Hn Hv) as [H1 H2].
  split; [exact H1|]. split; [exact H2|].
  intros st c o Hr. exact (AclProofs.subinvalid_creates_nothing perm matches valid is_shared eff ob st c f o Hr Hv).
Qed.

(* Server-level publish clause: on every way a topic name reaches processPublish — plain, with a fresh
   topic alias, with an already bound alias and a non-empty name (re-bind), alias-only — and for every
   history of PUBLISH packets on a connection, every QoS, retain flag, protocol version and alias
   maximum: whatever the model of processPublish (Topics/PubValid.v) routes, retains or delivers is a
   non-empty name the specification accepts (so an invalid name is never routed, never retained and
   never bound to an alias: a later alias-only publish cannot resolve to it). *)
Theorem C30_publish_never_invalid : forall ver smax es,
  Forall (fun eo => forall n,
            In n (PubValid.o_published (snd eo)) \/ In n (PubValid.o_retained (snd eo)) \/ In n (PubValid.o_spy (snd eo)) ->
            valid_pub_topic_spec n = true /\ n <> [])
         (PubValid.model_run ver smax [] es).
Proof. intros ver smax es. apply (model_never_invalid ver smax es []). constructor. Qed.

(* ... and the model's behaviour satisfies the specification monitor the run-time checker applies to
   the real broker (accepted names are routed once under their own name, retained iff the retain flag
   is set, acknowledged positively; refused names are not, MQTT 5 acknowledgements carry an error code).
   smax is the server's Topic Alias Maximum: with smax = 0 the model ignores topic aliases, while the
   monitor's specification step always honours them, so the two agree only for smax <> 0. *)
Theorem C30_publish_monitor : forall ver smax es, smax <> 0 ->
  fst (PubValid.monitor ver [] (PubValid.model_run ver smax [] es)) = true /\
  PubValid.corr ver smax [] (PubValid.model_run ver smax [] es) = true.
Proof. intros ver smax es H. apply (model_satisfies_monitor ver smax es [] H). constructor. Qed.

(* non-vacuity: bind alias 1 to "ok", try to re-bind it to "$SYS" and "a/#" (refused: nothing routed,
   QoS 1 answered 0x90), alias-only still resolves to "ok"; the monitor rejects an observation in which
   the re-bind went through *)
Definition ev (t : string) (a q : N) (r : bool) : PubValid.pev := PubValid.Build_pev (bytes_of_string t) a q r.
Arguments ev t%string_scope a q r.
Example C30_publish_nonvacuous :
  map (fun eo => (PubValid.o_published (snd eo), PubValid.o_reason (snd eo)))
      (PubValid.model_run 5 65535 [] [ev "ok" 1 0 false; ev "$SYS" 1 1 true; ev "a/#" 1 0 false; ev "" 1 1 true])
  = [([bytes_of_string "ok"], 0); ([], 144); ([], 0); ([bytes_of_string "ok"], 0)] /\
  fst (PubValid.monitor 5 []
        [(ev "ok" 1 0 false, PubValid.Build_pobs [bytes_of_string "ok"] [] [] 0 0 false);
         (ev "$SYS" 1 0 true, PubValid.Build_pobs [bytes_of_string "$SYS"] [bytes_of_string "$SYS"] [] 0 0 false)]) = false.
Proof. vm_compute. split; reflexivity. Qed.

Print Assumptions C30_publish_never_invalid.
Print Assumptions C30_publish_monitor.
Print Assumptions C30_filter.
Print Assumptions C30_topic.
Print Assumptions C30_shared.
Print Assumptions C30_filter_literal.
Print Assumptions C30_levels_ok_meaning.
Print Assumptions C30_split_join.
Print Assumptions C30_suback.
