(* C14 — Session present flag and session takeover behave per clean start. *)
From MV Require Import Base.Val Session.Lifecycle Session.LifeSpec Session.LifeProofs13 Session.LifeProofs14
  Conc.Connack Conc.ConnackProofs Conc.Takeover Conc.TakeoverProofs.
Open Scope N_scope.

Definition model_obs (k : caps) (ops : list op) : list obs := map obs_of (trace k init ops).

(* [mon14] (Session/LifeSpec.v) is the specification monitor that ./check runs on what the real broker
   did; on the traces of the component model it never reports anything, for every history of
   operations and every server configuration (sequential orders: every operation runs to
   quiescence; the teardown of a taken-over connection is an operation of its own, OTeardown). *)

(* CONNACK session present = a session existed && !clean start *)
Theorem C14_sp : forall (k : caps) (ops : list op), fresh_conns [] ops = true ->
  forall v, In v (mon14 (model_obs k ops)) -> v_tag v <> V14_sp.
Proof. intros k ops F v I. unfold model_obs in I. rewrite (mon14_clean k ops) in I. destruct I. Qed.

(* a resumed session keeps every subscription (in the session and in the topic index) and every unacknowledged message *)
Theorem C14_resume_keeps : forall (k : caps) (ops : list op), fresh_conns [] ops = true ->
  forall v, In v (mon14 (model_obs k ops)) -> v_tag v <> V14_keeps.
Proof. intros k ops F v I. unfold model_obs in I. rewrite (mon14_clean k ops) in I. destruct I. Qed.

(* with clean start nothing of the previous session survives in the broker: no subscription, no
   in-flight message, no entry of the topic index; and the discarded session is reported to the hooks -
   every unacknowledged message through OnQosDropped, every subscription through OnUnsubscribed - so that
   a persistent store forgets it and cannot restore it later (the restore itself is C21) *)
Theorem C14_clean_drops : forall (k : caps) (ops : list op), fresh_conns [] ops = true ->
  forall v, In v (mon14 (model_obs k ops)) -> v_tag v <> V14_clean /\ v_tag v <> V14_clean_hooks.
Proof. intros k ops F v I. unfold model_obs in I. rewrite (mon14_clean k ops) in I. destruct I. Qed.

(* the connection whose identifier is taken over receives DISCONNECT 0x8E (MQTT 5) and nothing else, is
   closed, and no connection ever receives a packet after the broker closed it *)
Theorem C14_old_silent : forall (k : caps) (ops : list op), fresh_conns [] ops = true ->
  forall v, In v (mon14 (model_obs k ops)) -> v_tag v <> V14_old_after /\ v_tag v <> V14_old_takeover.
Proof. intros k ops F v I. unfold model_obs in I. rewrite (mon14_clean k ops) in I. destruct I. Qed.

(* Schedules: the old connection's teardown against the new connection's attach (Conc/Takeover.v), and a
   publish to the session against the resuming attach (Conc/Connack.v). *)

(* C14-1: the old handler passes !IsTakenOver() before the flag is stored and then deletes the NEW
   client's registration: a connected session is not in Clients any more *)
Theorem C14_registered_schedules_refuted : exists p sched, new_registered (run_takeover p sched) = false.
Proof. exact new_registered_refuted. Qed.

Theorem C14_registered_modulo_findings : forall p sched,
  KF_C14_stale_takenover_check p sched = false -> new_registered (run_takeover p sched) = true.
Proof. exact new_registered_modulo. Qed.

(* C14-2: a QoS>0 message published between inheritClientSession and Clients.Add enters the old
   object's in-flight map and is lost to the resumed session *)
Theorem C14_keeps_schedules_refuted : exists sched, message_kept (run_connack sched) = false.
Proof. exact message_kept_refuted. Qed.

Theorem C14_keeps_modulo_findings : forall sched,
  KF_C14_publish_in_inherit_window sched = false -> message_kept (run_connack sched) = true.
Proof. exact message_kept_modulo. Qed.

(* non-vacuity: a takeover that resumes (subscription and unacknowledged message kept, old connection
   gets DISCONNECT 0x8E and is closed) followed by a clean start (everything dropped) *)
Definition cp5 (id : bytes) (clean : bool) (sei : N) : cparams :=
  {| cp_pname := name_MQTT; cp_ver := 5; cp_reserved := false; cp_clean := clean; cp_willflag := false; cp_willqos := 0;
     cp_willretain := false; cp_willtopic := []; cp_willpayload := []; cp_willdelay := 0; cp_userflag := false; cp_user := [];
     cp_passflag := false; cp_pass := []; cp_keepalive := 60; cp_id := id; cp_seiflag := true; cp_sei := sei;
     cp_trunc := false; cp_willtopic_ok := true |}.
Definition capsD : caps := {| k_maxsei := 4294967295; k_minver := 3; k_maxqos := 2; k_retain := true |}.
Definition mk (t pl : bytes) (q : N) : msg := {| m_topic := t; m_payload := pl; m_qos := q; m_retain := false |}.
Definition hist14 : list op :=
  [OConnect 0 1000 (cp5 [111] true 0) true [111]; OConnect 1 1000 (cp5 [97] false 30) true [97]; OSubscribe 1 [116] 1;
   OPublish 0 (mk [116] [49] 1); OConnect 2 1000 (cp5 [97] false 30) true [97]; OTeardown 1 1000;
   OConnect 3 1000 (cp5 [97] true 30) true [97]; OTeardown 2 1000; OPublish 0 (mk [116] [50] 1)].
Example C14_nonvacuous :
  mon14 (model_obs capsD hist14) = [] /\
  nth 4 (map t_outs (trace capsD init hist14)) [] =
    [OPkt 1 (PDisconnect 142); OClose 1; OPkt 2 (PConnack 0 true); OPkt 2 (PPublish (mk [116] [49] 1) true)] /\
  nth 6 (map t_outs (trace capsD init hist14)) [] = [OPkt 2 (PDisconnect 142); OClose 2; OPkt 3 (PConnack 0 false)] /\
  nth 8 (map t_outs (trace capsD init hist14)) [] = [].
Proof. vm_compute. repeat split. Qed.

Print Assumptions C14_sp.
Print Assumptions C14_resume_keeps.
Print Assumptions C14_clean_drops.
Print Assumptions C14_old_silent.
Print Assumptions C14_registered_schedules_refuted.
Print Assumptions C14_registered_modulo_findings.
Print Assumptions C14_keeps_schedules_refuted.
Print Assumptions C14_keeps_modulo_findings.
