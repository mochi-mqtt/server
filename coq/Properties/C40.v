(* C40 — The inline client API behaves like a regular subscriber and publisher.
   Model: Session/Deliver.v, operations OInlinePublish / OInlineSubscribe / OInlineUnsubscribe
   (Server.Publish -> InjectPacket -> processPublish with cl.Net.Inline; Server.Subscribe; Server.Unsubscribe;
   Subscribers.InlineSubscriptions keyed by the identifier).  Matching (including a trailing '#' matching the
   parent level) is topic_matches; that the trie agrees is C01 (the inline parent-level defect was fixed there). *)
From MV Require Import Base.Val Topics.Levels Topics.Match Session.Deliver Session.DeliverProofs Session.DeliverTheorems.
Open Scope N_scope.

(* a message published through the API reaches every connected client with a matching subscription (that it may
   read, and whose queue has room) exactly once ... *)
Theorem C40_reaches_all_clients : forall s orc drops m0 c cl,
  wf_state s -> NoDup (map fst orc) -> get_client s c = Some cl -> c <> inline_origin ->
  let out := o_deliv (snd (step orc drops s (OInlinePublish m0))) in
  length (filter (to_client c) out)
  = (if cl_conn cl && negb (denied s c (m_topic m0)) && negb (nilb (ent_subs c cl (m_topic m0) orc))
        && negb (existsb (beq_bytes c) drops) then 1%nat else 0%nat).
Proof.
  intros s orc drops m0 c cl [[ND _] _] _ G NE. cbv zeta.
  change (step orc drops s (OInlinePublish m0)) with (publish orc drops s (with_origin inline_origin m0)).
  (* the inline origin is no client: No Local cannot apply *)
  rewrite publish_count by exact ND. rewrite G, deliver_decision_other by (intro E; apply NE; symmetry; exact E).
  reflexivity.
Qed.

(* ... and every inline identifier holding a matching inline subscription exactly once *)
Theorem C40_reaches_all_inline : forall s orc drops m0 id,
  let out := o_deliv (snd (step orc drops s (OInlinePublish m0))) in
  length (filter (to_inline id) out) = if inline_matching s (m_topic m0) id then 1%nat else 0%nat.
Proof.
  intros s orc drops m0 id. cbn [step]. rewrite publish_out, filter_app, filter_to_inline_route, app_nil_r, inline_once.
  reflexivity.
Qed.

(* each client copy has QoS = min (requested QoS, highest matching subscription QoS, server maximum) *)
Theorem C40_qos : forall s orc drops m0 c d,
  wf_state s -> NoDup (map fst orc) ->
  In d (filter (to_client c) (o_deliv (snd (publish orc drops s (with_origin inline_origin m0))))) ->
  exists cl, get_client s c = Some cl /\
    d_qos d = spec_qos (st_maxqos s) (m_qos m0) (ent_subs c cl (m_topic m0) orc) /\ d_payload d = m_payload m0.
Proof.
  intros s orc drops m0 c d W NO HI. destruct (publish_copy_inv W HI) as (cl & G & NS & V & ED).
  destruct (deliver_fields _ _ _ _ _ _ _ NS NO V ED) as (_ & H2 & H3 & _).
  exists cl. rewrite H3, spec_qos_accepted. auto.
Qed.

(* an inline subscription first receives the matching retained messages, afterwards live messages *)
Theorem C40_retained_then_live : forall orc drops s id f,
  valid_filter_spec f = true ->
  let r := step orc drops s (OInlineSubscribe id f) in
  o_deliv (snd r) = map (fun m => inline_delivery m id) (retained_matching s f)
  /\ (forall t, topic_matches f t = true -> inline_matching (fst r) t id = true)
  /\ (forall i g, In (i, g) (st_inline s) -> In (i, g) (st_inline (fst r)))
  /\ st_clients (fst r) = st_clients s /\ st_retained (fst r) = st_retained s.
Proof. exact inline_subscribe_step. Qed.

(* unsubscribing one inline subscription removes exactly (id, filter) *)
Theorem C40_unsub_one : forall orc drops s id f,
  valid_filter_spec f = true ->
  let r := step orc drops s (OInlineUnsubscribe id f) in
  o_deliv (snd r) = []
  /\ (forall i g, In (i, g) (st_inline (fst r)) <-> In (i, g) (st_inline s) /\ ~ (i = id /\ g = f))
  /\ st_clients (fst r) = st_clients s /\ st_retained (fst r) = st_retained s.
Proof. exact inline_unsubscribe_step. Qed.

(* ... so delivery to every other identifier is unchanged *)
Theorem C40_unsub_others : forall orc drops s id f t id',
  valid_filter_spec f = true -> id' <> id ->
  inline_matching (fst (step orc drops s (OInlineUnsubscribe id f))) t id' = inline_matching s t id'.
Proof. exact inline_unsubscribe_others. Qed.

(* non-vacuity: parent-level '#', retained first, then live, unsubscribe of one identifier *)
Definition im (t p : bytes) (q : N) (r : bool) : msg := mkMsg t p q r mp_none [].
Example C40_nonvacuous :
  let h := map (fun o => ([], [], o))
             [OInlinePublish (im (tag "a") (tag "kept") 1 true);
              OConnect (tag "c") 5 true false false; OSubscribe (tag "c") [(tag "a/#", mkSO 1 false false 0 0)]] in
  let s := run (init 2 true []) h in
  let r1 := step [] [] s (OInlineSubscribe 7 (tag "a/#")) in
  map (fun d => (d_to d, d_payload d)) (o_deliv (snd r1)) = [(TInline 7, tag "kept")]
  /\ (let r2 := step [] [] (fst r1) (OInlineSubscribe 8 (tag "+")) in
      let r3 := step [] [] (fst r2) (OInlinePublish (im (tag "a") (tag "live") 2 false)) in
      map (fun d => (d_to d, d_qos d)) (o_deliv (snd r3)) = [(TInline 7, 2); (TInline 8, 2); (TClient (tag "c"), 1)]
      /\ (let r4 := step [] [] (fst r3) (OInlineUnsubscribe 7 (tag "a/#")) in
          map (fun d => d_to d) (o_deliv (snd (step [] [] (fst r4) (OInlinePublish (im (tag "a") (tag "again") 0 false)))))
          = [TInline 8; TClient (tag "c")])).
Proof. vm_compute. repeat split. Qed.

Print Assumptions C40_reaches_all_clients.
Print Assumptions C40_reaches_all_inline.
Print Assumptions C40_qos.
Print Assumptions C40_retained_then_live.
Print Assumptions C40_unsub_one.
Print Assumptions C40_unsub_others.

(* Concurrency, at the level of the topic index (Topics/InlineConc.v, InlineConcProofs.v).
   Inline Subscribe / Unsubscribe / Publish racing with client unsubscribes and retained clears on the same
   branch of the particle tree.  Model: every index operation, InlineSubscribe's walk + add included, is one
   atomic step under the root lock (Topics.Trie.t_step); an inline publish observes which handlers are called.
   For every program (one list per goroutine) and EVERY schedule: the history keeps every goroutine's order,
   every return value and every set of handlers called is what the plain set of subscriptions gives in that serial
   order, and the final tree is related to the final set — so after quiescence every inline subscription that was
   made and not unsubscribed receives every matching publish, and an unsubscribed one receives nothing. *)
From MV Require Topics.IndexSpec Topics.Trie Topics.TrieRefine Topics.Lin Topics.InlineConc Topics.InlineConcProofs.

Theorem C40_inline_atomic_all_schedules : forall x0 a0 prog (sched : list nat) xf restf h,
  Topics.TrieRefine.R x0 a0 ->
  Forall (fun c => Topics.InlineConc.wf_copb c = true) (concat prog) ->
  Topics.Lin.run_sched Topics.InlineConc.m_step sched x0 prog = (xf, restf, h) ->
  let serial := map (fun e : nat * Topics.InlineConc.cop * N => snd (fst e)) h in
  (forall t, Topics.Lin.proj t h ++ nth t restf [] = nth t prog []) /\
  map snd h = snd (Topics.Lin.seq_run Topics.InlineConc.c_step a0 serial) /\
  Topics.TrieRefine.R xf (fst (Topics.Lin.seq_run Topics.InlineConc.c_step a0 serial)).
Proof. exact Topics.InlineConcProofs.inline_atomic_all_schedules. Qed.

(* The split variant (root lock released after the walk, subscription added afterwards) is refuted by the schedule
   walk / client unsubscribe / add: the subscription lands on a pruned particle and a later publish calls nobody,
   which no serial order of the specification allows; the run-time checker rejects that observation. *)
Example C40_split_refuted :
  (let '(xf, _, _) := Topics.Lin.run_sched Topics.InlineConc.s_step [0; 1; 0]%nat Topics.InlineConcProofs.x_pre
       [[Topics.InlineConc.SWalk Topics.InlineConcProofs.ab; Topics.InlineConc.SAdd 1 Topics.InlineConcProofs.ab 0];
        [Topics.InlineConc.SO (Topics.InlineConc.CO (Topics.IndexSpec.OUnsub (tag "c1") Topics.InlineConcProofs.ab))]] in
   Topics.InlineConc.pub_mask (Topics.Trie.r_in (Topics.Trie.subscribers xf Topics.InlineConcProofs.ab))) = 0 /\
  snd (Topics.InlineConc.c_step
         (fst (Topics.Lin.seq_run Topics.InlineConc.c_step Topics.InlineConcProofs.a_pre
                 [Topics.InlineConc.CO (Topics.IndexSpec.OUnsub (tag "c1") Topics.InlineConcProofs.ab);
                  Topics.InlineConc.CO (Topics.IndexSpec.OInSub 1 Topics.InlineConcProofs.ab 0)]))
         (Topics.InlineConc.CPub Topics.InlineConcProofs.ab)) = 1.
Proof.
  destruct Topics.InlineConcProofs.split_refuted as (A & _ & _ & _ & _ & B). exact (conj A B).
Qed.

Print Assumptions C40_inline_atomic_all_schedules.
