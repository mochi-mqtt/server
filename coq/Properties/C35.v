(* C35 — The connected-client limit is never exceeded. *)
From MV Require Import Base.Val Base.Sched Conc.Limit Conc.LimitProofs Findings.FixedC35.
Open Scope Z_scope.

(* For every maximum, every number of concurrent attempts (any protocol versions, any client
   identifiers, takeovers included) and every schedule of their atomic steps, the number of
   simultaneously established connections never exceeds the maximum.  (Every prefix of a schedule
   is a schedule, so this is a statement about every instant.) *)
Theorem C35_bound : forall (max : Z) (specs : list tspec) (sched : list tid),
  0 <= max -> connected (run exec sched (limit_threads max specs)) <= max.
Proof. exact limit_bound. Qed.

(* Info.ClientsConnected is exact: it equals the number of handlers between their reservation and
   their release, and stays within [0, max]. *)
Theorem C35_counter : forall (max : Z) (specs : list tspec) (sched : list tid),
  0 <= max ->
  let c := run exec sched (limit_threads max specs) in
  l_counter (shared c) = wsum (l_stats (shared c)) /\ 0 <= l_counter (shared c) <= max.
Proof. exact limit_counter. Qed.

(* An attempt is refused only by its own handler, only when the counter has reached the maximum,
   and with CONNACK 0x89 for MQTT 5 and 0x03 for MQTT 3.x. *)
Theorem C35_refusal_code : forall (max : Z) (specs : list tspec) (sched : list tid) (t' t : tid) (k : N),
  let c := run exec sched (limit_threads max specs) in
  stat t (step exec t' c) = Some (Refused k) -> stat t c <> Some (Refused k) ->
  t' = t /\ max <= l_counter (shared c) /\
  exists sp, nth_error specs t = Some sp /\ k = (if (ts_ver sp <? 5)%N then 3%N else 137%N).
Proof. exact limit_refusal. Qed.

(* ... and below the limit the reservation succeeds (the bound is not met by refusing everybody) *)
Theorem C35_admits : forall (max : Z) (specs : list tspec) (sched : list tid) (t : tid),
  0 <= max ->
  let c := run exec sched (limit_threads max specs) in
  l_counter (shared c) < max ->
  nth_error (threads c) t = Some [Reserve; Decr] -> (t < length specs)%nat ->
  stat t (step exec t c) = Some Established.
Proof. exact limit_admits. Qed.

(* the repaired defect C35-1: with the pre-fix check-then-increment the bound is false *)
Theorem C35_refuted_prefix : exists max specs sched,
  0 <= max /\ connected (run exec sched (prefix_threads max specs)) > max.
Proof. exact Findings.FixedC35.C35_refuted_prefix. Qed.

(* non-vacuity: limit 1, an MQTT 5 and an MQTT 3.1.1 attempt; the first is established, the second
   refused with 0x03; with the roles exchanged the MQTT 5 attempt gets 0x89; after the first has
   left, a third attempt is admitted *)
Example C35_nonvacuous :
  let specs := [mkSpec 5 1; mkSpec 4 2; mkSpec 5 3] in
  let c1 := run exec [0; 1; 0; 1]%nat (limit_threads 1 specs) in
  let c2 := run exec [1; 0; 1; 0]%nat (limit_threads 1 specs) in
  let c3 := run exec [0; 0; 1; 0; 2; 2]%nat (limit_threads 1 specs) in
  stat 0%nat c1 = Some Established /\ stat 1%nat c1 = Some (Refused 3) /\ connected c1 = 1 /\
  stat 1%nat c2 = Some Established /\ stat 0%nat c2 = Some (Refused 137) /\
  stat 0%nat c3 = Some Gone /\ stat 1%nat c3 = Some (Refused 3) /\ stat 2%nat c3 = Some Established.
Proof. vm_compute. repeat split. Qed.

(* takeover: limit 2, the second attempt uses the first's client identifier *)
Example C35_takeover :
  let specs := [mkSpec 5 7; mkSpec 5 7; mkSpec 4 8] in
  let c := run exec [0; 0; 1; 1; 2]%nat (limit_threads 2 specs) in
  stat 0%nat c = Some Kicked /\ stat 1%nat c = Some Established /\ stat 2%nat c = Some (Refused 3) /\
  connected c = 1 /\ l_counter (shared c) = 2.
Proof. vm_compute. repeat split. Qed.

Print Assumptions C35_bound.
Print Assumptions C35_counter.
Print Assumptions C35_refusal_code.
Print Assumptions C35_admits.
Print Assumptions C35_refuted_prefix.
