(* C13 — Connections start with one CONNACK and only authenticated clients are admitted.

   [mon13] (Session/LifeSpec.v) is the specification monitor that ./check runs on what the real
   broker did; the theorems say that on the traces of the component model of attachClient /
   readConnectionPacket / validateConnect / ConnectValidate / SendConnack (Session/Lifecycle.v) it
   never reports anything, for every history of operations and every server configuration.
   [fresh_conns] only says that connection numbers name distinct network connections.
   The clause "for every interleaving with traffic to the connecting client id" is in Conc/Connack.v
   (theorems below: C13_connack_first_schedules_refuted / _modulo_findings). *)
From MV Require Import Base.Val Base.Sched Session.Lifecycle Session.LifeSpec Session.LifeProofs13 Conc.Connack
  Conc.ConnackProofs.
From MV Require Conc.Limit Session.LifeLimit.
Open Scope N_scope.

Definition model_obs (k : caps) (ops : list op) : list obs := map obs_of (trace k init ops).

(* first packet sent on a connection is a CONNACK, sent exactly once, nothing before it *)
Theorem C13_first : forall (k : caps) (ops : list op), fresh_conns [] ops = true ->
  forall v, In v (mon13 (model_obs k ops)) -> v_tag v <> V13_first_dup /\ v_tag v <> V13_first_other.
Proof. intros k ops F v I. unfold model_obs in I. rewrite (mon13_model_clean k ops F) in I. destruct I. Qed.

(* a success CONNACK only in answer to a CONNECT that an authentication hook allowed; auth_ok is
   false when no hook is installed, so then every connection is refused *)
Theorem C13_auth : forall (k : caps) (ops : list op), fresh_conns [] ops = true ->
  forall v, In v (mon13 (model_obs k ops)) -> v_tag v <> V13_auth.
Proof. intros k ops F v I. unfold model_obs in I. rewrite (mon13_model_clean k ops F) in I. destruct I. Qed.

(* an undecodable first packet, or a CONNECT that violates the protocol (connect_ok_spec, written from
   MQTT 3.1.1 / 5.0 section 3.1), never yields a session and is closed after at most a failure CONNACK *)
Theorem C13_invalid_connect : forall (k : caps) (ops : list op), fresh_conns [] ops = true ->
  forall v, In v (mon13 (model_obs k ops)) -> v_tag v <> V13_invalid.
Proof. intros k ops F v I. unfold model_obs in I. rewrite (mon13_model_clean k ops F) in I. destruct I. Qed.

(* the decision itself, for every CONNECT variant and configuration: what validateConnect accepts is valid *)
Theorem C13_validate_sound : forall (k : caps) (p : cparams),
  cp_trunc p = false -> validate_connect k p = 0 -> connect_ok_spec p = true.
Proof. exact validate_ok_spec. Qed.

(* concurrent traffic to the connecting client id (Conc/Connack.v) *)
Theorem C13_connack_first_schedules_refuted : exists sched, connack_first (run_connack sched) = false.
Proof. exact connack_first_refuted. Qed.

Theorem C13_connack_first_modulo_findings : forall sched,
  KF_C13_publish_before_connack sched = false -> connack_first (run_connack sched) = true.
Proof. exact connack_first_modulo. Qed.

(* at the connected-client limit (interleaving model Conc/Limit.v of the early check and
   reserveClientSlot): for every schedule of concurrent attempts, an attempt that is refused has
   been answered by a failure CONNACK carrying the reason code of its protocol version (0x89 for
   MQTT 5, 0x03 for MQTT 3.x) - the status [Refused k] of the model stands for "failure CONNACK k
   sent, connection closed"; the monitor engine life13limit (Session/LifeLimit.v) checks on the
   forced schedules of the real broker that a refused attempt's FIRST packet is that CONNACK *)
Theorem C13_limit_refusal_is_connack : forall (max : Z) (specs : list Limit.tspec) (sched : list tid) (t : tid) (k : N),
  Limit.stat t (run Limit.exec sched (Limit.limit_threads max specs)) = Some (Limit.Refused k) ->
  exists sp, nth_error specs t = Some sp /\ k = Limit.refusal_code (Limit.ts_ver sp).
Proof. exact LifeLimit.refusal_is_connack. Qed.

(* non-vacuity: an accepted and a refused connection *)
Definition cpA (ver : N) (res : bool) : cparams :=
  {| cp_pname := name_MQTT; cp_ver := ver; cp_reserved := res; cp_clean := true; cp_willflag := false; cp_willqos := 0;
     cp_willretain := false; cp_willtopic := []; cp_willpayload := []; cp_willdelay := 0; cp_userflag := false; cp_user := [];
     cp_passflag := false; cp_pass := []; cp_keepalive := 30; cp_id := [97]; cp_seiflag := false; cp_sei := 0;
     cp_trunc := false; cp_willtopic_ok := true |}.
Definition capsD : caps := {| k_maxsei := 4294967295; k_minver := 3; k_maxqos := 2; k_retain := true |}.
Example C13_nonvacuous :
  map t_outs (trace capsD init [OConnect 0 1000 (cpA 5 false) true [97]; OConnect 1 1000 (cpA 4 true) true [97];
                                OConnect 2 1000 (cpA 5 false) false [98]; OBadFirst 3 1000])
  = [[OPkt 0 (PConnack 0 false)]; [OPkt 1 (PConnack 130 false); OClose 1]; [OPkt 2 (PConnack 134 false); OClose 2]; [OClose 3]].
Proof. vm_compute. reflexivity. Qed.

Print Assumptions C13_first.
Print Assumptions C13_limit_refusal_is_connack.
Print Assumptions C13_auth.
Print Assumptions C13_invalid_connect.
Print Assumptions C13_validate_sound.
Print Assumptions C13_connack_first_schedules_refuted.
Print Assumptions C13_connack_first_modulo_findings.
