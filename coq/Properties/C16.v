(* C16 — Will messages are published exactly when the protocol requires.

   [mon16] (Session/LifeSpec.v) is the specification monitor that ./check runs on what the real broker
   did (will publications are observed at a subscriber of the will topics).  The faithful model of the
   current code VIOLATES it in five ways, each kept as a known finding with a narrow executable
   predicate (Session/LifeKF.v) and a witness history that replays on the real broker; the
   interleaving clause ("for every interleaving of the old connection's shutdown with the new
   connection") is decided on the window model Conc/Takeover.v for all schedules.
   For all histories of the sequential model: C16_modulo_findings_partial (below) proves that every
   violation the monitor reports with a SAFETY tag (published twice, after a normal DISCONNECT,
   although cancelled, before its time, while alive / without a will, wrong content, dropped by a clean
   start) is one of the known findings; four tags are not covered by the proof - the three LIVENESS tags
   (a due will is NOT published: V16_missing, V16_missing_takeover, V16_late) and V16_retain (a published
   will with the retain flag is not in the retained store afterwards) - they are decided on every run
   against the real broker.  The full statement is C16_modulo_findings_statement. *)
From MV Require Import Base.Val Session.Lifecycle Session.LifeSpec Session.LifeKF Session.LifeProofs16
  Session.LifeProofs16M Conc.Takeover Conc.TakeoverProofs.
Open Scope N_scope.

Definition model_obs (k : caps) (ops : list op) : list obs := map obs_of (trace k init ops).

Definition capsD : caps := {| k_maxsei := 4294967295; k_minver := 3; k_maxqos := 2; k_retain := true |}.
Definition cpW (id : bytes) (clean : bool) (sei : option N) (will : option (N * bool * N)) : cparams :=
  {| cp_pname := name_MQTT; cp_ver := 5; cp_reserved := false; cp_clean := clean;
     cp_willflag := match will with Some _ => true | None => false end;
     cp_willqos := match will with Some (q, _, _) => q | None => 0 end;
     cp_willretain := match will with Some (_, r, _) => r | None => false end;
     cp_willtopic := match will with Some _ => [119] | None => [] end;
     cp_willpayload := match will with Some _ => [87] | None => [] end;
     cp_willdelay := match will with Some (_, _, d) => d | None => 0 end;
     cp_userflag := false; cp_user := []; cp_passflag := false; cp_pass := []; cp_keepalive := 60; cp_id := id;
     cp_seiflag := match sei with Some _ => true | None => false end; cp_sei := match sei with Some v => v | None => 0 end;
     cp_trunc := false; cp_willtopic_ok := true |}.
Definition obsC : op := OConnect 0 1000 (cpW [111] true None None) true [111].
Definition obsS : op := OSubscribe 0 [119] 2.

Definition explained (k : caps) (ops : list op) : bool :=
  forallb (fun v => match kf_of k (model_obs k ops) v with Some _ => true | None => false end) (mon16 k (model_obs k ops)).

(* C16-1: a live connection with a delayed will is taken over by a resuming connection; its teardown
   registers the delayed will after the new connection's cancellation, and the will fires *)
Definition hist_takeover : list op :=
  [obsC; obsS; OConnect 1 1000 (cpW [97] false (Some 20) (Some (1, false, 3))) true [97];
   OConnect 2 1000 (cpW [97] false (Some 20) None) true [97]; OTeardown 1 1000; OTickWill 1004].
Theorem C16_refuted_takeover_delayed :
  map v_tag (mon16 capsD (model_obs capsD hist_takeover)) = [V16_cancelled] /\
  existsb (KF_C16_takeover_delayed capsD (model_obs capsD hist_takeover)) (mon16 capsD (model_obs capsD hist_takeover)) = true.
Proof. vm_compute. split; reflexivity. Qed.

(* C16-2: will delay 3, no Session Expiry property (the session ends at disconnect): the will is
   published only by the tick after the full delay instead of at the disconnect *)
Definition hist_uncapped : list op :=
  [obsC; obsS; OConnect 1 1000 (cpW [97] false None (Some (1, false, 3))) true [97]; ONetClose 1 1000; OTickWill 1004].
Theorem C16_refuted_delay_uncapped :
  map v_tag (mon16 capsD (model_obs capsD hist_uncapped)) = [V16_missing; V16_once] /\
  forallb (KF_C16_delay_uncapped capsD (model_obs capsD hist_uncapped)) (mon16 capsD (model_obs capsD hist_uncapped)) = true.
Proof. vm_compute. split; reflexivity. Qed.

(* C16-6: the delay was cut down to the CONNECT's session expiry (4); the DISCONNECT with Will Message
   raises the expiry to 30, so the will is due at min(8, 30) = +8 but is published by the tick at +6 *)
Definition hist_early : list op :=
  [obsC; obsS; OConnect 1 1000 (cpW [97] false (Some 4) (Some (1, false, 8))) true [97]; ODisconnect 1 1000 4 (Some 30);
   OTickWill 1006].
Theorem C16_refuted_delay_fixed_at_connect :
  map v_tag (mon16 capsD (model_obs capsD hist_early)) = [V16_early] /\
  forallb (KF_C16_delay_fixed_at_connect capsD (model_obs capsD hist_early)) (mon16 capsD (model_obs capsD hist_early)) = true.
Proof. vm_compute. split; reflexivity. Qed.

(* C16-5: a pending delayed will is dropped by a clean-start connection (the session ended: it is due) *)
Definition hist_clean : list op :=
  [obsC; obsS; OConnect 1 1000 (cpW [97] false (Some 20) (Some (1, false, 3))) true [97]; ONetClose 1 1000;
   OConnect 2 1000 (cpW [97] true (Some 20) None) true [97]; OTickWill 1004].
Theorem C16_refuted_clean_reconnect :
  map v_tag (mon16 capsD (model_obs capsD hist_clean)) = [V16_lost_clean] /\
  forallb (KF_C16_clean_reconnect capsD (model_obs capsD hist_clean)) (mon16 capsD (model_obs capsD hist_clean)) = true.
Proof. vm_compute. split; reflexivity. Qed.

(* C16-3: a delayed retained will fires after the session has expired: forwarded but not retained *)
Definition hist_retain : list op :=
  [obsC; obsS; OConnect 1 1000 (cpW [97] false (Some 6) (Some (1, true, 6))) true [97]; ONetClose 1 1000;
   OTickClients 1007; OTickWill 1007].
Theorem C16_refuted_delayed_retain :
  map v_tag (mon16 capsD (model_obs capsD hist_retain)) = [V16_retain] /\
  forallb (KF_C16_delayed_retain_gone capsD (model_obs capsD hist_retain)) (mon16 capsD (model_obs capsD hist_retain)) = true.
Proof. vm_compute. split; reflexivity. Qed.

(* THE FULL STATEMENT (not proved in full): on the trace of every decodable history ([sane_ops]: only
   an MQTT 5 CONNECT carries a will delay, only an MQTT 5 connection sends DISCONNECT properties), every
   violation the monitor reports is a known finding. *)
Definition C16_modulo_findings_statement : Prop :=
  forall (k : caps) (ops : list op), sane_ops k init ops ->
  Forall (fun v => kf_of k (model_obs k ops) v <> None) (mon16 k (model_obs k ops)).

(* PROVED PART.  The same, except for violations with one of the four tags of [uncovered]: the liveness
   tags V16_missing, V16_missing_takeover, V16_late - a will that is due is not published - and V16_retain.
   So, outside the known findings (KF_C16_takeover_delayed, KF_C16_delay_uncapped,
   KF_C16_delay_fixed_at_connect, KF_C16_clean_reconnect; [kf_of] names the predicate that holds), in
   every history: a connection's will is never published twice (V16_once), never after a normal
   DISCONNECT (V16_after_normal), never while the connection is alive or without a registered will
   (V16_unexpected), never before min(delay, session end) (V16_early), never after a resuming connection
   cancelled it (V16_cancelled), always with the registered content (V16_content), and a pending will is
   dropped by a later connection only as KF_C16_clean_reconnect describes (V16_lost_clean).
   What is missing for the full statement: that a will which is due IS published (at the abnormal end,
   by the end of the taken-over connection's teardown, by the tick after its deadline) unless
   KF_C16_takeover_delayed (incl. its knock-on disjuncts) / KF_C16_delay_uncapped hold, and the retain
   clause modulo KF_C16_delayed_retain_gone. *)
Theorem C16_modulo_findings_partial : forall (k : caps) (ops : list op), sane_ops k init ops ->
  Forall (fun v => uncovered (v_tag v) = true \/ kf_of k (model_obs k ops) v <> None) (mon16 k (model_obs k ops)).
Proof. exact mon16_explained. Qed.

(* The order of the delayed-will table.  server.go sendDelayedLWT ranges over a Go map, so the real
   broker handles the entries that are due in one tick in an arbitrary order (observable: order of the
   publications; which of two retained wills on one topic stays retained).  The replay engine therefore
   rearranges the model's table into the observed order before a tick ([reorder_wills]).  That is a
   permutation of the table, the invariant behind the theorem above does not depend on the order of the
   table, and the theorem holds from every state that satisfies the invariant.  What a run with the table
   rearranged between operations needs besides is that every operation keeps the invariant
   (LifeProofs16M.m16_step_KI); the three statements below are not composed into one about such runs. *)
Theorem C16_tick_order_is_a_permutation : forall (order : list N) (s : state),
  Permutation.Permutation (st_wills (LifeEngine.reorder_wills order s)) (st_wills s).
Proof. exact reorder_wills_perm. Qed.

Theorem C16_invariant_ignores_table_order : forall k m s h0 l,
  KI k m s h0 -> Permutation.Permutation l (st_wills s) -> KI k m (set_wills s l) h0.
Proof. exact KI_perm. Qed.

Theorem C16_modulo_findings_partial_from : forall k m s h0 ops, KI k m s h0 -> sane_ops k s ops ->
  Forall (fun v => uncovered (v_tag v) = true \/ kf_of k (h0 ++ map obs_of (trace k s ops)) v <> None)
         (run_mon (m16_step k) (length h0) m (map obs_of (trace k s ops))).
Proof. exact mon16_explained_from. Qed.

(* the three clauses for which there is no finding at all *)
Theorem C16_never_unexpected_after_normal_or_altered : forall (k : caps) (ops : list op), sane_ops k init ops ->
  Forall (fun v => v_tag v <> V16_unexpected /\ v_tag v <> V16_after_normal /\ v_tag v <> V16_content) (mon16 k (model_obs k ops)).
Proof. exact mon16_safety_clauses. Qed.

(* content: every will publication, in every history, carries topic, payload, QoS and retain flag of a
   CONNECT of that connection number which had the will flag set ([reg_of]: the wills carried by the
   history's CONNECTs, by connection number; when no number is used twice it is THE will the connection
   registered) *)
Theorem C16_content : forall (k : caps) (ops : list op) (t : tstep) (c : N) (m : msg),
  In t (trace k init ops) -> In m (wills_for c (t_outs t)) -> In (c, m) (reg_of ops).
Proof. intros k ops t c m. apply wills_content_from_init. Qed.

(* a will is published only by its own connection's handler when it ends with an error while the
   will is armed, or by the delayed-will tick from the table: nothing else publishes a will *)
Theorem C16_publication_sources : forall (k : caps) (s : state) (o : op) (c : N) (m : msg),
  In m (wills_for c (snd (step k s o))) -> src_ok s c m.
Proof. exact step_src. Qed.

(* Every interleaving of the old connection's shutdown with the new connection (Conc/Takeover.v). *)

(* a will without delay is published at most once, and exactly once when the old handler is through *)
Theorem C16_once_schedules : forall p sched, will_once (run_takeover p sched) = true.
Proof. exact will_once_all. Qed.

(* the delayed will is cancelled by the resuming connection only if it was registered before the
   new connection's willDelayed.Delete *)
Theorem C16_cancel_schedules_refuted : exists p sched, will_cancelled (run_takeover p sched) = false.
Proof. exact will_cancelled_refuted. Qed.

Theorem C16_cancel_modulo_findings : forall p sched,
  KF_C16_late_will_registration p sched = false -> will_cancelled (run_takeover p sched) = true.
Proof. exact will_cancelled_modulo. Qed.

(* non-vacuity (sequential model): will published once at an abnormal end and with reason 0x04, never
   after a normal DISCONNECT, delayed will at the delay, cancelled by a resuming connection; content kept *)
Definition hist_ok : list op :=
  [obsC; obsS;
   OConnect 1 1000 (cpW [97] false (Some 20) (Some (1, true, 0))) true [97]; ONetClose 1 1000;
   OConnect 2 1000 (cpW [98] false (Some 20) (Some (2, false, 0))) true [98]; ODisconnect 2 1000 0 None;
   OConnect 3 1000 (cpW [98] false (Some 20) (Some (2, false, 0))) true [98]; ODisconnect 3 1000 4 None;
   OConnect 4 1000 (cpW [99] false (Some 20) (Some (0, false, 3))) true [99]; ONetClose 4 1000; OTickWill 1003; OTickWill 1004;
   OConnect 5 1000 (cpW [100] false (Some 20) (Some (0, false, 3))) true [100]; ONetClose 5 1000;
   OConnect 6 1001 (cpW [100] false (Some 20) None) true [100]; OTickWill 1010].
Example C16_nonvacuous :
  mon16 capsD (model_obs capsD hist_ok) = [] /\
  map (fun t => wills_of (t_outs t)) (trace capsD init hist_ok) =
    [[]; []; []; [(1, {| m_topic := [119]; m_payload := [87]; m_qos := 1; m_retain := true |})]; []; []; [];
     [(3, {| m_topic := [119]; m_payload := [87]; m_qos := 2; m_retain := false |})]; []; []; [];
     [(4, {| m_topic := [119]; m_payload := [87]; m_qos := 0; m_retain := false |})]; []; []; []; []].
Proof. vm_compute. split; reflexivity. Qed.

Print Assumptions C16_refuted_takeover_delayed.
Print Assumptions C16_refuted_delay_uncapped.
Print Assumptions C16_refuted_delay_fixed_at_connect.
Print Assumptions C16_refuted_clean_reconnect.
Print Assumptions C16_refuted_delayed_retain.
Print Assumptions C16_modulo_findings_partial.
Print Assumptions C16_never_unexpected_after_normal_or_altered.
Print Assumptions C16_tick_order_is_a_permutation.
Print Assumptions C16_invariant_ignores_table_order.
Print Assumptions C16_modulo_findings_partial_from.
Print Assumptions C16_content.
Print Assumptions C16_publication_sources.
Print Assumptions C16_once_schedules.
Print Assumptions C16_cancel_schedules_refuted.
Print Assumptions C16_cancel_modulo_findings.
