(* C25 — Expired messages are not delivered and expiry intervals only shrink. *)
From MV Require Import Base.Val Session.Expiry Session.ExpiryProofs.
Open Scope Z_scope.

(* A configuration [c] is one unsent copy of a message: server maximum, publisher's interval and
   protocol version, publish time, and where the copy waits (retained store / in-flight map of a parked
   session / in-flight map held back by flow control).  [run c true evs] is what happens to it under an
   arbitrary sequence of housekeeping runs and delivery attempts at arbitrary (virtual) times. *)

(* the effective expiry is the smaller non-zero of the publisher's interval and the server maximum:
   the broker stamps the message with publish time + that, or with 0 (never) when both are 0 *)
Theorem C25_effective : forall c : cfg, wf_cfg c = true ->
  pub_expiry (g_smax c) (g_created c) (g_interval c) = (if expires c then expiry_time c else 0) /\
  minimum (g_smax c) (g_interval c) = eff (g_smax c) (g_interval c).
Proof. intros c W. exact (conj (pub_expiry_spec c W) (minimum_is_eff_cfg c W)). Qed.

(* housekeeping removes the copy — wherever it waits — exactly when it runs at a time strictly later
   than publish time + effective interval *)
Theorem C25_housekeeping_exact : forall (c : cfg) (h : Z), wf_cfg c = true ->
  house_removes c (stored_expiry c) h = expires c && (expiry_time c <? h).
Proof. exact house_removes_exact. Qed.

(* ... and therefore, in every history, no unsent copy is delivered after such a run *)
Theorem C25_no_expired_delivery : forall (c : cfg) (evs : list ev), wf_cfg c = true ->
  late_ok c false (run c true evs) = true.
Proof. intros c evs W. apply (no_late_delivery c W); discriminate. Qed.

(* The delivered Message Expiry Interval is positive and no larger than the time remaining.  The full
   statement is FALSE of the faithful model (C25_interval_refuted: with nothing remaining WritePacket
   still sends, with interval 1); outside that finding it holds in every history. *)
Theorem C25_interval_shrinks_modulo_findings : forall (c : cfg) (evs : list ev), wf_cfg c = true ->
  kf_free c evs = true -> interval_ok c (run c true evs) = true.
Proof. intros c evs W. exact (interval_shrinks c W evs true). Qed.

Definition c_ref : cfg := {| g_smax := 0; g_interval := 1; g_ver5 := true; g_place := P_RETAINED; g_created := 1000 |}.

Theorem C25_interval_refuted : exists (c : cfg) (evs : list ev),
  wf_cfg c = true /\ interval_ok c (run c true evs) = false /\ kf_free c evs = false.
Proof. exists c_ref, [EDeliver 1002]. vm_compute. repeat split. Qed.

(* non-vacuity: a held-back copy with interval 5 under a one-day server maximum *)
Example C25_nonvacuous :
  let c := {| g_smax := 86400; g_interval := 5; g_ver5 := true; g_place := P_HELD; g_created := 1000 |} in
  wf_cfg c = true /\ expiry_time c = 1005 /\ stored_expiry c = -1006 /\
  run c true [EHouse 1005; EDeliver 1003] = [OHouse 1005 true; ODeliver 1003 1003 true 2] /\
  run c true [EHouse 1006; EDeliver 1003] = [OHouse 1006 false; ODeliver 1003 1003 false 0] /\
  kf_free c [EHouse 1005; EDeliver 1003] = true.
Proof. vm_compute. repeat split. Qed.

Print Assumptions C25_effective.
Print Assumptions C25_housekeeping_exact.
Print Assumptions C25_no_expired_delivery.
Print Assumptions C25_interval_shrinks_modulo_findings.
Print Assumptions C25_interval_refuted.
