(* C27 — Packet decoding is total: no input makes it panic or overread.
   The model (Codec/Wire.v, Props.v, MochiCodec.v) reads a buffer only through [index] (Go buf[i]) and
   [slice] (Go buf[lo:hi]); both yield [Panic] exactly when Go raises an index/slice bounds panic, so
   "never Panic" is "never reads outside the supplied bytes". *)
From MV Require Import Base.Val Codec.Vbi Codec.Wire Codec.Props Codec.MochiCodec Codec.CodecTotal
  Findings.FixedC27.
Open Scope N_scope.

(* For every protocol version byte, every fixed header (any type 0..255, any flags, any Remaining
   value, consistent with the body or not) and every body, the decoder selected by ReadPacket's
   switch returns a packet or an error: it never panics and no modelled loop runs out of fuel. *)
Theorem C27_total : forall (v : N) (fh : fixedheader) (body : bytes),
  mochi_decode_body v fh body <> Panic /\ mochi_decode_body v fh body <> Fuel.
Proof. exact decode_body_never_panics. Qed.

(* the same for a whole byte stream: header byte, remaining length, body *)
Theorem C27_total_stream : forall (v : N) (stream : bytes),
  mochi_decode_packet v stream <> Panic /\ mochi_decode_packet v stream <> Fuel.
Proof. exact decode_packet_never_panics. Qed.

(* A declared 16-bit length that exceeds the bytes remaining after it is rejected, for binary data
   and for strings. *)
Theorem C27_declared_length_checked : forall buf off len o,
  decodeUint16 buf off = Ok (len, o) -> blen buf < o + len ->
  decodeBytes buf off = Err EOffsetBytesOutOfRange /\ decodeString buf off = Err EOffsetBytesOutOfRange.
Proof. exact declared_length_checked. Qed.

(* What is returned for a length-prefixed field is exactly the declared number of bytes taken from
   inside the buffer, and the new offset does not pass the end of the buffer. *)
Theorem C27_bytes_inside : forall buf off s o,
  decodeBytes buf off = Ok (s, o) ->
  o = off + 2 + blen s /\ o <= blen buf /\
  s = firstn (N.to_nat (blen s)) (skipn (N.to_nat (off + 2)) buf).
Proof. exact decoded_bytes_inside. Qed.

(* A property length (variable byte integer) that exceeds the bytes following it is rejected. *)
Theorem C27_property_length_checked : forall pkt p b n bu bt,
  vbi_decode b = VOk n bu bt -> blen bt < n -> exists e, props_decode pkt p b = Err e.
Proof. exact declared_property_length_checked. Qed.

(* The number of bytes Properties.Decode reports as consumed never exceeds the bytes it was given
   (so the caller's [offset += n] stays inside the packet body). *)
Theorem C27_property_block_inside : forall pkt p b,
  match props_decode pkt p b with
  | Ok (n, _) => n <= blen b
  | Err _ => True
  | Panic => False
  | Fuel => False
  end.
Proof. exact props_decode_post. Qed.

(* non-vacuity: a well-formed MQTT 5 SUBSCRIBE is accepted, the same packet without its last
   options byte is rejected with an error *)
Example C27_nonvacuous :
  (exists pk, mochi_decode_body 5 (mkfh 7 SUBSCRIBE 1 false false) [0; 1; 0; 0; 1; 97; 1] = Ok pk /\
              map s_filter (pk_filters pk) = [[97]] /\ map s_qos (pk_filters pk) = [1]) /\
  mochi_decode_body 5 (mkfh 6 SUBSCRIBE 1 false false) [0; 1; 0; 0; 1; 97] = Err EOffsetByteOutOfRange.
Proof. split; [eexists; split; [vm_compute; reflexivity|split; reflexivity]|vm_compute; reflexivity]. Qed.

(* the repaired defect: the pre-fix decoder panicked on that input *)
Example C27_prefix_refuted :
  subscribe_decode_prefix (fresh_packet 5 (mkfh 6 SUBSCRIBE 1 false false)) [0; 1; 0; 0; 1; 97] = Panic.
Proof. exact prefix_subscribe_panics. Qed.

Print Assumptions C27_total.
Print Assumptions C27_total_stream.
Print Assumptions C27_declared_length_checked.
Print Assumptions C27_bytes_inside.
Print Assumptions C27_property_length_checked.
Print Assumptions C27_property_block_inside.
