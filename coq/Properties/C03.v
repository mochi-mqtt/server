(* C03 — Every published message reaches exactly the entitled subscribers, once each.
   Model: Session/Deliver.v ([step] on OPublish = processPublish -> publishToSubscribers ->
   publishToClient with Subscription.Merge and the shared-subscription selection), after the fix 0829057
   (user properties of a PUBLISH kept for subscribers with Request Problem Information = 0; pre-fix behaviour
   in Findings/FixedC03.v).  Specification: [spec_entitled] computed from the client's matching
   subscriptions (topic_matches), its connection state, the read permission and No Local.
   The full statement is FALSE of the faithful model: Subscription.Merge sets No Local on the merged
   subscription if ANY matching subscription has it (pinned by TestMergeSubscription), so the publisher's own
   second, ordinary subscription no longer entitles it.  KF_C03_nolocal_merge names exactly that case. *)
From MV Require Import Base.Val Session.Deliver Session.DeliverProofs Session.DeliverTheorems.
Open Scope N_scope.

(* number of copies of one accepted publish on client c's connection: 1 if entitled and not a reported drop
   (full outbound queue), else 0 — for every history, every oracle of the shared selection, every drop set *)
Theorem C03_modulo_findings : forall mq ra deny (h : hist) orc drops pub m0 c,
  forallb op_ok (ops_of h) = true -> NoDup (map fst orc) -> valid_pub_topic (m_topic m0) = true ->
  let s := run (init mq ra deny) h in
  let m := accepted mq (with_origin pub m0) in
  let out := o_deliv (snd (step orc drops s (OPublish pub m0))) in
  no_nolocal_finding s orc m c ->
  length (filter (to_client c) out) = expected_copies s orc drops m c.
Proof. exact C03_history_modulo. Qed.

(* the same for every well-formed state (not only reachable ones) *)
Theorem C03_state_modulo_findings : forall s orc drops m0 c,
  wf_state s -> NoDup (map fst orc) ->
  no_nolocal_finding s orc (accepted (st_maxqos s) m0) c ->
  length (filter (to_client c) (o_deliv (snd (publish orc drops s m0))))
  = expected_copies s orc drops (accepted (st_maxqos s) m0) c.
Proof. intros s orc drops m0 c [[ND _] _] _. apply publish_copies, ND. Qed.

(* per client and publish the decision itself, for any oracle: sent iff entitled and room in the queue *)
Theorem C03_decision : forall s orc drops m c cl,
  NoDup (map fst (cl_subs cl)) -> NoDup (map fst orc) ->
  KF_C03_nolocal_merge c m (ent_subs c cl (m_topic m) orc) = false ->
  is_send (deliver_to s orc drops m c cl)
  = spec_entitled s c cl m (ent_subs c cl (m_topic m) orc) && negb (existsb (beq_bytes c) drops).
Proof. intros s orc drops m c cl _ _. apply deliver_send_iff. Qed.

(* every copy has the topic, payload and (MQTT 5 subscriber) content type, response topic, correlation data
   and user properties of the publish *)
Theorem C03_fields : forall mq ra deny (h : hist) orc drops pub m0 c d,
  forallb op_ok (ops_of h) = true -> NoDup (map fst orc) -> valid_pub_topic (m_topic m0) = true ->
  let s := run (init mq ra deny) h in
  In d (filter (to_client c) (o_deliv (snd (step orc drops s (OPublish pub m0))))) ->
  exists cl, get_client s c = Some cl /\
    d_topic d = m_topic m0 /\ d_payload d = m_payload m0 /\
    (cl_ver cl = 5 -> d_props d = m_props m0).
Proof.
  intros mq ra deny h orc drops pub m0 c d OK NO V s HI. destruct (history_copy_inv OK V HI) as (cl & G & NS & V5 & ED).
  destruct (deliver_fields _ _ _ _ _ _ _ NS NO V5 ED) as (H1 & H2 & _ & _ & H5 & _).
  exists cl. split; [exact G|]. split; [exact H1|]. split; [exact H2|]. intro E. apply H5, E.
Qed.

(* histories keep the state well-formed (unique client ids, unique filters per client) *)
Theorem C03_reachable : forall mq ra deny (h : hist),
  forallb op_ok (ops_of h) = true -> wf_state (run (init mq ra deny) h).
Proof. exact reachable_wf. Qed.

(* refutation: client c subscribed to "a/b" with No Local and to "a/#" without; its own publish to a/b is
   not delivered back although "a/#" entitles it *)
Definition so (nl : bool) : subopt := mkSO 0 nl false 0 0.
Definition ref_hist : hist :=
  map (fun o => ([], [], o))
    [OConnect (tag "c") 5 true false false;
     OSubscribe (tag "c") [(tag "a/b", so true)];
     OSubscribe (tag "c") [(tag "a/#", so false)]].
Definition ref_msg : msg := mkMsg (tag "a/b") (tag "x") 0 false mp_none [].

Theorem C03_refuted : exists (h : hist) pub m0 c,
  forallb op_ok (ops_of h) = true /\
  let s := run (init 2 true []) h in
  let m := accepted 2 (with_origin pub m0) in
  expected_copies s [] [] m c = 1%nat /\
  length (filter (to_client c) (o_deliv (snd (step [] [] s (OPublish pub m0))))) = 0%nat /\
  (exists cl, get_client s c = Some cl /\ KF_C03_nolocal_merge c m (ent_subs c cl (m_topic m) []) = true).
Proof.
  exists ref_hist, (tag "c"), ref_msg, (tag "c"). vm_compute. split; [reflexivity|]. split; [reflexivity|]. split; [reflexivity|].
  eexists. split; reflexivity.
Qed.

(* non-vacuity: another client with overlapping subscriptions gets exactly one copy of the same publish *)
Example C03_nonvacuous :
  let h := ref_hist ++ map (fun o => ([], [], o))
             [OConnect (tag "d") 4 true false false; OSubscribe (tag "d") [(tag "a/+", so false); (tag "#", so false)]] in
  let s := run (init 2 true []) h in
  expected_copies s [] [] (accepted 2 (with_origin (tag "c") ref_msg)) (tag "d") = 1%nat /\
  length (filter (to_client (tag "d")) (o_deliv (snd (step [] [] s (OPublish (tag "c") ref_msg))))) = 1%nat /\
  no_nolocal_finding s [] (accepted 2 (with_origin (tag "c") ref_msg)) (tag "d").
Proof. vm_compute. split; [reflexivity|]. split; [reflexivity|]. intros cl E. inversion E. reflexivity. Qed.

Print Assumptions C03_modulo_findings.
Print Assumptions C03_state_modulo_findings.
Print Assumptions C03_decision.
Print Assumptions C03_fields.
Print Assumptions C03_reachable.
Print Assumptions C03_refuted.
