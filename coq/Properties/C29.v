(* C29 — Variable byte integers are canonical and bounded. *)
From MV Require Import Base.Val Codec.Vbi Codec.VbiProofs Findings.FixedC29.
Open Scope N_scope.

(* Every value 0..268,435,455 is written with the minimum number of bytes (1..4) and decodes back
   to the same value, whatever follows it in the stream. *)
Theorem C29_roundtrip : forall n, n <= 268435455 ->
  exists e, vbi_encode n = Some e /\ N.of_nat (length e) = vbi_min_len n /\
            forall rest, wf_bytes rest -> vbi_decode (e ++ rest) = VOk n (vbi_min_len n) rest.
Proof. exact roundtrip. Qed.

(* vbi_min_len is the true minimum: no encoding the standard accepts for n is shorter. *)
Theorem C29_minimal : forall bs n rest, wf_bytes bs -> spec_decode bs = Some (n, rest) ->
  vbi_min_len n <= consumed bs rest /\ 1 <= vbi_min_len n <= 4.
Proof.
  intros bs n rest H S. split; [exact (min_len_minimal bs n rest H S)|].
  unfold vbi_min_len. destruct (n <? 128); [split; discriminate|].
  destruct (n <? 16384); [split; discriminate|]. destruct (n <? 2097152); split; discriminate.
Qed.

(* The decoder accepts exactly what the standard's decoder accepts, with the same value and
   number of bytes; in particular it never yields a value above the maximum. *)
Theorem C29_decode_is_spec : forall bs, wf_bytes bs ->
  match spec_decode bs with
  | Some (v, rest) => vbi_decode bs = VOk v (consumed bs rest) rest /\ v <= 268435455
  | None => forall n b r, vbi_decode bs <> VOk n b r
  end.
Proof. exact decode_refines_spec. Qed.

Theorem C29_reject_big : forall bs n bu r, wf_bytes bs -> vbi_decode bs = VOk n bu r ->
  n <= 268435455 /\ 1 <= bu <= 4 /\ spec_decode bs = Some (n, r).
Proof. exact decoded_bounded. Qed.

(* Encodings longer than four bytes are rejected. *)
Theorem C29_reject_long : forall b1 b2 b3 b4 rest,
  wf_bytes (b1 :: b2 :: b3 :: b4 :: rest) ->
  128 <= b1 -> 128 <= b2 -> 128 <= b3 -> 128 <= b4 ->
  forall n b r, vbi_decode (b1 :: b2 :: b3 :: b4 :: rest) <> VOk n b r.
Proof. exact reject_long. Qed.

(* non-vacuity: a four-byte value at the top of the range, and a rejected five-byte stream *)
Example C29_nonvacuous :
  vbi_encode 268435455 = Some [255; 255; 255; 127] /\
  vbi_decode [255; 255; 255; 127; 9] = VOk 268435455 4 [9] /\
  vbi_decode [128; 128; 128; 128; 0] = VErrMalformed 4.
Proof. vm_compute. repeat split. Qed.

(* the repaired defect (fixed in /repo): the pre-fix loop accepted over-long encodings *)
Example C29_prefix_refuted :
  vbi_decode_loop_prefix [128; 128; 128; 128; 0] 0 0 1 = VOk 0 5 [].
Proof. exact prefix_accepts_five_bytes. Qed.

Print Assumptions C29_roundtrip.
Print Assumptions C29_minimal.
Print Assumptions C29_decode_is_spec.
Print Assumptions C29_reject_big.
Print Assumptions C29_reject_long.
