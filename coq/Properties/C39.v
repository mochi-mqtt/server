(* C39 — WebSocket transport is byte-transparent.
   [read_all sizes (mkWs None ms) o] is the broker's reader (any sequence of read sizes, as bufio
   issues them) over the data messages [ms] through wsConn.Read, with [o] the chunking of gorilla's
   message reader; it returns the bytes delivered, how it ended (EOpen: reads used up, EInvalid:
   ErrInvalidMessage, EClosed: no more messages) and the state left.  Partial: gorilla/websocket is the trusted message iterator
   (a list of (type, payload) data messages; control frames never surface; no transport errors
   inside a message); what the broker does with the delivered byte stream is the same code as
   over TCP and is exercised end to end by the harness. *)
From MV Require Import Base.Val IO.WsFrame IO.WsFrameProofs Findings.FixedC39.
Open Scope N_scope.

(* All messages binary: for every segmentation [ms] of a byte stream, every read-size sequence
   and every chunking, what the reads return followed by what is still pending is exactly the
   concatenation of the payloads — nothing lost, duplicated or reordered at message boundaries —
   the reader never fails with ErrInvalidMessage, and if it ends it has delivered everything. *)
Theorem C39_concat : forall ms sizes o d e sf, all_binary ms = true ->
  read_all sizes (mkWs None ms) o = (d, e, sf) ->
  e <> EInvalid /\ e <> EStuck /\
  (e = EOpen -> d ++ pending sf = concat (map snd ms)) /\
  (e = EClosed -> d = concat (map snd ms) /\ pending sf = []).
Proof. exact concat_all_binary. Qed.

(* ... and enough non-empty reads do deliver everything (no read comes back empty, so more reads
   than bytes suffice, however many empty messages the client interleaves). *)
Theorem C39_concat_complete : forall ms sizes o d e sf, all_binary ms = true ->
  Forall (fun z => (0 < z)%nat) sizes -> (length (concat (map snd ms)) < length sizes)%nat ->
  read_all sizes (mkWs None ms) o = (d, e, sf) ->
  e = EClosed /\ d = concat (map snd ms).
Proof. exact concat_all_binary_complete. Qed.

(* A read with room never returns zero bytes without an error (what bufio relies on). *)
Theorem C39_no_empty_read : forall sz s o d s' o', (0 < sz)%nat ->
  ws_read sz s o = (ROk d, s', o') -> d <> [].
Proof. exact ws_read_nonempty. Qed.

(* The first non-binary message: only bytes of the binary messages before it are ever delivered
   (a prefix of their concatenation), the reader cannot run past it, and when it reaches it the
   read fails with ErrInvalidMessage having delivered exactly those bytes; nothing of that
   message or of anything after it is delivered. *)
Theorem C39_nonbinary_ends : forall pre m post sizes o d e sf,
  all_binary pre = true -> is_binary m = false ->
  read_all sizes (mkWs None (pre ++ m :: post)) o = (d, e, sf) ->
  e <> EClosed /\ e <> EStuck /\
  (exists rest, d ++ rest = concat (map snd pre)) /\
  (e = EInvalid -> d = concat (map snd pre) /\ msgs sf = post /\ cur sf = None).
Proof. exact nonbinary_ends. Qed.

Theorem C39_nonbinary_ends_complete : forall pre m post sizes o d e sf,
  all_binary pre = true -> is_binary m = false ->
  Forall (fun z => (0 < z)%nat) sizes -> (length (concat (map snd pre)) < length sizes)%nat ->
  read_all sizes (mkWs None (pre ++ m :: post)) o = (d, e, sf) ->
  e = EInvalid /\ d = concat (map snd pre) /\ msgs sf = post.
Proof. exact nonbinary_ends_complete. Qed.

(* Replies: every Write is one binary message; the payloads the client receives, concatenated,
   are the bytes written. *)
Theorem C39_write : forall ps,
  all_binary (map ws_write ps) = true /\ stream (map ws_write ps) = concat ps.
Proof. exact write_side. Qed.

(* Connections are independent: a listener serves every connection from a fresh reader state
   (ws_init: no current message), so what one connection delivers is a function of its own
   messages only — whatever earlier or later connections sent, and wherever they stopped. *)
Theorem C39_connections_independent : forall before c after,
  serve (before ++ c :: after) = serve before ++ serve1 c :: serve after.
Proof. exact serve_independent. Qed.

(* ... which is exactly what is lost if a reader state is carried over: a connection that starts
   with the unread tail of somebody else's message delivers those foreign bytes first. *)
Theorem C39_stale_reader_leaks : forall tail ms sizes o d e sf, all_binary ms = true ->
  Forall (fun z => (0 < z)%nat) sizes -> (length (tail ++ concat (map snd ms)) < length sizes)%nat ->
  read_all sizes (mkWs (Some tail) ms) o = (d, e, sf) ->
  d = tail ++ concat (map snd ms).
Proof. exact stale_reader_leaks. Qed.

(* non-vacuity: a PINGREQ split over three messages with empty ones in between, read with
   1-byte buffers and adverse chunking; a message that exactly fills the buffer; a text message *)
Example C39_nonvacuous :
  read_all [1; 1; 1]%nat (mkWs None [(2, [192]); (2, []); (2, []); (2, [0]); (2, [])]) [(1%nat, false); (1%nat, true)]
    = ([192; 0], EClosed, mkWs None []) /\
  read_all [2; 2; 2]%nat (mkWs None [(2, [1; 2]); (2, [3])]) [] = ([1; 2; 3], EClosed, mkWs None []) /\
  read_all [5; 5; 5]%nat (mkWs None [(2, [1; 2]); (1, [9]); (2, [3])]) [] = ([1; 2], EInvalid, mkWs None [(2, [3])]).
Proof. vm_compute. repeat split. Qed.

(* the repaired defect (fixed in /repo): 100 empty binary messages used to give 100 empty reads *)
Example C39_prefix_refuted :
  empty_reads_prefix 100 (mkWs None hundred_empty_then_ping) = 100%nat /\
  empty_reads_fixed 100 (mkWs None hundred_empty_then_ping) = 0%nat.
Proof. split; [exact prefix_hundred_empty_reads | exact (proj1 fixed_skips_empty_messages)]. Qed.

Print Assumptions C39_concat.
Print Assumptions C39_concat_complete.
Print Assumptions C39_no_empty_read.
Print Assumptions C39_nonbinary_ends.
Print Assumptions C39_nonbinary_ends_complete.
Print Assumptions C39_write.
Print Assumptions C39_connections_independent.
Print Assumptions C39_stale_reader_leaks.
