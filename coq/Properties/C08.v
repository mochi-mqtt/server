(* C08 — Inbound QoS 2 messages are forwarded exactly once; every retransmission is answered by a
   PUBREC that does not signal failure.

   Model: Session/Inflight.v (the session's single in-flight map, quotas and handlers of server.go),
   tied to the real broker on every run by the qos engine (harness/cmd/hx/eng_qos.go) — the verdict on
   the code is the monitor QosSpecs.chk08 applied to what the broker actually did.

   The full property is FALSE of the faithful model of the current code:
     - every retransmission (same identifier, before PUBREL) is answered PUBREC 0x91, a failure code
       (pinned by TestServerProcessPacketPublishQos2PacketIDInUse)                 KF_C08_retransmit_0x91
     - a retransmission arriving with the receive quota at 0 is answered DISCONNECT 0x93 KF_C08_limit_on_retransmit
     - when the write of the PUBREC fails (broken connection) the PUBLISH is already recorded but not yet forwarded;
       the retransmission is refused / the exchange completes and the message is never forwarded  KF_C08_recorded_not_forwarded
     - an acknowledgement of a broker identifier equal to the identifier of the open exchange removes or
       replaces its record (one id-keyed map), the next retransmission is forwarded again     KF_C08_cross_ack
   Outside these the exactly-once clause is proved for all histories (C08_modulo_findings). *)
From MV Require Import Base.Val Session.Pkt Session.Inflight Session.InflightProofs Session.QosSpecs Session.QosProofs
  Session.QosLive Session.QosWitness.
Open Scope N_scope.

(* Exactly once.  From any well-formed state (every reachable state is one: run_wf) with a session that
   outlives its connections, a connected client and receive quota left: the first QoS 2 PUBLISH with an
   identifier that is not an open exchange is forwarded, and in any continuation h — retransmissions of it
   (with or without DUP) in any number, disconnections, reconnections that keep the session, other traffic in
   both directions, acknowledgements of other identifiers, for every oracle — it is not forwarded again,
   provided no acknowledgement PACKET carries the same identifier (PUBREL ends the exchange; PUBACK / PUBREC /
   PUBCOMP with it is KF_C08_cross_ack), no housekeeping expiry runs and the session is not ended. *)
Theorem C08_modulo_findings : forall c s pid uid dup now orc0 h,
  cfg_ok c -> (0 <= now)%Z -> wf c s -> persistent s -> s_conn s = true ->
  (s_recvq s =? 0)%Z = false -> retrans s pid = false ->
  quiet pid uid h ->
  count_fwd uid (concat (snd (run c s ((InPublish 2 pid dup uid now, orc0) :: h)))) = 1%nat.
Proof. exact exactly_once. Qed.

(* The same over a WHOLE history from the start: [pre] is anything that does not publish message uid (and leads to a
   connected persistent session with quota left and no open exchange under pid), then the first PUBLISH, then the open
   exchange h1 as above, then [tail]: whatever follows the end of the exchange (the client's PUBREL, ...) without
   publishing uid again.  The forwards of uid in the entire output trace number exactly one. *)
Theorem C08_once : forall c pid uid dup now orc0 pre h1 tail,
  cfg_ok c -> (0 <= now)%Z -> hist_ok pre ->
  (forall o orc, In (o, orc) pre -> no_uid uid o) ->
  (forall o orc, In (o, orc) tail -> no_uid uid o) ->
  let s := fst (run c init_st pre) in
  persistent s -> s_conn s = true -> (s_recvq s =? 0)%Z = false -> retrans s pid = false ->
  quiet pid uid h1 ->
  count_fwd uid (concat (snd (run c init_st (pre ++ ((InPublish 2 pid dup uid now, orc0) :: h1) ++ tail)))) = 1%nat.
Proof. exact once_whole. Qed.

(* every state reached by any history under any oracle is well-formed *)
Theorem C08_reachable_wf : forall c, cfg_ok c -> forall h s, hist_ok h -> wf c s -> wf c (fst (run c s h)).
Proof. exact run_wf. Qed.

(* Partial (the second clause of the property): a retransmission IS answered at once by a PUBREC with its
   identifier and is not forwarded — but the reason code is 0x91 for MQTT 5 clients (the finding below). *)
Theorem C08_retransmission_answered_partial : forall c s qos pid uid now orc,
  (s_recvq s =? 0)%Z = false -> retrans s pid = true ->
  exists rest, snd (in_publish c s qos pid uid now orc) = OPkt T_PUBREC pid false 0 0 (wire_rc s 145) :: rest
               /\ count_fwd uid rest = 0%nat.
Proof. exact retrans_answer. Qed.

(* refutations: the monitor rejects the model's own behaviour, exactly as the listed findings *)
Theorem C08_refuted_retransmit : exists c h,
  model_verdict 8 c h = Some (2, Some (tag "KF_C08_retransmit_0x91")).
Proof. exists (wcfg 2 8), [w_connect; w_pub 2 5 false 1; w_pub 2 5 true 1]. vm_compute. reflexivity. Qed.

Theorem C08_refuted_limit : exists c h,
  model_verdict 8 c h = Some (2, Some (tag "KF_C08_limit_on_retransmit")).
Proof. exists (wcfg 1 8), [w_connect; w_pub 2 5 false 1; w_pub 2 5 true 1]. vm_compute. reflexivity. Qed.

Theorem C08_refuted_cross_ack : exists c h,
  model_verdict 8 c h = Some (1, Some (tag "KF_C08_cross_ack")).
Proof.
  exists (wcfg 2 8), [w_connect; w_out 1 1; w_pub 2 1 false 9; w_ack T_PUBACK 1; w_pub 2 1 true 9].
  vm_compute. reflexivity.
Qed.

(* fault injection (the broker's write of the first PUBREC fails): the PUBLISH is recorded, never forwarded, and the
   exchange completes on the next connection - the message is lost *)
Theorem C08_refuted_not_forwarded : exists c h,
  model_verdict_f 8 c h = Some (3, Some (tag "KF_C08_recorded_not_forwarded")).
Proof.
  exists (wcfg 2 8), [(w_connect, false); (w_pub 2 5 false 1, true); (w_connect, false); (w_ack T_PUBREL 5, false)].
  vm_compute. reflexivity.
Qed.

(* non-vacuity: a state and a continuation (two retransmissions around a reconnection, other traffic) that
   meet the hypotheses, and the count computed *)
Definition c08_s0 : st := fst (run (wcfg 2 8) init_st [w_connect]).
Definition c08_h : list (op * list N) :=
  [w_pub 2 5 true 1; w_out 1 7; w_netclose; (Reconnect true false 300 1, [1; 5]); w_pub 2 5 true 1; w_ack T_PUBACK 1].
Example C08_nonvacuous :
  persistent c08_s0 /\ s_conn c08_s0 = true /\ (s_recvq c08_s0 =? 0)%Z = false /\ retrans c08_s0 5 = false /\
  quiet 5 1 c08_h /\
  count_fwd 1 (concat (snd (run (wcfg 2 8) c08_s0 (w_pub 2 5 false 1 :: c08_h)))) = 1%nat.
Proof.
  split; [unfold persistent; repeat split; vm_compute; congruence|].
  split; [reflexivity|]. split; [reflexivity|]. split; [reflexivity|].
  split; [|vm_compute; reflexivity].
  intros x orc I. cbn in I.
  repeat (destruct I as [I|I];
          [inversion I; subst; repeat split; try reflexivity; try exact Logic.I; vm_compute; congruence|]).
  destruct I.
Qed.

Print Assumptions C08_modulo_findings.
Print Assumptions C08_once.
Print Assumptions C08_reachable_wf.
Print Assumptions C08_retransmission_answered_partial.
Print Assumptions C08_refuted_retransmit.
Print Assumptions C08_refuted_limit.
Print Assumptions C08_refuted_cross_ack.
Print Assumptions C08_refuted_not_forwarded.
