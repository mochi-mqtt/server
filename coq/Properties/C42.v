(* C42 — Every valid encoding a client may send is decoded as the sender meant.
   Specification side (Codec/SpecCodec.v, written from the OASIS texts): [valid_packet] — the value
   rules of the standard; [spec_encodings v p bs] — bs is an encoding of p the standard permits: the
   properties in any order that keeps user properties / subscription identifiers in sequence
   ([reorder]), and any permitted omission ([spec_forms]: remaining length 2 or 3 for the
   acknowledgements, 0 or 1 for DISCONNECT and AUTH).  [expected v p rem] (Codec/SpecBridge.v) is the
   Go Packet value the sender of p meant. *)
From MV Require Import Base.Val Codec.Vbi Codec.Wire Codec.Props Codec.MochiCodec Codec.SpecCodec Codec.SpecBridge
  Codec.SpecRT Codec.CodecOrder Codec.CodecC42 Findings.FixedC42.
From Coq Require Import Permutation.
Open Scope N_scope.

(* Every permitted encoding of every valid packet (client-to-server or not), followed by arbitrary
   further bytes, is accepted by the decoder (fixed header, remaining length and body, as
   ReadFixedHeader/ReadPacket do) with exactly the fields the sender meant, and nothing beyond the
   packet is consumed.  [rem] is the remaining length found in the fixed header. *)
Theorem C42_all : forall v p bs rest,
  valid_packet v p = true -> spec_encodings v p bs -> Vbi.wf_bytes (bs ++ rest) ->
  exists rem, mochi_decode_packet v (bs ++ rest) = Ok (expected v p rem, rest) /\
              blen bs = 1 + blen (put_vbi rem) + rem.
Proof. exact permitted_encoding_decodes. Qed.

(* the same, spelled out for the packets a client may send *)
Theorem C42_client : forall v p bs rest,
  client_sendable p = true -> valid_packet v p = true -> spec_encodings v p bs ->
  Vbi.wf_bytes (bs ++ rest) ->
  exists rem, mochi_decode_packet v (bs ++ rest) = Ok (expected v p rem, rest).
Proof.
  intros v p bs rest _ Hv He Hw.
  destruct (permitted_encoding_decodes v p bs rest Hv He Hw) as (rem & H & _).
  exists rem. exact H.
Qed.

(* Properties may come in any order: the Properties struct filled from a property list does not
   depend on the order, as long as no single-valued property occurs twice and the repeatable ones
   keep their sequence. *)
Theorem C42_any_order : forall x ps ps',
  no_dup_ids x [] ps = true -> reorder ps ps' -> props_of ps' = props_of ps.
Proof. exact props_of_reorder. Qed.

(* A DISCONNECT carrying only the reason code 0x04 is a disconnect with will message. *)
Theorem C42_disconnect_will : forall rest, Vbi.wf_bytes rest ->
  mochi_decode_packet 5 ([224; 1; 4] ++ rest) = Ok (expected 5 (SDisconnect 4 []) 1, rest) /\
  pk_reason_code (expected 5 (SDisconnect 4 []) 1) = 4.
Proof. intros rest H. split; [exact (disconnect_with_will rest H) | reflexivity]. Qed.

(* The reference decoder itself accepts every permitted encoding (round trip of the REFERENCE codec,
   all 15 packet types, every shortened form, followed by anything) and returns the packet with the
   properties in the order in which they were sent; with the reordering relation: for every
   encoding in [spec_encodings] it returns a packet [p'] that is [p] up to the permitted reordering
   of properties.  So the arbiter used by the engine codec_enc agrees with C42_all. *)
Theorem C42_reference_roundtrip : forall v p bs rest,
  valid_packet v p = true -> In bs (spec_forms v p) -> spec_decode_packet v (bs ++ rest) = Some (p, rest).
Proof. exact spec_roundtrip. Qed.

Theorem C42_reference_accepts_encodings : forall v p bs rest,
  valid_packet v p = true -> spec_encodings v p bs ->
  exists p', same_packet p p' /\ spec_decode_packet v (bs ++ rest) = Some (p', rest).
Proof. exact spec_accepts_encodings. Qed.

(* non-vacuity: the shortened forms are permitted encodings; a PUBLISH with four properties has a
   permitted encoding in which the order is changed (user properties stay in sequence) *)
Example C42_forms_nonvacuous :
  spec_forms 5 (SDisconnect 4 []) = [[224; 2; 4; 0]; [224; 1; 4]] /\
  spec_forms 5 (SDisconnect 0 []) = [[224; 2; 0; 0]; [224; 1; 0]; [224; 0]] /\
  spec_forms 5 (SAuth 0 []) = [[240; 2; 0; 0]; [240; 1; 0]; [240; 0]] /\
  spec_forms 5 (SAck KPuback 7 16 []) = [[64; 4; 0; 7; 16; 0]; [64; 3; 0; 7; 16]] /\
  spec_forms 5 (SAck KPubrel 7 0 []) = [[98; 4; 0; 7; 0; 0]; [98; 3; 0; 7; 0]; [98; 2; 0; 7]] /\
  spec_forms 4 (SAck KPubrel 7 0 []) = [[98; 2; 0; 7]].
Proof. vm_compute. repeat split. Qed.

Example C42_order_nonvacuous :
  let ps := [UserProperty [97] [49]; TopicAlias 3; UserProperty [98] [50]; ContentType [116]] in
  let ps' := [ContentType [116]; UserProperty [97] [49]; UserProperty [98] [50]; TopicAlias 3] in
  valid_packet 5 (SPublish false 1 false [116] 9 ps [104; 105]) = true /\
  spec_encodings 5 (SPublish false 1 false [116] 9 ps [104; 105])
    (frame (SPublish false 1 false [116] 9 ps' [104; 105])
           (full_body 5 (SPublish false 1 false [116] 9 ps' [104; 105]))).
Proof.
  cbv zeta. split; [vm_compute; reflexivity|].
  exists (SPublish false 1 false [116] 9
            [ContentType [116]; UserProperty [97] [49]; UserProperty [98] [50]; TopicAlias 3] [104; 105]).
  split.
  - apply same_publish. split; [|reflexivity].
    eapply perm_trans; [apply perm_skip; apply perm_swap|].
    eapply perm_trans; [apply perm_skip; apply perm_skip; apply perm_swap|].
    eapply perm_trans; [apply perm_skip; apply perm_swap|].
    eapply perm_trans; [apply perm_swap|].
    apply Permutation_refl.
  - left. reflexivity.
Qed.

(* self-check of the reference codec on one packet of every kind: each permitted form is accepted
   by the reference decoder and gives the packet back, with the following bytes left unread *)
Local Open Scope string_scope.
Definition selfcheck_packets : list (N * spkt) :=
  let s := bytes_of_string in
  [ (5, SConnect 5 true 30 [SessionExpiry 10; UserProperty (s "a") (s "b"); AuthMethod (s "m"); AuthData [1; 2]]
           (s "cid") (Some (mkwill [WillDelay 5; PayloadFormat 1] (s "w/t") (s "bye") 1 true))
           (Some (s "user")) (Some (s "pw")));
    (4, SConnect 4 false 0 [] (s "") None None None);
    (3, SConnect 3 true 60 [] (s "old") None (Some (s "u")) (Some [0; 255]));
    (5, SConnack true 0 [AssignedClientId (s "x"); MaximumQoS 1; ReceiveMaximum 10]);
    (4, SConnack false 5 []);
    (5, SPublish true 2 true (s "a/b") 65535 [TopicAlias 3; UserProperty (s "k") (s "v"); SubscriptionId 268435455; ResponseTopic (s "r")] (s "hello"));
    (5, SPublish false 0 false [] 0 [TopicAlias 1] []);
    (4, SPublish false 1 false (s "t") 1 [] [0; 1; 2]);
    (5, SAck KPuback 7 16 []); (5, SAck KPubrec 7 0 []); (5, SAck KPubrel 7 146 [ReasonString (s "why")]);
    (5, SAck KPubcomp 1 0 [UserProperty (s "a") (s "b")]); (4, SAck KPubrel 9 0 []);
    (5, SSubscribe 3 [SubscriptionId 200; UserProperty [] []] [mkfilter (s "a/#") 2 true false 1; mkfilter (s "b") 0 false true 2]);
    (4, SSubscribe 3 [] [mkfilter (s "+/x") 1 false false 0]);
    (5, SSuback 3 [ReasonString (s "r")] [0; 1; 2; 128; 162]); (4, SSuback 3 [] [0; 128]);
    (5, SUnsubscribe 4 [UserProperty (s "k") (s "v")] [s "a"; s "b/#"]); (3, SUnsubscribe 4 [] [s "a"]);
    (5, SUnsuback 4 [] [0; 17]); (4, SUnsuback 4 [] []);
    (5, SPingreq); (4, SPingresp);
    (5, SDisconnect 4 []); (5, SDisconnect 0 []); (5, SDisconnect 142 [SessionExpiry 0; ServerReference (s "other")]);
    (4, SDisconnect 0 []);
    (5, SAuth 0 []); (5, SAuth 24 [AuthMethod (s "SCRAM"); AuthData [9]]) ].

Local Close Scope string_scope.

Example C42_reference_codec_selfcheck :
  forallb (fun vp => let '(v, p) := vp in
     valid_packet v p &&
     match spec_forms v p with
     | [] => false
     | forms => forallb (fun bs => match spec_decode_packet v (bs ++ [192; 0]) with
                                   | Some (_, [192; 0]) => true
                                   | _ => false
                                   end) forms
     end &&
     forallb (fun bs => match spec_decode_packet v bs with
                        | Some (q, []) => beq_bytes (full_body v q) (full_body v p)
                        | _ => false
                        end) (spec_forms v p))
    selfcheck_packets = true.
Proof. vm_compute. reflexivity. Qed.

(* the repaired defects: before the fixes the short DISCONNECT lost its reason code and the short
   AUTH forms were rejected *)
Example C42_prefix_refuted :
  (exists pk, disconnect_decode_prefix (fresh_packet 5 (mkfh 1 DISCONNECT 0 false false)) [4] = Ok pk /\
              pk_reason_code pk = 0) /\
  auth_decode_prefix (fresh_packet 5 (mkfh 0 AUTH 0 false false)) [] = Err EOffsetByteOutOfRange.
Proof. split; [exact prefix_disconnect_loses_reason | exact (proj1 prefix_auth_rejects_short)]. Qed.

Print Assumptions C42_all.
Print Assumptions C42_client.
Print Assumptions C42_any_order.
Print Assumptions C42_disconnect_will.
Print Assumptions C42_reference_roundtrip.
Print Assumptions C42_reference_accepts_encodings.
