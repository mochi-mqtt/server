(* C24 — Topic aliases are always resolvable by the receiver. *)
From MV Require Import Base.Val Session.Alias Session.AliasProofs Session.AliasSched Session.AliasSchedProofs.
Open Scope N_scope.

(* Outbound.  [out_run (oinit max) evs] is the stream of PUBLISH packets (topic the message belongs
   to, Topic Name on the wire, Topic Alias or 0) one subscriber connection with Topic Alias Maximum
   [max] receives when the broker handles the messages [evs] for it (queued and written / dropped
   because the pending-writes queue is full / written from the in-flight store: resend on a new
   connection, deferred send).  [recv_ok max [] ws] is the receiver's check: every packet has a
   non-empty topic or an alias bound EARLIER ON THIS CONNECTION to the message's topic, aliases are
   <= max (none when max = 0).
   The full statement (no hypothesis on the history) is FALSE of the faithful model: C24_out_refuted.
   Outside the one listed finding it is proved for all histories. *)

(* Arithmetic: the model's cursor is an unbounded N; the Go cursor is a uint32 and the alias a uint16.
   In the code the cursor moves only when an alias is assigned, so cursor <= maximum <= 65535 at all
   times (this is [tab_ok], kept by every Set call: [out_set_cases]): neither the uint32 addition nor
   the uint16 conversion can wrap, for any number of Set calls, and the model is exact without a bound
   on the history length.  The harness' unit-level stream drives the exported table through 70 000
   (thorough 140 000) distinct topics across the 2^16 (and 2^17) boundaries to tie this to the code. *)
Theorem C24_out_modulo_findings : forall (max : N) (evs : list oev),
  Forall (fun e => ev_topic e <> []) evs ->          (* messages are published to non-empty topics *)
  out_kf_free (oinit max) evs = true ->              (* no instance of KF_C24_binding_dropped *)
  recv_ok max [] (out_run (oinit max) evs) = true.
Proof.
  intros max evs NE KF. rewrite recv_ok_all.
  destruct (out_resolvable evs (oinit max) [] (tab_ok_init max)) as (rtab' & E & _); try assumption; [discriminate|].
  cbn [oinit o_max] in E. rewrite E. reflexivity.
Qed.

(* the bound on alias values needs no exclusion: it holds on every history *)
Theorem C24_out_alias_bounded : forall (max : N) (evs : list oev),
  Forall (fun w : wire => snd w <= max) (out_run (oinit max) evs).
Proof. intros max evs. apply (out_alias_bounded evs (oinit max)), tab_ok_init. Qed.

(* refutation: the first message for a topic is dropped on a full pending-writes queue after its alias
   was recorded; the next message carries the alias only *)
Theorem C24_out_refuted : exists (max : N) (evs : list oev),
  Forall (fun e => ev_topic e <> []) evs /\
  recv_ok max [] (out_run (oinit max) evs) = false /\
  KF_C24_binding_dropped (oinit max) (hd (EStored []) evs) = true.
Proof.
  exists 2, [EQueue (tag "q0/a") false; EQueue (tag "q0/a") true]. split.
  - repeat constructor; discriminate.
  - vm_compute. split; reflexivity.
Qed.

(* Inbound.  [in_run (iinit smax) evs] are the broker's decisions for the PUBLISH packets (topic, alias)
   one client connection sends (a refusal ends the connection); [spec_run] is the property text: refuse
   an alias above the broker's maximum, refuse an empty topic whose alias has no binding on this
   connection (or no alias at all), otherwise route under the topic itself or under the topic the client
   LAST bound to the alias on this connection. *)
Theorem C24_in : forall (smax : N) (evs : list (bytes * N)),
  in_run (iinit smax) evs = spec_run smax [] evs.
Proof. intros smax evs. apply in_is_spec. split; [reflexivity|intros a _; reflexivity]. Qed.

(* Concurrent publishers.  A schedule is any list of the atomic steps of any number of publisher
   goroutines delivering to one subscriber connection: [SSet k topic] = publisher k's call of
   OutboundTopicAliases.Set (lookup + allocation under the table's lock: ONE atomic step, tied to the
   code by the forced schedules of the `aliassched` engine: a second allocator never gets inside while
   one is parked there) and [SPush k] = its packet entering the pending-writes queue. *)

(* under EVERY schedule the table is injective (no alias is given to two topics), aliases stay within
   the client's maximum *)
Theorem C24_sched_table_injective : forall (max : N) (evs : list sev),
  let t := s_tab (srun max evs) in
  injective t /\ (forall tp a, lookup_t tp (o_map t) = Some a -> 0 < a <= max).
Proof.
  intros max evs t. destruct (sched_table_ok max evs) as [(Hc & Hr & Hi) Hm]. fold t in Hc, Hr, Hi, Hm.
  split; [exact Hi|]. intros tp a H. specialize (Hr _ _ H). rewrite <- Hm. split; [apply Hr|].
  apply N.le_trans with (o_cursor t); [apply Hr|exact Hc].
Qed.

(* under every schedule without the overtaking finding, every PUBLISH on the connection has a topic or
   an alias bound earlier on this connection to that topic *)
Theorem C24_sched_modulo_findings : forall (max : N) (evs : list sev),
  topics_nonempty evs -> skf_free (sinit max) evs = true ->
  recv_ok max [] (s_wire (srun max evs)) = true.
Proof. exact sched_resolvable. Qed.

(* refutation (C24-4): publisher 1 queues its alias-only PUBLISH before publisher 0, which allocated
   the alias, has queued the PUBLISH that announces it *)
Theorem C24_sched_refuted_overtaken : exists (max : N) (evs : list sev),
  topics_nonempty evs /\ recv_ok max [] (s_wire (srun max evs)) = false /\ skf_free (sinit max) evs = false.
Proof.
  exists 4, [SSet 0 (tag "q0/a"); SSet 1 (tag "q0/a"); SPush 1; SPush 0]. split.
  - intros k tp [H|[H|[H|[H|[]]]]]; inversion H; discriminate.
  - vm_compute. split; reflexivity.
Qed.

(* the seeded variant of Set (lookup and cursor read before the write lock is taken) is not atomic:
   two publishers read the same cursor and two topics get alias 1 *)
Theorem C24_split_set_not_injective : exists (evs : list xev),
  let t := x_tab (fold_left xstep evs {| x_tab := oinit 8; x_read := [] |}) in
  lookup_t (tag "q0/a") (o_map t) = Some 1 /\ lookup_t (tag "q0/b") (o_map t) = Some 1.
Proof. exists [XRead 0 (tag "q0/a"); XRead 1 (tag "q0/b"); XWrite 0; XWrite 1]. vm_compute. split; reflexivity. Qed.

Example C24_out_nonvacuous :
  let evs := [EQueue (tag "a") true; EQueue (tag "b") true; EQueue (tag "a") true; EQueue (tag "c") false;
              EStored (tag "b"); EQueue (tag "c") true] in
  out_kf_free (oinit 2) evs = true /\
  out_run (oinit 2) evs =
    [(tag "a", tag "a", 1); (tag "b", tag "b", 2); (tag "a", [], 1); (tag "b", tag "b", 0); (tag "c", tag "c", 0)].
Proof. vm_compute. split; reflexivity. Qed.

Example C24_in_nonvacuous :
  in_run (iinit 5) [(tag "x", 2); ([], 2); (tag "y", 2); ([], 2); ([], 3); (tag "z", 1)] =
  [IRoute (tag "x"); IRoute (tag "x"); IRoute (tag "y"); IRoute (tag "y"); IReject] /\
  in_run (iinit 5) [(tag "x", 6)] = [IReject].
Proof. vm_compute. split; reflexivity. Qed.

Print Assumptions C24_out_modulo_findings.
Print Assumptions C24_out_alias_bounded.
Print Assumptions C24_out_refuted.
Print Assumptions C24_in.
Print Assumptions C24_sched_table_injective.
Print Assumptions C24_sched_modulo_findings.
Print Assumptions C24_sched_refuted_overtaken.
Print Assumptions C24_split_set_not_injective.
