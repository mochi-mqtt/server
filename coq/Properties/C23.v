(* C23 — Everything the broker writes is well-formed for the client's protocol version.
   What is proved: (1) the stream monitor that judges the real broker's output is sound with
   respect to the Prop-level statement [wf_stream] (complete packets of the client's version as
   the independent reference decoder Codec/SpecCodec.v reads them, server-sendable types only,
   codes and properties valid for the version, within Maximum Packet Size, problem/response
   information only when allowed, nothing after DISCONNECT); (2) for EVERY schedule of concurrent
   writers the wire carries whole packets only, none lost or duplicated (model of WritePacket's
   critical section).  The verdict on the code is the monitor applied to every byte the broker
   wrote in the generated histories; (3) the encoder side: whatever well-formed packet the broker
   hands to mochi's encoder, if its abstraction is a packet the standard allows for that version,
   the bytes written are accepted by the reference decoder as exactly that packet, and nothing
   beyond them is consumed (C23_encoder_output, from the bridge Codec/CodecC23.v).
   Not proved (partial): that every packet the BROKER builds has a valid abstraction — that is what
   the monitor checks on every run, and where the known findings live. *)
From MV Require Import Base.Val Codec.SpecCodec Session.Wellformed Session.WellformedProofs
  Conc.WriteMux Conc.WriteMuxProofs.
From MV Require Codec.Wire Codec.MochiCodec Codec.CodecNorm Codec.CodecC23.
From Coq Require Import Permutation.
Open Scope N_scope.

Theorem C23_monitor_sound : forall (c : cctx) (bs : bytes),
  stream_ok c bs = true -> exists ps, wf_stream c bs ps.
Proof. exact stream_ok_sound. Qed.

Theorem C23_no_interleaving : forall (progs : list (list (kind * bytes))) (sched : list tid),
  let s := run sched (init progs) in
  exists ps qs, conn s = concat ps /\ buf s = concat qs /\
    (forall p, In p ps -> In p (all_packets progs)) /\
    (finished s -> Permutation (ps ++ qs) (all_packets progs)).
Proof. exact no_interleaving. Qed.

Theorem C23_encoder_output : forall pk rest,
  CodecNorm.wf_packet pk = true ->
  valid_packet (MochiCodec.pk_version pk) (CodecNorm.abs pk) = true ->
  exists bs, MochiCodec.mochi_encode pk = Wire.Ok bs /\
             spec_decode_packet (MochiCodec.pk_version pk) (bs ++ rest) = Some (CodecNorm.abs pk, rest).
Proof. exact CodecC23.C23_encoder_output_total. Qed.

(* The full property is FALSE of the current broker; three witnesses (bytes the real broker writes,
   replayed by the `wire` engine) that the monitor rejects and classifies, one for each finding about
   a single packet (a DISCONNECT to an MQTT 3 client, an unmapped MQTT 3 CONNACK code, SUBACK 0x82).
   The fourth finding the monitor knows, a PUBLISH written after a DISCONNECT, is about the order of
   two writers and has no witness here. *)
Definition v3ctx : cctx := {| cc_ver := 4; cc_mps := 0; cc_problem := true; cc_respinfo := false |}.
Definition v5ctx : cctx := {| cc_ver := 5; cc_mps := 0; cc_problem := true; cc_respinfo := false |}.

Theorem C23_refuted_v3_disconnect :
  stream_ok v3ctx [32; 2; 0; 0; 224; 0] = false /\
  KF_C23_v3_disconnect v3ctx DClientOnly (Some (SDisconnect 0 [])) = true.
Proof. vm_compute. split; reflexivity. Qed.

Theorem C23_refuted_v3_connack_code :
  stream_ok v3ctx [32; 2; 0; 130] = false /\
  KF_C23_v3_connack_code v3ctx DInvalid (Some (SConnack false 130 [])) = true.
Proof. vm_compute. split; reflexivity. Qed.

Theorem C23_refuted_suback_0x82 :
  stream_ok v5ctx [144; 4; 0; 2; 0; 130] = false /\
  KF_C23_suback_0x82 v5ctx DInvalid (Some (SSuback 2 [] [130])) = true.
Proof. vm_compute. split; reflexivity. Qed.

(* non-vacuity: CONNACK, a QoS 1 PUBLISH "t/1" and a PINGRESP are accepted for MQTT 3.1.1; two
   writers with one packet each really interleave in the model *)
Example C23_nonvacuous :
  stream_ok v3ctx [32; 2; 0; 0; 50; 8; 0; 3; 116; 47; 49; 0; 1; 109; 208; 0] = true /\
  conn (run [0; 1; 0; 0; 1; 1; 1; 1]%nat (init [[(KDirect, [1; 2])]; [(KBufferFlush, [3; 4])]])) = [1; 2; 3; 4].
Proof. vm_compute. split; reflexivity. Qed.

Print Assumptions C23_monitor_sound.
Print Assumptions C23_no_interleaving.
Print Assumptions C23_refuted_v3_disconnect.
Print Assumptions C23_refuted_v3_connack_code.
Print Assumptions C23_refuted_suback_0x82.
Print Assumptions C23_encoder_output.
