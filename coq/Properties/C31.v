(* C31 — the topic index stays consistent under any concurrent history. *)
From MV Require Import Base.Val Topics.Match Topics.Alist Topics.IndexSpec Topics.Trie
  Topics.TrieInv Topics.TrieRefine Topics.TrieSelect Topics.Lin Topics.LinProofs
  Findings.FixedC31.
From Coq Require Import Permutation.
Open Scope N_scope.

(* Sequential refinement: under ANY serial order of operations the particle tree is the simple set of
   subscriptions / map of retained messages [abs ops]: every operation returns what the set / map returns
   (Subscribe, InlineSubscribe: 1 iff the entry is new; Unsubscribe, InlineUnsubscribe: 1 iff it existed;
   RetainMessage: 1 stored / 2 = -1 removed / 0 nothing to remove), and every query afterwards is answered from
   the set / map (C01, C02). *)
Theorem C31_seq_refines : forall ops, wf_ops ops ->
  t_rets ix_empty ops = a_rets a_empty ops /\
  (forall t, valid_topic t ->
     set_eq (r_cl (subscribers (run ops) t)) (sel_cl (abs ops) t) /\
     set_eq (r_sh (subscribers (run ops) t)) (sel_sh (abs ops) t) /\
     set_eq (r_in (subscribers (run ops) t)) (sel_in (abs ops) t)) /\
  (forall f, msg_filter_ok f = true -> Permutation (messages (run ops) f) (spec_retained (abs ops) f)).
Proof.
  intros ops W. pose proof (R_run ops W) as HR. split; [exact (rets_R ops _ _ R_empty W)|]. split.
  - intros t V. exact (select_all _ _ HR t V).
  - intros f OK. exact (messages_perm _ _ f HR OK).
Qed.

(* what the set / map specification returns, spelled out: "existed before" *)
Theorem C31_reports_existed : forall a c f pay id,
  is_share f = false ->
  snd (a_step a (OSub c f pay)) = (if al_mem beq_pair (c, f) (a_cl a) then 0 else 1) /\
  snd (a_step a (OUnsub c f)) = (if al_mem beq_pair (c, f) (a_cl a) then 1 else 0) /\
  snd (a_step a (OInSub id f pay)) = (if al_mem beq_npair (id, f) (a_in a) then 0 else 1) /\
  snd (a_step a (OInUnsub id f)) = (if al_mem beq_npair (id, f) (a_in a) then 1 else 0).
Proof. intros a c f pay id S. cbn [a_step]. rewrite S. repeat split. Qed.

(* Removing empty particles never drops anything: trim changes the contents at no path, so every live
   subscription and every retained message is still found. *)
Theorem C31_trim_preserves : forall p n q, wf_node n -> content_at (trim p n) q = content_at n q.
Proof. exact content_at_trim. Qed.

(* ... and the tree stays well formed under every operation (keys unique, no empty share group) *)
Theorem C31_wf_preserved : forall ops, wf_ops ops -> wf_node (ix_root (run ops)).
Proof. intros ops W. exact (R_wf _ _ (R_run ops W)). Qed.

(* Linearizability: every exported mutator of TopicsIndex holds the root lock from its first to its last
   statement, i.e. is one atomic step.  For every program (one list of operations per goroutine) and every
   schedule (the goroutine that runs next), the history h of the run is a serial order that
   - keeps the order of every goroutine (its operations in h, followed by those it has not run yet, are its program),
   - gives every operation the return value the set / map specification gives it in that order, and
   - leaves an index that answers every query as the specification state does. *)
Theorem C31_lin : forall prog (sched : list nat) xf restf h, wf_ops (concat prog) ->
  run_sched t_step sched ix_empty prog = (xf, restf, h) ->
  let serial := map (fun e : nat * op * N => snd (fst e)) h in
  (forall t, proj t h ++ nth t restf [] = nth t prog []) /\
  map snd h = a_rets a_empty serial /\
  (forall t, valid_topic t ->
     set_eq (r_cl (subscribers xf t)) (sel_cl (a_run a_empty serial) t) /\
     set_eq (r_sh (subscribers xf t)) (sel_sh (a_run a_empty serial) t) /\
     set_eq (r_in (subscribers xf t)) (sel_in (a_run a_empty serial) t)) /\
  (forall f, msg_filter_ok f = true -> Permutation (messages xf f) (spec_retained (a_run a_empty serial) f)).
Proof.
  intros prog sched xf restf h W H serial.
  destruct (index_linearizable prog sched xf restf h W H) as (P & RV & HR). fold serial in RV, HR.
  split; [exact P|]. split; [exact RV|]. split.
  - intros t V. exact (select_all _ _ HR t V).
  - intros f OK. exact (messages_perm _ _ f HR OK).
Qed.

(* the generic fact behind it, for any state / operation / return types: a schedule of atomic steps is a
   serial execution in program order *)
Theorem C31_atomic_serial : forall (St Op Rv : Type) (step : St -> Op -> St * Rv) sched st prog stf restf h,
  run_sched step sched st prog = (stf, restf, h) ->
  seq_run step st (map (fun e => snd (fst e)) h) = (stf, map snd h) /\
  (forall t, proj t h ++ nth t restf [] = nth t prog []) /\ length restf = length prog.
Proof. intros St Op Rv step sched st prog stf restf h. exact (sched_serial step). Qed.

(* The checker used on the real index (concurrent batches): it accepts an observation exactly when some
   interleaving of the per-goroutine lists that respects their order explains all return values and the final
   queries; and it accepts whatever atomic goroutines can observe. *)
Theorem C31_lin_check_decides : forall (St : Type) (step : St -> op -> St * N) (final : St -> bool) st ths,
  lin_check step N.eqb final st ths = true <->
  exists l, interleave ths l /\ explains step N.eqb final st l = true.
Proof. intros St step final. exact (lin_check_spec step N.eqb final). Qed.

Theorem C31_lin_check_accepts_atomic : forall (St : Type) (step : St -> op -> St * N) (final : St -> bool)
  sched st prog stf restf h,
  run_sched step sched st prog = (stf, restf, h) -> final stf = true ->
  lin_check step N.eqb final st (obs_of (length prog) h) = true /\
  (forall t, map fst (nth t (obs_of (length prog) h) []) ++ nth t restf [] = nth t prog []).
Proof.
  intros St step final sched st prog stf restf h H F.
  exact (atomic_is_linearizable step N.eqb final N.eqb_refl sched st prog stf restf h H F).
Qed.

(* non-vacuity: two goroutines racing to subscribe the same (client, filter): exactly one sees "new" in
   either schedule, and the checker rejects the observation in which both do *)
Example C31_nonvacuous :
  let prog := [[OSub (tag "c") (tag "a") 1; OUnsub (tag "c") (tag "a")]; [OSub (tag "c") (tag "a") 2]] in
  wf_ops (concat prog) /\
  map snd (snd (run_sched t_step [0; 1; 0]%nat ix_empty prog)) = [1; 0; 1] /\
  map snd (snd (run_sched t_step [1; 0; 0]%nat ix_empty prog)) = [1; 0; 1] /\
  map snd (snd (run_sched t_step [0; 0; 1]%nat ix_empty prog)) = [1; 1; 1] /\
  lin_check a_step N.eqb (fun _ => true) a_empty
    [[(OSub (tag "c") (tag "a") 1, 1)]; [(OSub (tag "c") (tag "a") 2, 1)]] = false /\
  lin_check a_step N.eqb (fun _ => true) a_empty
    [[(OSub (tag "c") (tag "a") 1, 0)]; [(OSub (tag "c") (tag "a") 2, 1)]] = true.
Proof. vm_compute. repeat split; repeat constructor. Qed.

(* the repaired defect (fixed in /repo): the pre-fix Unsubscribe reported "existed" for an absent subscription *)
Example C31_prefix_refuted :
  unsubscribe_ret_prefix (run [OSub (tag "c1") (tag "a/b") 1]) (tag "a/b") (tag "c2") = 1 /\
  inline_unsubscribe_ret_prefix (run [OInSub 7 (tag "q") 1]) 9 (tag "q") = 1.
Proof.
  exact (conj (proj1 prefix_unsubscribe_reports_absent) (proj1 prefix_inline_unsubscribe_reports_absent)).
Qed.

Print Assumptions C31_seq_refines.
Print Assumptions C31_reports_existed.
Print Assumptions C31_trim_preserves.
Print Assumptions C31_wf_preserved.
Print Assumptions C31_lin.
Print Assumptions C31_atomic_serial.
Print Assumptions C31_lin_check_decides.
Print Assumptions C31_lin_check_accepts_atomic.
