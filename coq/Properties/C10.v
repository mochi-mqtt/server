(* C10 — Packet identifiers are unique per direction and never cross-contaminate.
   Model: Session/Inflight.v (ONE map keyed by packet id for both directions, as
   inflight.go; NextPacketID's scan); verdict on the code: QosSpecs.chk10 on the observed history.

   The full property is FALSE of the faithful model of the current code:
     - the client's own PUBLISH deletes / replaces, its own PUBREL completes, whatever outbound record is stored
       under the same number                                                     KF_C10_own_id_hits_outbound
     - PUBACK / PUBREC / PUBCOMP (which name the broker's identifiers) delete / replace the PUBREC record of the
       client's own QoS 2 exchange stored under the same number                    KF_C10_ack_hits_inbound
     - once the record of a released held-back message has been deleted (C09) its identifier is handed out again
       while the client has not acknowledged it                         KF_C10_reuse_after_deferred_delete
   Proved: identifiers are in 1..maximumPacketID and unused by ANY stored record of either direction when handed
   out (all histories, unconditional); a packet can only touch the record stored under its OWN identifier
   (C10_modulo_findings): the cross-contamination is exactly "same number in both directions". *)
From MV Require Import Base.Val Session.Pkt Session.Inflight Session.InflightProofs Session.QosSpecs Session.QosProofs
  Session.QosSound Session.QosWitness Conc.NextId Conc.NextIdProofs.
Open Scope N_scope.

(* every outbound QoS 1/2 PUBLISH ever written — first transmission, release of a held-back message, resend —
   carries an identifier in 1..c_maxpid c, the configured maximumPacketID (65535 in the broker unless the test knob lowers
   it; the theorem holds for any value), from any well-formed state *)
Theorem C10_ids_in_range : forall c s o orc,
  cfg_ok c -> op_ok o -> wf c s ->
  forall p d q u rc, In (OPkt T_PUBLISH p d q u rc) (snd (step c s o orc)) -> 0 < q -> 1 <= p <= c_maxpid c.
Proof. exact QosOrder.publish_ids_in_range. Qed.

(* a new outbound message gets an identifier under which nothing is stored, neither an outbound message nor a
   record of the client's own exchanges *)
Theorem C10_fresh_id : forall c s pq sq uid now mei pv qf i d q u rc,
  In (OPkt T_PUBLISH i d q u rc) (snd (out_publish c s pq sq uid now mei pv qf)) -> 0 < q ->
  1 <= i <= c_maxpid c /\ get i (s_infl s) = None /\ d = false /\ u = uid.
Proof. exact out_publish_fresh. Qed.

(* Independence modulo the shared map.  One step from any well-formed state: a record (k, r) without the held-back
   mark is unchanged unless the operation is an acknowledgement packet carrying k, or the client's own PUBLISH
   carrying k while r is an outbound record [the two findings: the same number in the other direction], or the
   session ends / housekeeping expiry runs.  In particular the client's own PUBLISH / PUBREL with identifier p
   leaves every outbound record under k <> p alone, and PUBACK / PUBREC / PUBCOMP p leave every own exchange
   under k <> p alone. *)
Theorem C10_modulo_findings : forall c s o orc k r,
  cfg_ok c -> op_ok o -> wf c s -> persistent s ->
  get k (s_infl s) = Some r -> (0 <= r_expiry r)%Z -> r_ty r <> T_PUBACK -> r_ty r <> T_PUBCOMP ->
  keeps_session o = true -> acks k o = false -> (own_pub k o = false \/ r_ty r = T_PUBREC) ->
  persistent (fst (step c s o orc)) /\ get k (s_infl (fst (step c s o orc))) = Some r.
Proof. exact step_keeps_record. Qed.

(* CONCURRENT allocation (several publishers deliver to the same subscriber at once): interleaving model Conc/NextId.v.
   With Client.NextPacketID's load-scan-store one atomic step (it holds the client lock), for EVERY schedule of n
   allocators on a session whose identifiers in use are all at most the counter, with room for n more: the identifiers
   handed out are pairwise distinct, were not in use and lie in (c0, c0 + n].  Tied to the code by forced schedules
   (schedule point nextid.inside): nobody else gets inside the critical section while an allocator is parked there. *)
Theorem C10_allocation_all_schedules : forall maxpid c0 u0 n sched,
  (forall x, In x u0 -> x <= c0) -> c0 + N.of_nat n <= maxpid ->
  let '(sh, ths) := run_sched (step_atomic maxpid) {| sh_counter := c0; sh_used := u0 |} (repeat Start n) sched in
  NoDup (ids ths) /\ forall x, In x (ids ths) -> c0 < x <= c0 + N.of_nat n /\ ~ In x u0.
Proof. exact atomic_ids_distinct. Qed.

(* without the atomicity (load, scan and store as separate steps - what a shared lock would allow) a schedule hands the
   same identifier to two messages; the same schedule is harmless for the atomic variant *)
Theorem C10_refuted_split_allocation : exists maxpid c0 u0 sched,
  ids (snd (run_sched (step_split maxpid) {| sh_counter := c0; sh_used := u0 |} (repeat Start 2) sched)) = [1; 1] /\
  ids (snd (run_sched (step_atomic maxpid) {| sh_counter := c0; sh_used := u0 |} (repeat Start 2) sched)) = [1; 2].
Proof. exists 8, 0, [], [0; 1; 0; 1; 0; 1; 0; 1]%nat. vm_compute. split; reflexivity. Qed.

(* the step check of the monitor says what the specification says: identifiers in range and not shared with another
   outstanding message; own identifiers, acknowledgements and deliveries leave the other records alone *)
Theorem C10_monitor_sound : forall c v o ob,
  chk10 c v o ob (view_op c v o ob) = None -> Spec10_step c v o ob.
Proof. exact chk10_sound. Qed.

Theorem C10_refuted_own_id : exists c h, model_verdict 10 c h = Some (3, Some (tag "KF_C10_own_id_hits_outbound")).
Proof. exists (wcfg 2 8), [w_connect; w_out 1 1; w_pub 1 1 false 7]. vm_compute. reflexivity. Qed.

Theorem C10_refuted_ack : exists c h, model_verdict 10 c h = Some (4, Some (tag "KF_C10_ack_hits_inbound")).
Proof. exists (wcfg 2 8), [w_connect; w_pub 2 5 false 7; w_ack T_PUBACK 5]. vm_compute. reflexivity. Qed.

Theorem C10_refuted_reuse : exists c h, model_verdict 10 c h = Some (2, Some (tag "KF_C10_reuse_after_deferred_delete")).
Proof.
  exists (wcfg 2 2), [w_connect; w_out 1 1; w_out 1 2; w_ack T_PUBACK 1; w_netclose; w_connect; w_out 1 3; w_out 1 4;
                      w_ack T_PUBACK 1].
  vm_compute. reflexivity.
Qed.

(* non-vacuity: identifiers wrap around at maximumPacketID = 2 and skip the one still in use; the monitor accepts *)
Definition c10_h : list (op * list N) :=
  [(Reconnect true false 300 4, []); w_out 1 1; w_out 1 2; w_ack T_PUBACK 1; w_out 1 3; w_pub 1 7 false 9].
Example C10_nonvacuous :
  model_verdict 10 (wcfg 2 2) c10_h = None /\
  snd (run (wcfg 2 2) init_st c10_h) =
    [[OPkt T_CONNACK 0 false 0 0 0]; [OPkt T_PUBLISH 1 false 1 1 0]; [OPkt T_PUBLISH 2 false 1 2 0]; [];
     [OPkt T_PUBLISH 1 false 1 3 0]; [OPkt T_PUBACK 7 false 0 0 0; OFwd 9]].
Proof. vm_compute. split; reflexivity. Qed.

Print Assumptions C10_ids_in_range.
Print Assumptions C10_fresh_id.
Print Assumptions C10_modulo_findings.
Print Assumptions C10_allocation_all_schedules.
Print Assumptions C10_refuted_split_allocation.
Print Assumptions C10_monitor_sound.
Print Assumptions C10_refuted_own_id.
Print Assumptions C10_refuted_ack.
Print Assumptions C10_refuted_reuse.
