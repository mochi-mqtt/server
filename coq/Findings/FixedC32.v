(* C32 — the two repaired defects (fix commit c4b2fef in /repo): Inflight.NextImmediate called
   GetAll, and Clients.GetByListener called Len, while holding the read lock that the callee
   takes again.  The pre-fix shape is rejected by the checker, and the executions it describes do
   deadlock in the machine: the reader is between its two RLocks when a writer announces itself. *)
From Coq Require Import List NArith String.
From MV Require Import Conc.Locks Conc.LocksProofs.
Import ListNotations.
Open Scope N_scope.

(* functions: 0 = NextImmediate / GetByListener, 1 = GetAll / Len, 2 = Set / Delete; class 0 *)
Definition prefix_table : lock_table :=
  [ mk_site 0 [] (Acquire 0 R); mk_site 0 [(0, R)] (Call 1);
    mk_site 1 [] (Acquire 0 R);
    mk_site 2 [] (Acquire 0 W) ].

Definition fixed_table : lock_table :=
  [ mk_site 0 [] (Call 1);
    mk_site 1 [] (Acquire 0 R);
    mk_site 2 [] (Acquire 0 W) ].

Lemma prefix_rejected : lock_discipline_ok prefix_table = false /\ lock_violations prefix_table = [(0, 0, 0)].
Proof. vm_compute. split; reflexivity. Qed.

Lemma fixed_accepted : lock_discipline_ok fixed_table = true.
Proof. vm_compute. reflexivity. Qed.

(* lock instance 7 of class 0 *)
Definition reader_evs : list ev := [EAcq 7 R; EEnter 1; EAcq 7 R; ERel 7 R; EExit; ERel 7 R].
Definition writer_evs : list ev := [EAcq 7 W; ERel 7 W].

Lemma prefix_conforms :
  conforms (fun _ => 0) prefix_table [] [(0, [])] reader_evs = true /\
  conforms (fun _ => 0) prefix_table [] [(2, [])] writer_evs = true.
Proof. vm_compute. split; reflexivity. Qed.

(* schedule: the reader takes its first RLock, the writer calls Lock (announced, waits for the
   reader), the reader's second RLock now waits for the writer *)
Lemma prefix_deadlocks :
  deadlocked (run [0%nat; 1%nat] [thread_of reader_evs; thread_of writer_evs]).
Proof. apply deadlockedb_sound. vm_compute. reflexivity. Qed.

(* without the writer's announcement in between, the same reader runs to completion: this is why
   no single-goroutine test sees the defect *)
Lemma prefix_other_schedule_completes :
  all_done (run [0; 0; 0; 0; 1; 1; 1]%nat [thread_of reader_evs; thread_of writer_evs]).
Proof. intros t Ht. vm_compute in Ht. destruct Ht as [<-|[<-|[]]]; reflexivity. Qed.

(* An unbalanced function (seeded change to Client.flushIdle: Lock; if queue non-empty return;
   flush; Unlock): the early return leaves the client's lock held.  The goroutine that leaked it
   finishes, every later Lock() on that client waits for ever. *)
Definition leak_table : lock_table := [ mk_site 0 [] (Acquire 0 W) ].

Lemma leak_rejected :
  lock_discipline_ok leak_table = true /\                         (* nesting alone sees nothing *)
  lock_discipline_ok_full [(0, "Client.flushIdle"%string)] [0] leak_table = false /\
  lock_discipline_ok_full [(0, "Client.flushIdle"%string)] [] leak_table = true.
Proof. vm_compute. repeat split. Qed.

(* thread 0 = flushIdle taking the early return, thread 1 = the next WritePacket *)
Lemma leak_deadlocks :
  deadlocked (run [0; 0; 1]%nat [mk_thread [] false [Acq 7 W]; mk_thread [] false [Acq 7 W; Rel 7 W]]).
Proof. apply deadlockedb_sound. vm_compute. reflexivity. Qed.
