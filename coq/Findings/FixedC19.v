(* The pre-fix handling of the OnPublish result in processPublish (pinned commit f01d2fe,
   server.go:913-926) — kept only to document the repaired defects C19-1 / C19-2 (fix fcb436d):

       } else if cl.Properties.ProtocolVersion == 5 && pk.FixedHeader.Qos > 0 && errors.As(err, new(packets.Code)) {
           err = cl.WritePacket(s.buildAck(pk.PacketID, packets.Puback, 0, pk.Properties, err.(packets.Code)))
           ...return nil
       }
       // every other error fell through: the ORIGINAL packet was retained and forwarded

   An error other than reject / ignore was honoured only for MQTT 5 with QoS > 0 and only if it was a
   packets.Code; MQTT 3 publishes, QoS 0 publishes and publishes answered with a plain error were
   forwarded and retained; an MQTT 5 QoS 2 publish got a PUBACK instead of a PUBREC. *)
From MV Require Import Base.Val Topics.Levels Topics.Match Hooks.Chain.
Open Scope N_scope.

Definition process_publish_prefix (hs : list hook) (ver : N) (cl : client) (pk : ppkt) : pub_out :=
  let qos := pp_qos pk in
  if negb (valid_pub_topic (pp_topic pk)) then
    mkPO None None (if qos =? 0 then None else Some (ack_ty qos, 144)) false []
  else
    let '(okw, lg1) := on_acl hs cl (pp_topic pk) true in
    if negb okw then
      if qos =? 0 then nothing lg1
      else if negb (ver =? 5) then mkPO None None None true lg1
      else mkPO None None (Some (ack_ty qos, 135)) false lg1
    else
      let '(pkx, e, lg2) := on_publish hs cl pk in
      let lg := lg1 ++ lg2 in
      let as_success (p : ppkt) := mkPO (Some p) (if pp_retain p then Some p else None) (ok_ack (pp_qos p)) false lg in
      match e with
      | ENone => as_success pkx
      | EReject => nothing lg
      | EIgnore => mkPO None None (ok_ack qos) false lg
      | ECode c => if (ver =? 5) && (0 <? qos) then mkPO None None (Some (T_PUBACK, c)) false lg   (* always PUBACK *)
                   else as_success pkx                        (* pkx = the original packet: forwarded and retained *)
      | EOther => as_success pkx
      end.

(* one hook that permits everything and answers every publish with the error [e]; 153 = 0x99 is
   ErrPayloadFormatInvalid *)
Definition objector (e : herr) : hook :=
  mkHook 1 (Some (fun _ => true)) (Some (fun _ _ _ => true)) None (Some (fun _ p => (p, e))) None.
Definition msg (qos : N) : ppkt := mkP (tag "a/b") (tag "m") qos true 7.

(* MQTT 3.1.1, any QoS, and MQTT 5 QoS 0: forwarded and retained although the hook answered with an error *)
Lemma prefix_error_forwarded :
  po_forward (process_publish_prefix [objector (ECode 153)] 4 (tag "p") (msg 1)) = Some (msg 1) /\
  po_retain (process_publish_prefix [objector (ECode 153)] 4 (tag "p") (msg 1)) = Some (msg 1) /\
  po_forward (process_publish_prefix [objector (ECode 153)] 5 (tag "p") (msg 0)) = Some (msg 0) /\
  po_retain (process_publish_prefix [objector EOther] 5 (tag "p") (msg 2)) = Some (msg 2).
Proof. vm_compute. repeat split. Qed.

(* MQTT 5 QoS 2: PUBACK (4) instead of PUBREC (5) *)
Lemma prefix_qos2_puback :
  po_ack (process_publish_prefix [objector (ECode 153)] 5 (tag "p") (msg 2)) = Some (4, 153) /\
  po_ack (process_publish [objector (ECode 153)] 5 (tag "p") (msg 2)) = Some (5, 153).
Proof. vm_compute. split; reflexivity. Qed.

(* the repaired code on the same inputs *)
Lemma fixed_error_not_forwarded :
  po_forward (process_publish [objector (ECode 153)] 4 (tag "p") (msg 1)) = None /\
  po_retain (process_publish [objector (ECode 153)] 4 (tag "p") (msg 1)) = None /\
  po_forward (process_publish [objector (ECode 153)] 5 (tag "p") (msg 0)) = None /\
  po_retain (process_publish [objector EOther] 5 (tag "p") (msg 2)) = None.
Proof. vm_compute. repeat split. Qed.
