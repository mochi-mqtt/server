(* C33 — the repaired defect (fix commit 5827d88 in /repo: scanMessages reads particle.retainPath through
   particle.retained, under the particle's lock), the listed finding KF_C33_will and the StopTime() guard
   on the session expiry interval, as small access tables checked against the real declaration. *)
From Coq Require Import List String Bool.
From MV Require Import Conc.Locks Conc.Discipline.
Import ListNotations.
Open Scope string_scope.

(* retainPath, before the fix: written under root + particle lock, read with no lock *)
Definition rp_write : asite :=
  mk_asite ["particle"; "retainPath"] "TopicsIndex.RetainMessage" true false false
    [("particle.Mutex#root", W, false); ("particle.Mutex", W, true)] [RA; RE; RH; RI].
Definition rp_read_prefix : asite :=
  mk_asite ["particle"; "retainPath"] "TopicsIndex.scanMessages" false false false [] [RA; RH].
Definition rp_read_fixed : asite :=
  mk_asite ["particle"; "retainPath"] "particle.retained" false false false [("particle.Mutex", W, true)] [RA; RH].
Definition rp_read_trim : asite :=
  mk_asite ["particle"; "retainPath"] "TopicsIndex.trim" false false false [("particle.Mutex#root", W, false)] [RA; RE; RH; RI].

Lemma retainPath_prefix_rejected :
  sites_respect decl [rp_write; rp_read_prefix; rp_read_trim] = false /\
  overlap rp_write rp_read_prefix = true /\ conflicting rp_write rp_read_prefix = true /\
  may_be_concurrent rp_write rp_read_prefix = true /\
  forall u, In u (units_of decl rp_write) -> ~ synchronised u rp_write rp_read_prefix.
Proof.
  split; [vm_compute; reflexivity|]. split; [vm_compute; reflexivity|].
  split; [vm_compute; reflexivity|]. split; [vm_compute; reflexivity|].
  intros u Hu. vm_compute in Hu. destruct Hu as [<-|[]].
  unfold synchronised. simpl. intros [[_ H]|[_ H]]; vm_compute in H; discriminate.
Qed.

Lemma retainPath_fixed_accepted :
  sites_respect decl [rp_write; rp_read_fixed; rp_read_trim] = true.
Proof. vm_compute. reflexivity. Qed.

(* KF_C33_will: the handler clears / reads the will, the event loop clears it as well *)
Definition will_handler : asite :=
  mk_asite ["Client"; "Properties"; "Will"] "Server.attachClient" true false false [] [RH].
Definition will_eventloop : asite :=
  mk_asite ["Client"; "Properties"; "Will"] "Server.sendDelayedLWT" true false false [] [RE].

Lemma will_refuted :
  sites_respect decl [will_handler; will_eventloop] = false /\
  sites_respect_modulo decl [will_handler; will_eventloop] = true /\
  overlap will_handler will_eventloop = true /\ conflicting will_handler will_eventloop = true /\
  may_be_concurrent will_handler will_eventloop = true /\
  forall u, In u (units_of decl will_handler) -> In u (units_of decl will_eventloop) ->
    exempt u will_handler = false /\ exempt u will_eventloop = false /\
    u_kf u = Some "KF_C33_will" /\ ~ synchronised u will_handler will_eventloop.
Proof.
  split; [vm_compute; reflexivity|]. split; [vm_compute; reflexivity|].
  split; [vm_compute; reflexivity|]. split; [vm_compute; reflexivity|].
  split; [vm_compute; reflexivity|].
  intros u Hu _. vm_compute in Hu. destruct Hu as [<-|[]].
  split; [vm_compute; reflexivity|]. split; [vm_compute; reflexivity|]. split; [reflexivity|].
  unfold synchronised. simpl. intros [_ H]. specialize (H RE (or_introl eq_refl)).
  simpl in H. destruct H as [H|[H|[H|[]]]]; discriminate.
Qed.

(* session expiry interval: owned by the handler until Client.Stop, read by the event loop only
   behind the StopTime() guard (seeded change: the read moved in front of the guard) *)
Definition sei_write : asite :=
  mk_asite ["Client"; "Properties"; "Props"; "SessionExpiryInterval"] "Server.processDisconnect" true false false [] [RA; RH].
Definition sei_read_guarded : asite :=
  mk_asite ["Client"; "Properties"; "Props"; "SessionExpiryInterval"] "Server.clearExpiredClients" false false true [] [RE].
Definition sei_read_unguarded : asite :=
  mk_asite ["Client"; "Properties"; "Props"; "SessionExpiryInterval"] "Server.clearExpiredClients" false false false [] [RE].
Definition sei_write_guarded : asite :=
  mk_asite ["Client"; "Properties"; "Props"; "SessionExpiryInterval"] "Server.clearExpiredClients" true false true [] [RE].

Lemma sei_guard_required :
  sites_respect decl [sei_write; sei_read_guarded] = true /\
  sites_respect decl [sei_write; sei_read_unguarded] = false /\
  sites_respect_modulo decl [sei_write; sei_read_unguarded] = false /\
  sites_respect decl [sei_write; sei_write_guarded] = false.
Proof. vm_compute. repeat split. Qed.
