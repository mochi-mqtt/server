(* The pre-fix encodePubAckRelRecComp (pinned commit f01d2fe, packets.go:703-725) — kept only to
   document the repaired defect C26-1: for protocol version 5 the reason code was written only when
   it was >= 0x80 or when properties followed, so a success-class reason other than 0x00 (PUBACK /
   PUBREC 0x10 "no matching subscribers") without properties was dropped and the packet decoded
   with reason 0x00.  Fixed in /repo by bdb97b6. *)
From MV Require Import Base.Val Codec.Vbi Codec.Wire Codec.Props Codec.MochiCodec.
Open Scope N_scope.

Definition ack_encode_prefix (pk : packet) : res bytes :=
  let nb := encodeUint16 (pk_packet_id pk) in
  if pk_version pk =? 5 then
    let* pb := enc_props pk (blen nb) in
    finish pk (nb ++ when ((128 <=? pk_reason_code pk) || (1 <? blen pb)) [pk_reason_code pk]
                  ++ when (1 <? blen pb) pb)
  else finish pk nb.

Definition pubrec_0x10 : packet :=
  set_pk_reason_code 16 (set_pk_packet_id 7 (fresh_packet 5 (mkfh 0 PUBREC 0 false false))).

Lemma prefix_ack_drops_reason :
  ack_encode_prefix pubrec_0x10 = Ok [80; 2; 0; 7] /\
  (exists pk, mochi_decode_packet 5 [80; 2; 0; 7] = Ok (pk, []) /\ pk_reason_code pk = 0).
Proof. split; [vm_compute; reflexivity | eexists; split; [vm_compute; reflexivity | reflexivity]]. Qed.

Lemma fixed_ack_keeps_reason :
  mochi_encode pubrec_0x10 = Ok [80; 3; 0; 7; 16] /\
  (exists pk, mochi_decode_packet 5 [80; 3; 0; 7; 16] = Ok (pk, []) /\ pk_reason_code pk = 16).
Proof. split; [vm_compute; reflexivity | eexists; split; [vm_compute; reflexivity | reflexivity]]. Qed.

(* Second repaired defect: PingreqEncode/PingrespEncode
   wrote the fixed header with whatever FixedHeader.Remaining the Packet carried.  The decoder accepts
   a PINGREQ with a non-zero remaining length (c0 01 00: ReadPacket reads the byte and ignores it), so
   re-encoding the decoded packet produced "c0 01" — a header announcing one more byte that is not
   there.  Fixed in /repo by 46da5a3 (Remaining := 0). *)
Definition ping_encode_prefix (pk : packet) : res bytes := fh_encode (pk_fh pk).

Lemma prefix_ping_stale_length :
  exists pk, (mochi_decode_packet 4 [192; 1; 0] = Ok (pk, [])) /\
             (ping_encode_prefix pk = Ok [192; 1]) /\
             (mochi_decode_packet 4 [192; 1] = Err EShortRead) /\
             (mochi_encode pk = Ok [192; 0]).
Proof. eexists. split; [vm_compute; reflexivity|]. repeat split; vm_compute; reflexivity. Qed.
