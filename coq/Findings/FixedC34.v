(* The pre-fix write loop (pinned commit f01d2fe, clients.go WriteLoop: a WritePacket error was only
   logged) — kept only to document the repaired defects C34-1 and C34-2, and at the end C34-3. *)
From MV Require Import Base.Val Session.Pkt IO.WriteBuf.
Open Scope N_scope.

(* a queued packet refused before the buffer logic: nothing was reported and nothing flushed *)
Definition wstep_old (thr : N) (s : wst) (e : wev) : wst :=
  if e_early e then s else wstep thr s e.

Definition ev (src0 : src) (id size : N) (early qempty : bool) : wev :=
  {| e_src := src0; e_id := id; e_size := size; e_early := early; e_qempty := qempty |}.

(* write buffer 64 bytes; the write loop takes packet 1 (20 bytes) while packet 2 is still queued: it
   is buffered and reported sent.  Packet 2 is too large for the client's Maximum Packet Size. *)
Definition h : list wev := [ev Loop 1 20 false false; ev Loop 2 90 true true].

Lemma c34_1_stranded :
  idle_after h = true /\
  let s := fold_left (wstep_old 64) h winit in
  reported s = [1] /\ written s = [] /\ outbuf s = [(1, 20)] /\ dropped s = [].
Proof. vm_compute. repeat split. Qed.

(* repaired: packet 1 is flushed, packet 2 is reported dropped *)
Lemma c34_fixed_same_history :
  let s := wrun 64 h in reported s = [1] /\ written s = [1] /\ outbuf s = [] /\ dropped s = [2].
Proof. vm_compute. repeat split. Qed.

(* C34-3: before 17f8a7b a message refused because the in-flight store was full was not reported *)
Definition fate_report_old (f : fate) : option hook :=
  match f with FInflightFull => None | _ => fate_report f end.
Lemma c34_3_inflight_full_unreported : fate_is_drop FInflightFull = true /\ fate_report_old FInflightFull = None.
Proof. split; reflexivity. Qed.
