(* The pre-fix counter bookkeeping of server.go (pinned commit f01d2fe) — kept only to document the
   repaired defects C38-2a, 2b, 3, 4 and 5 (C38-1, Info.Subscriptions lowered by the UNSUBSCRIBE of an
   absent subscription, is the return value repaired in Findings/FixedC31.v).  Each [*_old] is the old variant of one primitive of Session/Stats.v;
   each lemma shows a state in which counters and counts agree and which the old primitive takes to
   one where they do not. *)
From MV Require Import Base.Val Session.Pkt Session.Stats.
Open Scope Z_scope.

Definition A : bytes := tag "a".
Definition T1 : bytes := tag "t/1".

(* session "a": disconnected, one outbound QoS 1 message (packet id 1) in flight; one retained message *)
Definition s_good : st :=
  {| s_clients := [ {| c_id := A; c_conn := false; c_v3clean := false; c_infl := [(1%N, T_PUBLISH)]; c_subs := [] |} ];
     s_index := []; s_ret := [T1]; n_conn := 0; n_subs := 0; n_ret := 1; n_infl := 1 |}.

Lemma s_good_ok : stats_ok s_good.
Proof. vm_compute. repeat split; discriminate. Qed.

(* C38-3 (fixed by b64bdc3): inheritClientSession cloned the in-flight map into the new session and
   then called existing.ClearInflights(), which decremented Info.Inflight once per inherited record *)
Definition takeover_old (s : st) (id : bytes) : st :=
  match get id (s_clients s) with
  | Some ex =>
      let s1 := with_clients s (upd id (fun _ => new_client id false (c_infl ex) (c_subs ex)) (s_clients s)) in
      with_nconn (with_ninfl s1 (n_infl s1 - Z.of_nat (length (c_infl ex)))) (n_conn s1 + 1)
  | None => s
  end.

Lemma takeover_old_drifts : n_infl (takeover_old s_good A) = 0 /\ act_infl (takeover_old s_good A) = 1.
Proof. vm_compute. split; reflexivity. Qed.

(* C38-5 (fixed by 426cc48): the pending-writes queue is full: publishToClient deleted the record it
   had just stored and counted, without decrementing *)
Definition deliver_full_old (s : st) (id : bytes) (pid : N) : st :=
  let s1 := infl_set s id pid T_PUBLISH in
  with_clients s1 (upd id (fun c => set_infl c (del_pid pid (c_infl c))) (s_clients s1)).

Lemma deliver_full_old_drifts :
  n_infl (deliver_full_old s_good A 2) = 2 /\ act_infl (deliver_full_old s_good A 2) = 1.
Proof. vm_compute. split; reflexivity. Qed.

(* C38-2a (fixed by 7446663): clearExpiredRetainedMessages deleted from the store and left Info.Retained *)
Definition expire_retained_old (s : st) (t : bytes) : st := with_ret s (del_b t (s_ret s)) (n_ret s).

Lemma expire_retained_old_drifts :
  n_ret (expire_retained_old s_good T1) = 1 /\ act_ret (expire_retained_old s_good T1) = 0.
Proof. vm_compute. split; reflexivity. Qed.

(* C38-4 (fixed by 7446663): publishSysTopics retained the $SYS topics and left Info.Retained *)
Definition sys_tick_old (s : st) (topics : list bytes) : st :=
  with_ret s (fold_left (fun r t => add_b t r) topics (s_ret s)) (n_ret s).

Lemma sys_tick_old_drifts :
  n_ret (sys_tick_old s_good [tag "$SYS/broker/uptime"]) = 1 /\ act_ret (sys_tick_old s_good [tag "$SYS/broker/uptime"]) = 2.
Proof. vm_compute. split; reflexivity. Qed.

(* C38-2b (fixed by ed068ea, with C15-1): clearExpiredClients removed the session from Clients and
   left its in-flight messages counted *)
Definition expire_client_old (s : st) (id : bytes) : st := with_clients s (drop id (s_clients s)).

Lemma expire_client_old_drifts :
  n_infl (expire_client_old s_good A) = 1 /\ act_infl (expire_client_old s_good A) = 0.
Proof. vm_compute. split; reflexivity. Qed.

(* the repaired operations on the same state keep the equality *)
Lemma fixed_ops_ok :
  stats_ok (step s_good (OConnect A false 4 true)) /\
  stats_ok (step s_good (OExpireRetained [T1])) /\
  stats_ok (step s_good (OSysTick [tag "$SYS/broker/uptime"])) /\
  stats_ok (step s_good (OExpireClients [A])) /\
  stats_ok (deliver s_good (A, 2%N, 1%N)).
Proof. vm_compute. repeat split; discriminate. Qed.
