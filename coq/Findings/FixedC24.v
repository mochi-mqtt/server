(* The pre-fix alias handling (pinned commit f01d2fe) — kept only to document the repaired defects
   C24-1, C24-2 (deferral part) and C24-3. *)
From MV Require Import Base.Val Session.Pkt Session.Alias.
Open Scope N_scope.

(* Outbound, before 8111849: publishToClient chose the alias BEFORE storing the in-flight copy,
   so the stored copy carried (topic "" + alias) whenever the alias already existed, and a message
   held back by flow control had recorded its binding without announcing it. *)
Inductive oev_old :=
| OQueue (topic : bytes)                 (* alias chosen, stored, queued and written *)
| ODefer (topic : bytes)                 (* alias chosen, stored, held back (send quota 0): nothing written *)
| OWriteStored (w : wire).               (* a stored copy written verbatim (resend / deferred send) *)

Definition stored_form (t : otab) (topic : bytes) : wire * otab :=
  let '(a, ex, t') := out_set t topic in ((topic, if (0 <? a) && ex then [] else topic, a), t').

Definition out_step_old (t : otab) (e : oev_old) : otab * list wire :=
  match e with
  | OQueue topic => let '(w, t') := stored_form t topic in (t', [w])
  | ODefer topic => let '(_, t') := stored_form t topic in (t', [])
  | OWriteStored w => (t, [w])
  end.

Fixpoint out_run_old (t : otab) (evs : list oev_old) : list wire :=
  match evs with [] => [] | e :: r => let '(t', w) := out_step_old t e in w ++ out_run_old t' r end.

Definition TA : bytes := tag "q1/a".

(* C24-1: two QoS 1 messages for one topic reach a subscriber (Topic Alias Maximum 1); the second is
   stored as ("" , alias 1).  The subscriber reconnects: the new connection has an empty alias table and
   receives the stored copies verbatim — the second one cannot be resolved. *)
Lemma c24_1_resend_unresolvable :
  let first_connection := out_run_old (oinit 1) [OQueue TA; OQueue TA] in
  first_connection = [(TA, TA, 1); (TA, [], 1)] /\
  recv_ok 1 [] first_connection = true /\
  (* the copies stored during the first connection, written on the second one in map order *)
  recv_ok 1 [] (out_run_old (oinit 1) [OWriteStored (TA, [], 1); OWriteStored (TA, TA, 1)]) = false.
Proof. vm_compute. repeat split. Qed.

(* C24-2 (deferral): the first message for the topic is held back by flow control after its alias
   was recorded; the next one (QoS 0, not subject to the quota) is written with the alias only. *)
Lemma c24_2_deferred_binding :
  recv_ok 1 [] (out_run_old (oinit 1) [ODefer TA; OQueue TA]) = false.
Proof. vm_compute. reflexivity. Qed.

(* the repaired order on the same scenarios *)
Lemma c24_fixed_same_scenarios :
  recv_ok 1 [] (out_run (oinit 1) [EStored TA; EStored TA]) = true /\
  recv_ok 1 [] (out_run (oinit 1) [EQueue TA true; EStored TA]) = true.
Proof. vm_compute. split; reflexivity. Qed.

(* Inbound, before de3df06: InboundTopicAliases.Set recorded and returned "" for an alias that
   was never bound, and processPublish routed the message under topic "". *)
Definition in_set_old (t : itab) (id : N) (topic : bytes) : bytes * itab :=
  if i_max t =? 0 then (topic, t)
  else match lookup_a id (i_map t) with
       | Some x => if is_empty topic then (x, t)
                   else (topic, {| i_max := i_max t; i_map := set_a id topic (i_map t) |})
       | None => (topic, {| i_max := i_max t; i_map := set_a id topic (i_map t) |})
       end.

Definition in_step_old (t : itab) (topic : bytes) (alias : N) : inres * itab :=
  if i_max t <? alias then (IReject, t)
  else if is_empty topic && (alias =? 0) then (IReject, t)
  else if alias =? 0 then (IRoute topic, t)
  else let '(tp, t') := in_set_old t alias topic in (IRoute tp, t').

Lemma c24_3_unbound_alias_routed :
  fst (in_step_old (iinit 5) [] 3) = IRoute [] /\ spec_in 5 [] [] 3 = IReject /\
  fst (in_step (iinit 5) [] 3) = IReject.
Proof. vm_compute. repeat split. Qed.
