(* The persistence path before the repairs recorded in findings.d/C20.json and C21.json (pinned
   commit f01d2fe), kept only to document the repaired defects.  One witness each for
     C20-1  updateClient did not persist SessionExpiryIntervalFlag / RequestProblemInfoFlag;
     C20-3  the expiry time and protocol version of a message are not stored and were not recomputed
            on load: a restored message never expired by its own interval;
     C21-2  loadSubscriptions put subscriptions of client ids without a restored session into the index;
     C21-3  OnWillSent / OnDisconnect of a taken-over client rewrote the client record of the session
            that took over;
   no witness here for
     C20-4  PayloadFormatFlag of retained and in-flight messages was not persisted;
     C17-3  subscriptions refused with a reason code >= 0x80 were persisted with Qos = the code.
   (C20-5: OnUnsubscribed was called for an UNSUBSCRIBE refused with 0x91; C20-6: processPubrec did
   not report the PUBREL replacing the in-flight PUBLISH; C21-1: a take-over reported the inherited
   in-flight messages as dropped: these are in server.go, the hook model is unchanged by them.) *)
From MV Require Import Base.Val Storage.Kv Storage.StoreHooks Storage.Restart.
Open Scope N_scope.

Definition client_rec_prefix (c : client_rec) : client_rec :=
  mkClientRec (cr_id c) (cr_listener c) (cr_remote c) (cr_username c) (cr_clean c) (cr_ver c) (cr_sei c) false
              (cr_rpi c) false (cr_props c) (cr_will c).

Definition c1 : client_rec := mkClientRec (tag "a") (tag "t") [] [] false 5 60 true 0 true (VL []) (VL []).

(* C20-1: the stored record has lost both flags; clearExpiredClients then applies the server's
   maximum session expiry instead of the client's 60 seconds *)
Lemma prefix_flags_lost : cr_sei_flag (client_rec_prefix c1) = false /\ cr_rpi_flag (client_rec_prefix c1) = false.
Proof. split; reflexivity. Qed.

(* C20-3: ToPacket alone: no expiry time, protocol version 0 *)
Definition to_packet_prefix (m : msg_rec) : pkt :=
  mkPkt (mr_fh m) (mr_pid m) (mr_topic m) (mr_payload m) (mr_origin m) (mr_created m) 0%Z 0
        (mr_pf m) (mr_pf_flag m) (mr_mei m) (mr_props m).

Definition p1 : pkt := mkPkt (VL [VN 3; VN 1; VN 0; VN 1; VN 9]) 0 (tag "t") (tag "x") (tag "o") 1000 1005%Z 5 1 true 5 (VL []).

Lemma prefix_expiry_lost :
  deadline 86400 p1 = Some 1005%Z /\
  deadline 86400 (to_packet_prefix (retained_record (tag "o") p1)) = Some 87400%Z /\
  deadline 86400 (to_packet 86400 (retained_record (tag "o") p1)) = Some 1005%Z.
Proof. vm_compute. repeat split. Qed.

(* C21-2: subscriptions restored whether or not their client was *)
Definition load_subs_prefix (ss : list sub_rec) : amap sub_key subscription :=
  fold_left (fun m s => aset sub_key_eqb (sr_client s, sr_filter s)
                          (mkSub (sr_filter s) (sr_identifier s) (sr_rh s) (sr_qos s) (sr_rap s) (sr_nolocal s)) m) ss [].

Definition orphan : sub_rec := mkSubRec (tag "SUB_gone:a/b") (tag "gone") (tag "a/b") 0 0 1 false false.

Lemma prefix_orphan_restored :
  aget sub_key_eqb (tag "gone", tag "a/b") (load_subs_prefix [orphan]) <> None /\
  aget sub_key_eqb (tag "gone", tag "a/b") (load_subs [] [orphan]) = None.
Proof. vm_compute. split; [discriminate | reflexivity]. Qed.

(* C21-3: the record written for a taken-over client replaced the one of the live session *)
Definition old_conn : client_rec := mkClientRec (tag "a") (tag "t") [] [] false 5 0 true 0 false (VL []) (VL []).
Definition new_conn : client_rec := mkClientRec (tag "a") (tag "t") [] [] false 5 3600 true 0 false (VL []) (VL []).

Lemma prefix_takeover_clobbers :
  (* new connection established, then the old connection's OnDisconnect: before the repair one more
     ASetClient, which leaves the old record (session expiry 0: dropped at restart) *)
  spec_session (arun [ASetClient new_conn; ASetClient old_conn]) (tag "a") = None /\
  spec_session (arun (awrites_of [ESessionEstablished (mkRClient new_conn false);
                                  EDisconnect (mkRClient old_conn true) true])) (tag "a") <> None.
Proof. vm_compute. split; [reflexivity | discriminate]. Qed.
