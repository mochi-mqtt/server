(* The pre-fix IsValidFilter (pinned commit f01d2fe, topics.go:707-745) — kept only to document the
   repaired defects C30-1/2 (wildcard inside a level, empty share name / empty filter after the share
   name accepted), C30-3 ('$SYS' test case-insensitive) and C30-4 (share rules applied to publish
   topic names). *)
From Coq Require Import String.
From MV Require Import Base.Val Topics.Valid.
Open Scope N_scope.
Open Scope list_scope.

(* wildhash >= 0 && wildhash != len-1 *)
Fixpoint hash_check_prefix (s : bytes) : bool :=
  match s with
  | [] => true
  | c :: r => if c =? 35 then nilb r else hash_check_prefix r
  end.

(* len(filter) >= 4 && strings.EqualFold(filter[0:4], "$SYS"): a 4-byte slice can only fold to the
   4 ASCII runes of "$SYS" if it consists of 4 ASCII bytes *)
Definition sys_fold4 (s : bytes) : bool :=
  match s with
  | a :: b :: c :: d :: _ =>
      (a =? 36) && ((b =? 83) || (b =? 115)) && ((c =? 89) || (c =? 121)) && ((d =? 83) || (d =? 115))
  | _ => false
  end.

Definition is_valid_filter_prefix (s : bytes) (for_publish : bool) : bool :=
  if negb for_publish && nilb s then false
  else if for_publish && sys_fold4 s then false
  else if for_publish && (contains_rune s 43 || contains_rune s 35) then false
  else if negb (hash_check_prefix s) then false
  else
    let (prefix, has_next) := isolate_particle 0 s in
    if negb has_next && equal_fold_share prefix then false
    else if has_next && equal_fold_share prefix then
      let (group, has_next2) := isolate_particle 1 s in
      if negb has_next2 then false
      else if contains_rune group 43 || contains_rune group 35 then false
      else true
    else true.

Definition B (s : string) : bytes := bytes_of_string s.

Lemma prefix_accepts_wildcard_inside_level :
  is_valid_filter_prefix (B "a/b#") false = true /\ valid_filter_spec (B "a/b#") = false /\
  is_valid_filter_prefix (B "a+") false = true /\ valid_filter_spec (B "a+") = false.
Proof. vm_compute. repeat split. Qed.

Lemma prefix_accepts_empty_share_parts :
  is_valid_filter_prefix (B "$share//t") false = true /\ valid_filter_spec (B "$share//t") = false /\
  is_valid_filter_prefix (B "$share/g/") false = true /\ valid_filter_spec (B "$share/g/") = false.
Proof. vm_compute. repeat split. Qed.

Lemma prefix_refuses_lowercase_sys :
  is_valid_filter_prefix (B "$sys/x") true = false /\ valid_pub_topic_spec (B "$sys/x") = true.
Proof. vm_compute. repeat split. Qed.

Lemma prefix_refuses_share_topic_names :
  is_valid_filter_prefix (B "$share") true = false /\ valid_pub_topic_spec (B "$share") = true /\
  is_valid_filter_prefix (B "$share/g") true = false /\ valid_pub_topic_spec (B "$share/g") = true.
Proof. vm_compute. repeat split. Qed.
