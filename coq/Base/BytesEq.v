(* beq_bytes decides equality of byte strings. *)
From MV Require Import Base.Val.
Open Scope N_scope.

Lemma beq_bytes_eq (a b : bytes) : beq_bytes a b = true <-> a = b.
Proof.
  revert b. induction a as [|x a IH]; intros [|y b]; cbn [beq_bytes]; try (split; [discriminate|congruence]).
  - split; reflexivity.
  - rewrite andb_true_iff, N.eqb_eq, IH. split; [intros [-> ->]; reflexivity|intro E; injection E; auto].
Qed.

Lemma beq_bytes_refl (a : bytes) : beq_bytes a a = true.
Proof. apply beq_bytes_eq. reflexivity. Qed.

Lemma beq_bytes_neq (a b : bytes) : beq_bytes a b = false <-> a <> b.
Proof. rewrite <- beq_bytes_eq. destruct (beq_bytes a b); split; congruence. Qed.

Lemma beq_bytes_sym (a b : bytes) : beq_bytes a b = beq_bytes b a.
Proof.
  destruct (beq_bytes b a) eqn:E.
  - apply beq_bytes_eq in E. subst. apply beq_bytes_refl.
  - apply beq_bytes_neq. apply beq_bytes_neq in E. congruence.
Qed.

Lemma beq_bytes_app (p a b : bytes) : beq_bytes (p ++ a) (p ++ b) = beq_bytes a b.
Proof.
  induction p as [|x p IH]; cbn [app beq_bytes]; [reflexivity|]. rewrite N.eqb_refl, IH. reflexivity.
Qed.
