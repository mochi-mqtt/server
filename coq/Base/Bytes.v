(* Arithmetic helper lemmas on N used by the codec proofs: a property checked on 0..n-1 holds below n
   (forall_below, for sweeps over the 256 byte values), the two masks 127 and 128 of a variable byte
   integer, and lor of disjoint bit ranges as addition. *)
From MV Require Import Base.Val.
From Coq Require Import Lia.
Open Scope N_scope.

(* [0; 1; ...; n-1] as N, built from nat so that it is structurally recursive *)
Definition rangeN (n : nat) : list N := map N.of_nat (seq 0 n).

Lemma rangeN_in (n : nat) (x : N) : x < N.of_nat n -> In x (rangeN n).
Proof.
  intro H. unfold rangeN. apply in_map_iff. exists (N.to_nat x). split.
  - apply N2Nat.id.
  - apply in_seq. lia.
Qed.

Lemma forall_below (P : N -> bool) (n : nat) :
  forallb P (rangeN n) = true -> forall x, x < N.of_nat n -> P x = true.
Proof.
  intros H x Hx. rewrite forallb_forall in H. apply H. apply rangeN_in. exact Hx.
Qed.

Lemma byte_land127 (b : N) : N.land b 127 = b mod 128.
Proof. exact (N.land_ones b 7). Qed.

(* by exhaustive sweep over the 256 byte values, lifted with forall_below *)
Lemma byte_land128 (b : N) : b < 256 -> (N.land b 128 =? 0) = (b <? 128).
Proof.
  intro H.
  assert (S : forallb (fun b => Bool.eqb (N.land b 128 =? 0) (b <? 128)) (rangeN 256) = true)
    by (vm_compute; reflexivity).
  pose proof (forall_below _ 256 S b H) as E. cbv beta in E. apply Bool.eqb_prop in E. exact E.
Qed.

Lemma land_low_high (a c k : N) : a < 2 ^ k -> N.land a (c * 2 ^ k) = 0.
Proof.
  intro H. apply N.bits_inj. intro i. rewrite N.land_spec, N.bits_0.
  destruct (N.lt_ge_cases i k) as [Hi | Hi].
  - rewrite N.mul_pow2_bits_low by exact Hi. apply andb_false_r.
  - assert (Ha : N.testbit a i = false).
    { destruct (N.eq_dec a 0) as [-> | Hnz]; [apply N.bits_0|].
      apply N.bits_above_log2. apply N.log2_lt_pow2; [lia|].
      eapply N.lt_le_trans; [exact H|]. apply N.pow_le_mono_r; lia. }
    rewrite Ha. reflexivity.
Qed.

Lemma lor_add_disjoint (a c k : N) : a < 2 ^ k -> N.lor a (c * 2 ^ k) = a + c * 2 ^ k.
Proof.
  intro H. pose proof (land_low_high a c k H) as L.
  rewrite <- N.lxor_lor by exact L. symmetry. apply N.add_nocarry_lxor. exact L.
Qed.

Lemma small_lor128 (b : N) : b < 128 -> N.lor b 128 = b + 128.
Proof. exact (lor_add_disjoint b 1 7). Qed.
