(* Facts about existsb, forallb, NoDup, Permutation, Forall2, flat_map, folds and sums over lists that the standard
   library lacks, and the two tactics that open and close a conjunction of boolean tests. *)
From Coq Require Import List Bool Permutation ZArith Lia.
Import ListNotations.

Ltac split_and :=
  repeat match goal with
  | H : _ && _ = true |- _ => apply andb_prop in H; destruct H
  end.
Ltac join_and := repeat match goal with |- _ && _ = true => apply andb_true_intro; split end.

Lemma forallb_imp {A} (f g : A -> bool) l : (forall a, f a = true -> g a = true) ->
  forallb f l = true -> forallb g l = true.
Proof.
  intros H F. rewrite forallb_forall in *. intros a Ha. apply H. apply F. exact Ha.
Qed.

Lemma forallb_perm {A} (f : A -> bool) l l' : Permutation l l' -> forallb f l = forallb f l'.
Proof.
  induction 1 as [|a l l' H IH|a b l|l l' l'' H1 IH1 H2 IH2]; cbn [forallb].
  - reflexivity.
  - rewrite IH. reflexivity.
  - destruct (f a); destruct (f b); reflexivity.
  - rewrite IH1. exact IH2.
Qed.

Lemma existsb_false_In {A} (f : A -> bool) (l : list A) (x : A) : existsb f l = false -> In x l -> f x = false.
Proof.
  intros H I. destruct (f x) eqn:E; [|reflexivity].
  rewrite <- H. symmetry. apply existsb_exists. exists x. split; assumption.
Qed.

Lemma existsb_incl {A} (f : A -> bool) (l1 l2 : list A) : incl l1 l2 -> existsb f l2 = false -> existsb f l1 = false.
Proof.
  intros I H. destruct (existsb f l1) eqn:E; [|reflexivity].
  apply existsb_exists in E. destruct E as [x [Ix Fx]]. rewrite <- Fx. exact (existsb_false_In f l2 x H (I x Ix)).
Qed.

Lemma NoDup_map_inj {A B} (g : A -> B) l x y : NoDup (map g l) -> In x l -> In y l -> g x = g y -> x = y.
Proof.
  induction l as [|z l IH]; cbn; intros ND HX HY E; [contradiction|]. apply NoDup_cons_iff in ND. destruct ND as [NI ND].
  destruct HX as [->|HX]; destruct HY as [->|HY]; try reflexivity.
  - exfalso. apply NI. rewrite E. apply in_map. exact HY.
  - exfalso. apply NI. rewrite <- E. apply in_map. exact HX.
  - apply IH; assumption.
Qed.

Lemma existsb_perm {A} (p : A -> bool) (l l' : list A) : Permutation l l' -> existsb p l = existsb p l'.
Proof.
  induction 1 as [|x l l' _ IH|x y l|l l' l'' _ IH1 _ IH2]; cbn [existsb].
  - reflexivity.
  - rewrite IH. reflexivity.
  - destruct (p x); destruct (p y); reflexivity.
  - rewrite IH1. exact IH2.
Qed.

Lemma existsb_eqb_In {A} (eqb : A -> A -> bool) (eqb_eq : forall a b, eqb a b = true <-> a = b) x l :
  existsb (eqb x) l = true <-> In x l.
Proof.
  rewrite existsb_exists. split.
  - intros [y [HI E]]. apply eqb_eq in E. subst. exact HI.
  - intro HI. exists x. split; [exact HI|apply eqb_eq; reflexivity].
Qed.

Lemma NoDup_app_intro {A} (l1 l2 : list A) :
  NoDup l1 -> NoDup l2 -> (forall x, In x l1 -> In x l2 -> False) -> NoDup (l1 ++ l2).
Proof.
  induction l1 as [|x l1 IH]; cbn; intros N1 N2 D; [exact N2|]. apply NoDup_cons_iff in N1. destruct N1 as [NI N1].
  constructor.
  - intro HI. apply in_app_or in HI. destruct HI as [HI|HI]; [contradiction|]. apply (D x); [left; reflexivity|exact HI].
  - apply IH; [exact N1|exact N2|]. intros y H1 H2. apply (D y); [right; exact H1|exact H2].
Qed.

Lemma NoDup_app_disj {A} {l r : list A} {x} : NoDup (l ++ r) -> In x l -> In x r -> False.
Proof.
  induction l as [|y l IH]; intros N Il Ir; [destruct Il|]. cbn [app] in N. inversion N as [|? ? NI Nd]; subst.
  destruct Il as [->|Il]; [apply NI; apply in_or_app; right; exact Ir|exact (IH Nd Il Ir)].
Qed.

Lemma NoDup_app_r {A} (l r : list A) : NoDup (l ++ r) -> NoDup r.
Proof. induction l as [|y l IH]; intros N; [exact N|]. inversion N; subst. apply IH. assumption. Qed.

Lemma NoDup_app_l {A} (l r : list A) : NoDup (l ++ r) -> NoDup l.
Proof.
  induction l as [|x l IH]; intros N; [constructor|]. cbn [app] in N. inversion N as [|? ? NI Nd]; subst.
  constructor; [intros X; apply NI; apply in_or_app; left; exact X|exact (IH Nd)].
Qed.

Lemma NoDup_map_filter {A B} (g : A -> B) (p : A -> bool) l : NoDup (map g l) -> NoDup (map g (filter p l)).
Proof.
  induction l as [|x l IH]; cbn; intro ND; [constructor|]. apply NoDup_cons_iff in ND. destruct ND as [NI ND].
  destruct (p x); cbn; [constructor|]; auto.
  intro HI. apply NI. apply in_map_iff in HI. destruct HI as [y [E HI]]. apply filter_In in HI.
  apply in_map_iff. exists y. tauto.
Qed.

Lemma filter_perm {A} (f : A -> bool) l l' : Permutation l l' -> Permutation (filter f l) (filter f l').
Proof.
  induction 1; cbn.
  - reflexivity.
  - destruct (f x); [constructor|]; assumption.
  - destruct (f x), (f y); try reflexivity. apply perm_swap.
  - etransitivity; eassumption.
Qed.

Lemma Forall2_nth_error {A B} {R : A -> B -> Prop} {l l' n x} :
  Forall2 R l l' -> nth_error l n = Some x -> exists y, nth_error l' n = Some y /\ R x y.
Proof.
  intros H; revert n; induction H as [|a b l l' Hab H IH]; intros [|n] Hn; cbn in *; try discriminate.
  - inversion Hn; subst; eauto.
  - eauto.
Qed.

Lemma fold_left_invariant {S A} (f : S -> A -> S) (P : S -> Prop) :
  (forall s a, P s -> P (f s a)) -> forall l s, P s -> P (fold_left f l s).
Proof. intros H l; induction l as [|a r IH]; intros s Hs; cbn; auto. Qed.

Definition sumZ {A} (f : A -> Z) : list A -> Z :=
  fix sum l := match l with [] => 0%Z | x :: r => (f x + sum r)%Z end.

Lemma sumZ_nonneg {A} (f : A -> Z) l : (forall x, 0 <= f x)%Z -> (0 <= sumZ f l)%Z.
Proof. intro H. induction l as [|x r IH]; cbn; [reflexivity|]. apply Z.add_nonneg_nonneg; auto. Qed.

Definition b2z (b : bool) : Z := if b then 1%Z else 0%Z.

Lemma b2z_nonneg b : (0 <= b2z b)%Z.
Proof. destruct b; cbn; lia. Qed.

Lemma sumZ_le {A} (f g : A -> Z) l : (forall x, In x l -> f x <= g x)%Z -> (sumZ f l <= sumZ g l)%Z.
Proof.
  induction l as [|x r IH]; cbn; intro H; [lia|]. pose proof (H x (or_introl eq_refl)).
  pose proof (IH (fun y I => H y (or_intror I))). lia.
Qed.

Lemma sumZ_ext_in {A} (f g : A -> Z) l : (forall x, In x l -> f x = g x) -> sumZ f l = sumZ g l.
Proof. intro H. apply Z.le_antisymm; apply sumZ_le; intros x I; rewrite (H x I); lia. Qed.

Lemma sumZ_map {A B} (f : B -> Z) (g : A -> B) l : sumZ f (map g l) = sumZ (fun x => f (g x)) l.
Proof. induction l as [|x r IH]; cbn; [reflexivity|]. now rewrite IH. Qed.

Section Nonneg.
  Context {A : Type} (f : A -> Z) (Hf : forall x, (0 <= f x)%Z).

  Lemma sumZ_nth_le l n x : nth_error l n = Some x -> (f x <= sumZ f l)%Z.
  Proof.
    revert n; induction l as [|y r IH]; intros [|n] H; cbn in *; try discriminate.
    - inversion H; subst. pose proof (sumZ_nonneg f r Hf). lia.
    - specialize (IH _ H). specialize (Hf y). lia.
  Qed.

  Lemma sumZ_two_le l i j x y :
    nth_error l i = Some x -> nth_error l j = Some y -> i <> j -> (f x + f y <= sumZ f l)%Z.
  Proof.
    revert i j; induction l as [|z r IH]; intros [|i] [|j] Hi Hj Hne; cbn in *; try discriminate; try congruence.
    - inversion Hi; subst. pose proof (sumZ_nth_le r j y Hj). lia.
    - inversion Hj; subst. pose proof (sumZ_nth_le r i x Hi). lia.
    - specialize (IH i j Hi Hj ltac:(congruence)). specialize (Hf z). lia.
  Qed.

  Lemma sumZ_zero l : sumZ f l = 0%Z <-> forall x, In x l -> f x = 0%Z.
  Proof.
    induction l as [|y r IH]; cbn; [tauto|]. pose proof (sumZ_nonneg f r Hf) as P. pose proof (Hf y) as Q. split.
    - intros H x [<-|I]; [lia|]. apply IH; [lia|exact I].
    - intro H. rewrite (H y (or_introl eq_refl)), (proj2 IH (fun x I => H x (or_intror I))). reflexivity.
  Qed.
End Nonneg.

Definition countZ {A} (p : A -> bool) : list A -> Z := sumZ (fun x => b2z (p x)).

Lemma countZ_cons {A} (p : A -> bool) x l : countZ p (x :: l) = (b2z (p x) + countZ p l)%Z.
Proof. reflexivity. Qed.

Lemma countZ_nonneg {A} (p : A -> bool) l : (0 <= countZ p l)%Z.
Proof. apply sumZ_nonneg. intro. apply b2z_nonneg. Qed.

Lemma countZ_filter {A} (p : A -> bool) l : Z.of_nat (length (filter p l)) = countZ p l.
Proof. induction l as [|x r IH]; cbn; [reflexivity|]. destruct (p x); cbn [length b2z]; lia. Qed.

Lemma countZ_existsb {A} (p : A -> bool) l : existsb p l = false <-> countZ p l = 0%Z.
Proof.
  unfold countZ. rewrite (sumZ_zero _ (fun x => b2z_nonneg (p x))). split.
  - intros H x I. rewrite (existsb_false_In p l x H I). reflexivity.
  - intro H. destruct (existsb p l) eqn:E; [|reflexivity]. apply existsb_exists in E. destruct E as (x & I & E).
    specialize (H x I). rewrite E in H. discriminate.
Qed.

Lemma flat_map_nil {A B} (f : A -> list B) l : (forall a, In a l -> f a = []) -> flat_map f l = [].
Proof.
  intro H. induction l as [|a r IH]; cbn; [reflexivity|]. rewrite (H a (or_introl eq_refl)). apply IH.
  intros b I. apply H. right. exact I.
Qed.

Lemma fold_left_ext {A B} (f g : A -> B -> A) l a : (forall x y, f x y = g x y) -> fold_left f l a = fold_left g l a.
Proof. intro H. revert a. induction l as [|y l IH]; intro a; cbn [fold_left]; [reflexivity|]. rewrite H. apply IH. Qed.

Lemma fold_left_map {A B C} (f : A -> C -> A) (g : B -> C) l a :
  fold_left f (map g l) a = fold_left (fun x y => f x (g y)) l a.
Proof. revert a. induction l as [|y l IH]; intro a; cbn [fold_left map]; [reflexivity | apply IH]. Qed.

Lemma Forall_flat_map_in {A B} (f : A -> list B) (P : B -> Prop) l :
  (forall a, In a l -> Forall P (f a)) -> Forall P (flat_map f l).
Proof.
  intro H. induction l as [|a r IH]; cbn; [constructor|]. apply Forall_app. split; [apply H; left; reflexivity|].
  apply IH. intros b I. apply H. right. exact I.
Qed.

Lemma app_nils {A} (a b : list A) : a = [] -> b = [] -> a ++ b = [].
Proof. intros -> ->. reflexivity. Qed.

Lemma if_true_nil {A} (b : bool) (l : list A) : b = true -> (if b then [] else l) = [].
Proof. intros ->. reflexivity. Qed.

Lemma filter_flat_map {A B} (P : B -> bool) (F : A -> list B) l :
  filter P (flat_map F l) = flat_map (fun x => filter P (F x)) l.
Proof. induction l as [|x l IH]; cbn [flat_map]; [reflexivity|]. rewrite filter_app, IH. reflexivity. Qed.

Lemma filter_map_swap {A B} (P : B -> bool) (f : A -> B) l : filter P (map f l) = map f (filter (fun x => P (f x)) l).
Proof. induction l as [|x l IH]; cbn [map filter]; [reflexivity|]. rewrite IH. destruct (P (f x)); reflexivity. Qed.

Lemma flat_map_flat_map {A B C} (G : B -> list C) (F : A -> list B) l :
  flat_map G (flat_map F l) = flat_map (fun x => flat_map G (F x)) l.
Proof. induction l as [|x l IH]; cbn [flat_map]; [reflexivity|]. rewrite flat_map_app, IH. reflexivity. Qed.

Lemma flat_map_ext_in {A B} (F G : A -> list B) l : (forall x, In x l -> F x = G x) -> flat_map F l = flat_map G l.
Proof.
  induction l as [|x l IH]; intro H; cbn [flat_map]; [reflexivity|].
  rewrite (H x (or_introl eq_refl)), IH; [reflexivity|]. intros y HI. apply H. right. exact HI.
Qed.

Lemma NoDup_flat_map {A B K} (ka : A -> K) (kb : B -> K) (G : A -> list B) l :
  NoDup (map ka l) -> (forall a, In a l -> NoDup (G a)) -> (forall a b, In a l -> In b (G a) -> kb b = ka a) ->
  NoDup (flat_map G l).
Proof.
  induction l as [|a l IH]; intros ND HG HK; cbn [flat_map]; [constructor|]. inversion ND as [|? ? NI ND']; subst.
  apply NoDup_app_intro; [apply HG; left; reflexivity| |].
  { apply IH; [exact ND'|intros a' HI; apply HG; right; exact HI|intros a' b HI; apply HK; right; exact HI]. }
  intros b Ha Hb. apply in_flat_map in Hb. destruct Hb as (a' & HI & Hb). apply NI.
  rewrite <- (HK a b (or_introl eq_refl) Ha), (HK a' b (or_intror HI) Hb). apply in_map. exact HI.
Qed.
