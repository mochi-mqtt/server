(* Generic lemmas about Base/Sched.v: invariants proved for one schedule entry hold after every
   schedule; facts about its list update [set_nth]. *)
From Coq Require Import List Arith Bool ZArith Lia.
From MV Require Import Base.ListMisc Base.Sched.
Import ListNotations.

Lemma set_nth_length {A} n (x : A) l : length (set_nth n x l) = length l.
Proof. revert n; induction l as [|y r IH]; intros [|n]; cbn; auto. Qed.

Lemma nth_error_set_nth_eq {A} n (x : A) l :
  nth_error (set_nth n x l) n = option_map (fun _ => x) (nth_error l n).
Proof. revert n; induction l as [|y r IH]; intros [|n]; cbn; auto. Qed.

Lemma nth_error_set_nth_neq {A} n m (x : A) l : n <> m -> nth_error (set_nth n x l) m = nth_error l m.
Proof.
  revert n m; induction l as [|y r IH]; intros [|n] [|m] H; cbn; auto; try congruence.
Qed.

Lemma set_nth_none {A} n (x : A) l : nth_error l n = None -> set_nth n x l = l.
Proof.
  revert n; induction l as [|y r IH]; intros [|n] H; cbn in *; auto; try discriminate.
  now rewrite IH.
Qed.

Lemma In_set_nth {A} n (x y : A) l : In y (set_nth n x l) -> y = x \/ In y l.
Proof.
  revert n; induction l as [|z r IH]; intros [|n] H; cbn in *; try tauto.
  - destruct H as [H|H]; auto.
  - destruct H as [H|H]; [auto|]. destruct (IH _ H); auto.
Qed.

Lemma Forall_set_nth {A} (P : A -> Prop) n x l : Forall P l -> P x -> Forall P (set_nth n x l).
Proof. intros H; revert n; induction H; intros [|n] Hx; cbn; constructor; auto. Qed.

Lemma Forall2_set_nth {A B} (R : A -> B -> Prop) n x y l l' :
  Forall2 R l l' -> R x y -> Forall2 R (set_nth n x l) (set_nth n y l').
Proof.
  intros H; revert n; induction H as [|a b l l' Hab H IH]; intros [|n] Hxy; cbn; constructor; auto.
Qed.

Lemma Forall2_set_nth_l {A B} (R : A -> B -> Prop) n x y l l' :
  Forall2 R l l' -> nth_error l' n = Some y -> R x y -> Forall2 R (set_nth n x l) l'.
Proof.
  intros H; revert n; induction H as [|a b l l' Hab H IH]; intros n Hn Hxy.
  - destruct n; discriminate.
  - destruct n as [|n]; cbn in *.
    + inversion Hn; subst. constructor; auto.
    + constructor; eauto.
Qed.

Lemma sumZ_set_nth {A} (f : A -> Z) n x y l :
  nth_error l n = Some y -> sumZ f (set_nth n x l) = (sumZ f l - f y + f x)%Z.
Proof.
  revert n; induction l as [|z r IH]; intros [|n] H; cbn in *; try discriminate.
  - inversion H; subst. lia.
  - rewrite (IH _ H). lia.
Qed.

Section SchedFacts.
  Variables St In : Type.
  Variable exec : tid -> In -> St -> outcome St.

  Lemma run_invariant (P : cfg St In -> Prop) :
    (forall t c, P c -> P (step exec t c)) ->
    forall sched c, P c -> P (run exec sched c).
  Proof. intros Hstep sched; induction sched as [|t r IH]; intros c Hc; cbn; auto. Qed.

  Lemma step_cases t (c : cfg St In) :
    step exec t c = c \/
    exists i rest, nth_error (threads c) t = Some (i :: rest) /\
      ((exists s, exec t i (shared c) = Continue s /\ step exec t c = mkCfg s (set_nth t rest (threads c))) \/
       (exists s, exec t i (shared c) = Halt s /\ step exec t c = mkCfg s (set_nth t [] (threads c)))).
  Proof.
    unfold step, step_thread.
    destruct (nth_error (threads c) t) as [[|i rest]|] eqn:E; auto.
    destruct (exec t i (shared c)) as [|s|s] eqn:X; auto; right; exists i, rest; split; auto; [left|right]; eauto.
  Qed.

  Lemma run_trace_length sched (c : cfg St In) : length (run_trace exec sched c) = length sched.
  Proof.
    revert c; induction sched as [|t r IH]; intro c; cbn; auto.
    destruct (step_thread exec t c); cbn; auto.
  Qed.

  Lemma run_trace_nth sched (c : cfg St In) n b c' :
    nth_error (run_trace exec sched c) n = Some (b, c') -> c' = run exec (firstn (Datatypes.S n) sched) c.
  Proof.
    revert c n; induction sched as [|t r IH]; intros c n H; cbn in H.
    - destruct n; discriminate.
    - unfold step in *. cbn [firstn run]. unfold step.
      destruct (step_thread exec t c) as [c1 b1] eqn:E. destruct n as [|n]; cbn in H.
      + inversion H; subst. destruct r; reflexivity.
      + cbn [fst]. apply IH in H. exact H.
  Qed.
End SchedFacts.
Arguments run_invariant {St In}.
Arguments step_cases {St In}.

Definition result {St} (o : outcome St) : option St :=
  match o with Blocked => None | Continue s | Halt s => Some s end.

Lemma run_shared_invariant {St In} (exec : tid -> In -> St -> outcome St) (P : St -> Prop) :
  (forall t i s s', P s -> result (exec t i s) = Some s' -> P s') ->
  forall sched (c : cfg St In), P (shared c) -> P (shared (run exec sched c)).
Proof.
  intros Hexec. apply (run_invariant exec (fun c => P (shared c))). intros t c H.
  destruct (step_cases exec t c) as [->|(i & rest & _ & [(s & Hx & ->)|(s & Hx & ->)])]; auto;
    apply (Hexec t i (shared c)); auto; rewrite Hx; reflexivity.
Qed.
