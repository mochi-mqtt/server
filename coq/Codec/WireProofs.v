(* Facts about the byte-level definitions of Wire.v that the codec proofs share.  Every decoder of
   codec.go looks only at the bytes from its offset on: each is characterised once, as a function
   of that suffix, and what the proofs use (no panic, offsets inside the buffer, ranges of the values
   read, the result on a known suffix) follows from the characterisation.  Also here: [post], the
   outcome of a decoder that neither panics nor runs out of fuel; the cursor [cur] that the proofs
   over reference encodings move along a buffer; DecodeLength on a buffer. *)
From MV Require Export Base.ListMisc.
From MV Require Import Base.Val Codec.Vbi Codec.VbiProofs Codec.Wire.
From Coq Require Import Lia ZifyBool ZifyN ZifyNat.
Open Scope N_scope.

(* case analysis on an N that is the scrutinee of a [match] with numeral patterns below 64 ([case6]) or
   below 16 ([case4]): one goal for each such value; in the goals for the larger values the [match]
   reduces to its default branch *)
Ltac case_pos q n :=
  match n with
  | O => idtac
  | S ?m => destruct q as [q|q|]; [case_pos q m | case_pos q m | idtac]
  end.
Ltac case6 k := let q := fresh "q" in destruct k as [|q]; [|case_pos q 6%nat].
Ltac case4 k := let q := fresh "q" in destruct k as [|q]; [|case_pos q 4%nat].

Definition post {A} (r : res A) (Q : A -> Prop) : Prop :=
  match r with Ok a => Q a | Err _ => True | Panic => False | Fuel => False end.

Lemma post_bind {A B} (r : res A) (f : A -> res B) (Q : A -> Prop) (R : B -> Prop) :
  post r Q -> (forall a, Q a -> post (f a) R) -> post (bind r f) R.
Proof. destruct r; cbn; auto; contradiction. Qed.

Lemma post_bind_err {A B} (r : res A) e (f : A -> res B) (Q : A -> Prop) (R : B -> Prop) :
  post r Q -> (forall a, Q a -> post (f a) R) -> post (bind_err r e f) R.
Proof. destruct r; cbn; auto; contradiction. Qed.

Lemma post_weaken {A} (r : res A) (Q R : A -> Prop) :
  post r Q -> (forall a, Q a -> R a) -> post r R.
Proof. destruct r; cbn; auto. Qed.

Lemma post_and {A} (r : res A) (P Q : A -> Prop) : post r P -> post r Q -> post r (fun a => P a /\ Q a).
Proof. destruct r; cbn; tauto. Qed.

Lemma post_safe {A} (r : res A) Q : post r Q -> r <> Panic /\ r <> Fuel.
Proof. destruct r; cbn; intro H; try contradiction; split; discriminate. Qed.

Lemma post_ok {A} (r : res A) Q a : post r Q -> r = Ok a -> Q a.
Proof. intros P E. rewrite E in P. exact P. Qed.

(* one step of a decoder: [L] proves the postcondition of the first call *)
Ltac pstep L := first [eapply post_bind | eapply post_bind_err]; [L|]; cbv beta.

Lemma blen_cons a (l : bytes) : blen (a :: l) = blen l + 1.
Proof. unfold blen. cbn [length]. lia. Qed.

Lemma blen_app (a b : bytes) : blen (a ++ b) = blen a + blen b.
Proof. unfold blen. rewrite app_length. lia. Qed.

Lemma to_nat_blen (l : bytes) : N.to_nat (blen l) = length l.
Proof. unfold blen. lia. Qed.

Lemma blen_firstn n (l : bytes) : n <= blen l -> blen (firstn (N.to_nat n) l) = n.
Proof. unfold blen. intro H. rewrite firstn_length. lia. Qed.

Lemma wf_app_l (a b : bytes) : wf_bytes (a ++ b) -> wf_bytes a.
Proof. intro H. apply Forall_app in H. apply H. Qed.
Lemma wf_app_r (a b : bytes) : wf_bytes (a ++ b) -> wf_bytes b.
Proof. intro H. apply Forall_app in H. apply H. Qed.
Lemma wf_cons_r a (b : bytes) : wf_bytes (a :: b) -> wf_bytes b.
Proof. apply (wf_app_r [a]). Qed.
Lemma wf_cons_l a (b : bytes) : wf_bytes (a :: b) -> a < 256.
Proof. intro H. inversion H. assumption. Qed.

Lemma wfb_iff bs : wf_bytes bs <-> wf_bytesb bs = true.
Proof.
  unfold wf_bytes. induction bs as [|b r IH]; cbn [wf_bytesb].
  - split; [reflexivity | constructor].
  - rewrite andb_true_iff, <- IH, Forall_cons_iff, N.ltb_lt. reflexivity.
Qed.

Lemma wfb_firstn n bs : wf_bytes bs -> wf_bytes (firstn n bs).
Proof. rewrite <- (firstn_skipn n bs) at 1. apply wf_app_l. Qed.

Lemma wfb_skipn n bs : wf_bytes bs -> wf_bytes (skipn n bs).
Proof. rewrite <- (firstn_skipn n bs) at 1. apply wf_app_r. Qed.

Definition suffix (buf : bytes) (off : N) : bytes := skipn (N.to_nat off) buf.

Lemma blen_suffix buf off : blen (suffix buf off) = blen buf - off.
Proof. unfold suffix, blen. rewrite skipn_length. lia. Qed.

Lemma suffix_wf buf off : wf_bytes buf -> wf_bytes (suffix buf off).
Proof. apply wfb_skipn. Qed.

Lemma skipn_add {A} a b (l : list A) : skipn (a + b) l = skipn a (skipn b l).
Proof.
  revert l. induction b as [|b IH]; intro l; [rewrite Nat.add_0_r; reflexivity|].
  rewrite Nat.add_succ_r. destruct l as [|x l]; [destruct a; reflexivity | apply IH].
Qed.

Lemma suffix_adv buf off e r : suffix buf off = e ++ r -> suffix buf (off + blen e) = r.
Proof.
  unfold suffix. intro H.
  replace (N.to_nat (off + blen e)) with (length e + N.to_nat off)%nat by (unfold blen; lia).
  rewrite skipn_add, H, skipn_app, skipn_all, Nat.sub_diag. reflexivity.
Qed.

Lemma firstn_app_exact (a b : bytes) : firstn (N.to_nat (blen a)) (a ++ b) = a.
Proof. rewrite to_nat_blen, firstn_app, firstn_all, Nat.sub_diag. cbn [firstn]. apply app_nil_r. Qed.

Lemma skipn_app_exact (a b : bytes) : skipn (N.to_nat (blen a)) (a ++ b) = b.
Proof. rewrite to_nat_blen, skipn_app, skipn_all, Nat.sub_diag. reflexivity. Qed.

Definition cur (buf : bytes) (off : N) (suf : bytes) : Prop :=
  exists pre, buf = pre ++ suf /\ blen pre = off.

Lemma cur_start buf : cur buf 0 buf.
Proof. exists []. split; reflexivity. Qed.

Lemma cur_adv buf off e r : cur buf off (e ++ r) -> cur buf (off + blen e) r.
Proof.
  intros (pre & -> & <-). exists (pre ++ e). split.
  - rewrite app_assoc. reflexivity.
  - apply blen_app.
Qed.

Lemma cur_le buf off suf : cur buf off suf -> off + blen suf = blen buf.
Proof. intros (pre & -> & <-). rewrite blen_app. reflexivity. Qed.
Arguments cur_le {buf off suf} _.

Lemma cur_suffix buf off suf : cur buf off suf -> suffix buf off = suf.
Proof. intros (pre & -> & <-). apply skipn_app_exact. Qed.

Lemma index_suffix buf i : index buf i = match suffix buf i with b :: _ => Ok b | [] => Panic end.
Proof.
  unfold index, suffix. generalize (N.to_nat i) as n. intro n. revert buf.
  induction n as [|n IH]; intros [|b buf]; cbn [nth_error skipn]; try reflexivity. apply IH.
Qed.

Lemma slice_suffix buf off k e r : off <= blen buf -> suffix buf off = e ++ r -> blen e = k ->
  slice buf off (off + k) = Ok e.
Proof.
  intros H E <-. pose proof (blen_suffix buf off) as L. rewrite E, blen_app in L. unfold slice.
  replace ((off <=? off + blen e) && (off + blen e <=? blen buf)) with true by lia.
  replace (off + blen e - off) with (blen e) by lia. fold (suffix buf off). rewrite E, firstn_app_exact. reflexivity.
Qed.

Lemma slice_from_suffix buf off : off <= blen buf -> slice_from buf off = Ok (suffix buf off).
Proof.
  intro H. unfold slice_from. replace (blen buf) with (off + blen (suffix buf off)) at 1 by (rewrite blen_suffix; lia).
  apply (slice_suffix buf off _ (suffix buf off) []); [exact H | symmetry; apply app_nil_r | reflexivity].
Qed.

Lemma slice_post (buf : bytes) lo hi : lo <= hi -> hi <= blen buf ->
  post (slice buf lo hi) (fun s => blen s = hi - lo /\ (wf_bytes buf -> wf_bytes s)).
Proof.
  unfold slice. intros H1 H2.
  replace ((lo <=? hi) && (hi <=? blen buf)) with true by lia. cbn. split.
  - unfold blen in *. rewrite firstn_length, skipn_length. lia.
  - intro W. apply wfb_firstn, wfb_skipn, W.
Qed.

Lemma slice_from_post (buf : bytes) lo : lo <= blen buf ->
  post (slice_from buf lo) (fun s => blen s = blen buf - lo /\ (wf_bytes buf -> wf_bytes s)).
Proof. intro H. apply slice_post; lia. Qed.

Lemma decodeByte_suffix buf off :
  decodeByte buf off = match suffix buf off with b :: _ => Ok (b, off + 1) | [] => Err EOffsetByteOutOfRange end.
Proof.
  unfold decodeByte. rewrite index_suffix. pose proof (blen_suffix buf off) as L.
  destruct (suffix buf off) as [|b r]; [change (blen []) with 0 in L | rewrite blen_cons in L].
  - replace (blen buf <=? off) with true by lia. reflexivity.
  - replace (blen buf <=? off) with false by lia. reflexivity.
Qed.

Lemma decodeByteBool_suffix buf off :
  decodeByteBool buf off =
  match suffix buf off with b :: _ => Ok (0 <? N.land 1 b, off + 1) | [] => Err EOffsetBoolOutOfRange end.
Proof.
  unfold decodeByteBool. rewrite index_suffix. pose proof (blen_suffix buf off) as L.
  destruct (suffix buf off) as [|b r]; [change (blen []) with 0 in L | rewrite blen_cons in L].
  - replace (blen buf <=? off) with true by lia. reflexivity.
  - replace (blen buf <=? off) with false by lia. reflexivity.
Qed.

Lemma decodeUint16_suffix buf off :
  decodeUint16 buf off =
  match suffix buf off with a :: b :: _ => Ok (a * 256 + b, off + 2) | _ => Err EOffsetUintOutOfRange end.
Proof.
  unfold decodeUint16. pose proof (blen_suffix buf off) as L.
  destruct (suffix buf off) as [|a [|b r]] eqn:E; rewrite ?blen_cons in L; change (blen []) with 0 in L.
  - replace (blen buf <? off + 2) with true by lia. reflexivity.
  - replace (blen buf <? off + 2) with true by lia. reflexivity.
  - replace (blen buf <? off + 2) with false by lia.
    rewrite (slice_suffix buf off 2 [a; b] r); [reflexivity | lia | exact E | reflexivity].
Qed.

Lemma decodeUint32_suffix buf off :
  decodeUint32 buf off =
  match suffix buf off with
  | a :: b :: c :: d :: _ => Ok (((a * 256 + b) * 256 + c) * 256 + d, off + 4)
  | _ => Err EOffsetUintOutOfRange
  end.
Proof.
  unfold decodeUint32. pose proof (blen_suffix buf off) as L.
  destruct (suffix buf off) as [|a [|b [|c [|d r]]]] eqn:E; rewrite ?blen_cons in L; change (blen []) with 0 in L;
    try (replace (blen buf <? off + 4) with true by lia; reflexivity).
  replace (blen buf <? off + 4) with false by lia.
  rewrite (slice_suffix buf off 4 [a; b; c; d] r); [reflexivity | lia | exact E | reflexivity].
Qed.

Lemma decodeBytes_suffix buf off :
  decodeBytes buf off =
  match suffix buf off with
  | a :: b :: r => if blen r <? a * 256 + b then Err EOffsetBytesOutOfRange
                   else Ok (firstn (N.to_nat (a * 256 + b)) r, off + 2 + (a * 256 + b))
  | _ => Err EOffsetUintOutOfRange
  end.
Proof.
  unfold decodeBytes. rewrite decodeUint16_suffix. pose proof (blen_suffix buf off) as L.
  destruct (suffix buf off) as [|a [|b r]] eqn:E; try reflexivity.
  rewrite !blen_cons in L. cbn beta iota delta [bind].
  replace (blen buf <? off + 2 + (a * 256 + b)) with (blen r <? a * 256 + b) by lia.
  destruct (blen r <? a * 256 + b) eqn:F; [reflexivity|].
  rewrite (slice_suffix buf (off + 2) (a * 256 + b) (firstn (N.to_nat (a * 256 + b)) r) (skipn (N.to_nat (a * 256 + b)) r));
    [reflexivity | lia | | apply blen_firstn; lia].
  rewrite firstn_skipn. apply (suffix_adv buf off [a; b] r E).
Qed.

Lemma decodeString_suffix buf off :
  decodeString buf off = let* (b, n) := decodeBytes buf off in if valid_utf8 b then Ok (b, n) else Err EInvalidUTF8.
Proof. unfold decodeString. destruct (decodeBytes buf off) as [[b n]| | |]; try reflexivity. cbn. destruct (valid_utf8 b); reflexivity. Qed.

Lemma decodeByte_post buf off :
  post (decodeByte buf off) (fun '(b, o) => o = off + 1 /\ o <= blen buf /\ (wf_bytes buf -> b < 256)).
Proof.
  rewrite decodeByte_suffix. pose proof (blen_suffix buf off) as L. pose proof (suffix_wf buf off) as S.
  destruct (suffix buf off) as [|b r]; [exact I|]. rewrite blen_cons in L. cbn.
  split; [reflexivity|]. split; [lia|]. intro W. apply (wf_cons_l b r (S W)).
Qed.

Lemma decodeByteBool_post buf off :
  post (decodeByteBool buf off) (fun '(_, o) => o = off + 1 /\ o <= blen buf).
Proof.
  rewrite decodeByteBool_suffix. pose proof (blen_suffix buf off) as L.
  destruct (suffix buf off) as [|b r]; [exact I|]. rewrite blen_cons in L. cbn. lia.
Qed.

Lemma decodeUint16_post buf off :
  post (decodeUint16 buf off) (fun '(v, o) => o = off + 2 /\ o <= blen buf /\ (wf_bytes buf -> v < 65536)).
Proof.
  rewrite decodeUint16_suffix. pose proof (blen_suffix buf off) as L. pose proof (suffix_wf buf off) as S.
  destruct (suffix buf off) as [|a [|b r]]; try exact I. rewrite !blen_cons in L. cbn.
  split; [reflexivity|]. split; [lia|]. intro W. specialize (S W).
  pose proof (wf_cons_l _ _ S). pose proof (wf_cons_l _ _ (wf_cons_r _ _ S)). lia.
Qed.

Lemma decodeUint32_post buf off :
  post (decodeUint32 buf off) (fun '(v, o) => o = off + 4 /\ o <= blen buf /\ (wf_bytes buf -> v <= 4294967295)).
Proof.
  rewrite decodeUint32_suffix. pose proof (blen_suffix buf off) as L. pose proof (suffix_wf buf off) as S.
  destruct (suffix buf off) as [|a [|b [|c [|d r]]]]; try exact I. rewrite !blen_cons in L. cbn.
  split; [reflexivity|]. split; [lia|]. intro W. specialize (S W).
  pose proof (wf_cons_l _ _ S) as A. apply wf_cons_r in S. pose proof (wf_cons_l _ _ S) as B. apply wf_cons_r in S.
  pose proof (wf_cons_l _ _ S) as C. apply wf_cons_r in S. pose proof (wf_cons_l _ _ S) as D. lia.
Qed.

Lemma decodeBytes_post buf off :
  post (decodeBytes buf off)
       (fun '(s, o) => o = off + 2 + blen s /\ o <= blen buf /\ (wf_bytes buf -> blen s <= 65535 /\ wf_bytes s)).
Proof.
  rewrite decodeBytes_suffix. pose proof (blen_suffix buf off) as L. pose proof (suffix_wf buf off) as S.
  destruct (suffix buf off) as [|a [|b r]]; try exact I. rewrite !blen_cons in L.
  destruct (blen r <? a * 256 + b) eqn:F; [exact I|]. cbn. rewrite blen_firstn by lia.
  split; [reflexivity|]. split; [lia|]. intro W. specialize (S W).
  pose proof (wf_cons_l _ _ S). apply wf_cons_r in S. pose proof (wf_cons_l _ _ S). apply wf_cons_r in S.
  split; [lia | apply wfb_firstn; exact S].
Qed.

Lemma decodeString_post buf off :
  post (decodeString buf off)
       (fun '(s, o) => o = off + 2 + blen s /\ o <= blen buf /\ valid_utf8 s = true /\
                       (wf_bytes buf -> blen s <= 65535 /\ wf_bytes s)).
Proof.
  rewrite decodeString_suffix. eapply post_bind; [apply decodeBytes_post|]. intros [s o] (A & B & C).
  destruct (valid_utf8 s) eqn:U; [|exact I]. cbn. auto.
Qed.

Lemma decodeByte_val buf off : wf_bytes buf ->
  post (decodeByte buf off) (fun '(b, o) => o = off + 1 /\ o <= blen buf /\ b < 256).
Proof. intro W. eapply post_weaken; [apply decodeByte_post|]. intros [b o] (A & B & C). auto. Qed.

Lemma decodeUint16_val buf off : wf_bytes buf ->
  post (decodeUint16 buf off) (fun '(v, o) => o = off + 2 /\ o <= blen buf /\ v < 65536).
Proof. intro W. eapply post_weaken; [apply decodeUint16_post|]. intros [b o] (A & B & C). auto. Qed.

Lemma slice_from_val buf lo : wf_bytes buf -> lo <= blen buf ->
  post (slice_from buf lo) (fun s => blen s = blen buf - lo /\ wf_bytes s).
Proof. intros W H. eapply post_weaken; [apply slice_from_post; exact H|]. intros s [A B]. auto. Qed.

Lemma decodeByte_cur buf off b r : cur buf off (b :: r) -> decodeByte buf off = Ok (b, off + 1).
Proof. intro C. rewrite decodeByte_suffix, (cur_suffix _ _ _ C). reflexivity. Qed.
Arguments decodeByte_cur {buf off b r} _.

Lemma decodeByteBool_cur buf off b r :
  cur buf off (b :: r) -> decodeByteBool buf off = Ok (0 <? N.land 1 b, off + 1).
Proof. intro C. rewrite decodeByteBool_suffix, (cur_suffix _ _ _ C). reflexivity. Qed.
Arguments decodeByteBool_cur {buf off b r} _.

Lemma slice_from_cur buf off suf : cur buf off suf -> slice_from buf off = Ok suf.
Proof.
  intro C. pose proof (cur_le C). rewrite slice_from_suffix by lia. rewrite (cur_suffix _ _ _ C). reflexivity.
Qed.
Arguments slice_from_cur {buf off suf} _.

Lemma vbi_loop_prefix bs : forall mult value bu n bu' r,
  vbi_decode_loop bs mult value bu = VOk n bu' r ->
  exists pre, bs = pre ++ r /\ bu' + 1 = bu + blen pre /\ 1 <= blen pre /\
              forall y, vbi_decode_loop (pre ++ y) mult value bu = VOk n bu' y.
Proof.
  induction bs as [|eb t IH]; intros mult value bu n bu' r H; [discriminate|].
  cbn [vbi_decode_loop] in H.
  destruct (268435455 <? _) eqn:E1; [discriminate|].
  destruct (N.land eb 128 =? 0) eqn:E2.
  - injection H as <- <- <-. exists [eb]. change (blen [eb]) with 1. repeat split; try lia.
    intro y. cbn [app vbi_decode_loop]. rewrite E1, E2. reflexivity.
  - destruct (bu =? 4) eqn:E3; [discriminate|].
    apply IH in H. destruct H as (pre & -> & B & L & X). exists (eb :: pre). rewrite blen_cons.
    repeat split; try lia. intro y. cbn [app vbi_decode_loop]. rewrite E1, E2, E3. apply X.
Qed.

Lemma vbi_decode_len bs n bu r : vbi_decode bs = VOk n bu r -> bu + blen r = blen bs /\ 1 <= bu.
Proof.
  intro H. apply vbi_loop_prefix in H. destruct H as (pre & -> & B & L & _). rewrite blen_app. lia.
Qed.

Lemma vbi_decode_val s n bu r : wf_bytes s -> vbi_decode s = VOk n bu r ->
  n <= 268435455 /\ vbi_min_len n <= bu /\ bu + blen r = blen s /\ wf_bytes r.
Proof.
  intros W E. pose proof (decoded_bounded s n bu r W E) as (B1 & B2 & B3).
  pose proof (decode_refines_spec s W) as D. rewrite B3 in D. destruct D as [D _].
  rewrite E in D. injection D as Dbu.
  pose proof (min_len_minimal s n r W B3) as M.
  pose proof (vbi_decode_len s n bu r E) as [L _].
  unfold vbi_max in B1. repeat split; try lia.
  apply vbi_loop_prefix in E. destruct E as (pre & -> & _). apply (wf_app_r _ _ W).
Qed.
