(* C42: the order of properties does not matter.  The Properties struct that results from storing a
   property list is the same for every reordering that keeps the repeatable properties (user
   properties, subscription identifiers) in sequence, provided no other property occurs twice.
   The struct is looked at through the field group ([slot]) each property identifier owns: storing a
   property changes its own slot only, so a slot holds what the properties with its identifier left there. *)
From MV Require Import Base.Val Base.ListMisc Codec.Vbi Codec.Wire Codec.Props Codec.MochiCodec
  Codec.SpecCodec Codec.SpecBridge.
From Coq Require Import Permutation.
Open Scope N_scope.

Inductive sv :=
| SN (n : N) (flag : bool)
| SB (b : bytes)
| SL (l : list N)
| SU (l : list (bytes * bytes))
| SNone.

Definition slot (k : N) (p : props) : sv :=
  match k with
  | 1 => SN (p_payload_format p) (p_payload_format_flag p)
  | 2 => SN (p_message_expiry p) false
  | 3 => SB (p_content_type p)
  | 8 => SB (p_response_topic p)
  | 9 => SB (p_correlation_data p)
  | 11 => SL (p_sub_ids p)
  | 17 => SN (p_session_expiry p) (p_session_expiry_flag p)
  | 18 => SB (p_assigned_client_id p)
  | 19 => SN (p_server_keep_alive p) (p_server_keep_alive_flag p)
  | 21 => SB (p_auth_method p)
  | 22 => SB (p_auth_data p)
  | 23 => SN (p_request_problem_info p) (p_request_problem_info_flag p)
  | 24 => SN (p_will_delay p) false
  | 25 => SN (p_request_response_info p) false
  | 26 => SB (p_response_info p)
  | 28 => SB (p_server_reference p)
  | 31 => SB (p_reason_string p)
  | 33 => SN (p_receive_maximum p) false
  | 34 => SN (p_topic_alias_maximum p) false
  | 35 => SN (p_topic_alias p) (p_topic_alias_flag p)
  | 36 => SN (p_maximum_qos p) (p_maximum_qos_flag p)
  | 37 => SN (p_retain_available p) (p_retain_available_flag p)
  | 38 => SU (p_user p)
  | 39 => SN (p_maximum_packet_size p) false
  | 40 => SN (p_wildcard_sub_available p) (p_wildcard_sub_available_flag p)
  | 41 => SN (p_sub_id_available p) (p_sub_id_available_flag p)
  | 42 => SN (p_shared_sub_available p) (p_shared_sub_available_flag p)
  | _ => SNone
  end.

Definition all_ids : list N :=
  [1; 2; 3; 8; 9; 11; 17; 18; 19; 21; 22; 23; 24; 25; 26; 28; 31; 33; 34; 35; 36; 37; 38; 39; 40; 41; 42].

Lemma slot_ext p q : (forall k, In k all_ids -> slot k p = slot k q) -> p = q.
Proof.
  intro H. apply Forall_forall, Forall_fold_right in H. destruct p, q. cbn in H.
  repeat match goal with
  | H : _ /\ _ |- _ => destruct H
  | H : _ = _ |- _ => injection H; clear H; intros; subst
  end.
  reflexivity.
Qed.

Definition sstore (c : sprop) (s : sv) : sv :=
  match c with
  | PayloadFormat b | RequestProblemInfo b | MaximumQoS b | RetainAvailable b
  | WildcardSubAvailable b | SubIdAvailable b | SharedSubAvailable b => SN b true
  | SessionExpiry n | ServerKeepAlive n | TopicAlias n => SN n true
  | MessageExpiry n | WillDelay n | ReceiveMaximum n | TopicAliasMaximum n | MaximumPacketSize n => SN n false
  | RequestResponseInfo b => SN b false
  | ContentType x | ResponseTopic x | CorrelationData x | AssignedClientId x | AuthMethod x | AuthData x
  | ResponseInfo x | ServerReference x | ReasonString x => SB x
  | SubscriptionId n => match s with SL l => SL (l ++ [n]) | _ => s end
  | UserProperty k v => match s with SU l => SU (l ++ [(k, v)]) | _ => s end
  end.

Lemma slot_own c p : slot (prop_id c) (store c p) = sstore c (slot (prop_id c) p).
Proof. destruct c; destruct p; reflexivity. Qed.

Lemma slot_other c k p : In k all_ids -> prop_id c <> k -> slot k (store c p) = slot k p.
Proof.
  intros Hin Hne. destruct p. unfold all_ids in Hin.
  repeat (destruct Hin as [<-|Hin]; [destruct c; try reflexivity; exfalso; apply Hne; reflexivity|]).
  destruct Hin.
Qed.

Lemma store_all_cons_eq c cs p : store_all (c :: cs) p = store_all cs (store c p).
Proof. reflexivity. Qed.

Definition has_id (k : N) (c : sprop) : bool := prop_id c =? k.

Lemma slot_store_all k : In k all_ids -> forall ps p,
  slot k (store_all ps p) = fold_left (fun s c => sstore c s) (filter (has_id k) ps) (slot k p).
Proof.
  intros Hin ps. induction ps as [|c ps IH]; intro p; [reflexivity|].
  rewrite store_all_cons_eq. cbn [filter]. unfold has_id at 1.
  destruct (prop_id c =? k) eqn:E.
  - apply N.eqb_eq in E. subst k. cbn [fold_left]. rewrite IH, slot_own. reflexivity.
  - rewrite IH, slot_other; [reflexivity | exact Hin | apply N.eqb_neq, E].
Qed.

Lemma filter_sub {A} (f g : A -> bool) l : (forall c, f c = true -> g c = true) ->
  filter f (filter g l) = filter f l.
Proof.
  intro H. induction l as [|a l IH]; [reflexivity|]. cbn [filter].
  destruct (g a) eqn:G; cbn [filter]; destruct (f a) eqn:F; try rewrite IH; try reflexivity.
  rewrite (H a F) in G. discriminate.
Qed.

Lemma repeatable_ids x c : repeatable x c = true -> prop_id c = 11 \/ prop_id c = 38.
Proof. destruct c; destruct x; cbn; intro H; try discriminate; tauto. Qed.

Lemma no_dup_single x : forall ps seen k, k <> 11 -> k <> 38 -> no_dup_ids x seen ps = true ->
  (existsb (N.eqb k) seen = true -> filter (has_id k) ps = []) /\ (length (filter (has_id k) ps) <= 1)%nat.
Proof.
  induction ps as [|c r IH]; intros seen k K1 K2 H; [split; [reflexivity | apply Nat.le_0_l]|].
  cbn [no_dup_ids] in H. cbn [filter]. change (has_id k c) with (prop_id c =? k).
  destruct (repeatable x c) eqn:R.
  - apply repeatable_ids in R. replace (prop_id c =? k) with false by (symmetry; apply N.eqb_neq; destruct R as [-> | ->]; auto).
    apply IH; assumption.
  - apply andb_prop in H. destruct H as [H1 H2].
    destruct (prop_id c =? k) eqn:E.
    + apply N.eqb_eq in E. subst k.
      destruct (IH (prop_id c :: seen) (prop_id c) K1 K2 H2) as [I1 I2].
      assert (F : filter (has_id (prop_id c)) r = []).
      { apply I1. cbn [existsb]. rewrite N.eqb_refl. reflexivity. }
      rewrite F. split; [|apply Nat.le_refl].
      intro Hs. rewrite Hs in H1. discriminate.
    + destruct (IH (prop_id c :: seen) k K1 K2 H2) as [I1 I2]. split; [|exact I2].
      intro Hs. apply I1. cbn [existsb]. rewrite Hs. apply orb_true_r.
Qed.

Lemma perm_short_eq {A} (l l' : list A) : Permutation l l' -> (length l <= 1)%nat -> l = l'.
Proof.
  intros P L. destruct l as [|a [|b t]]; [ | | cbn in L; apply le_S_n in L; inversion L].
  - apply Permutation_nil in P. symmetry. exact P.
  - apply Permutation_length_1_inv in P. symmetry. exact P.
Qed.

Lemma filter_reorder x ps ps' k : no_dup_ids x [] ps = true -> reorder ps ps' ->
  filter (has_id k) ps = filter (has_id k) ps'.
Proof.
  intros Hn [P F].
  destruct (N.eq_dec k 11) as [->|K1]; [|destruct (N.eq_dec k 38) as [->|K2]].
  - rewrite <- (filter_sub (has_id 11) can_repeat ps), <- (filter_sub (has_id 11) can_repeat ps').
    + rewrite F. reflexivity.
    + intro c. destruct c; cbn; intro; try discriminate; reflexivity.
    + intro c. destruct c; cbn; intro; try discriminate; reflexivity.
  - rewrite <- (filter_sub (has_id 38) can_repeat ps), <- (filter_sub (has_id 38) can_repeat ps').
    + rewrite F. reflexivity.
    + intro c. destruct c; cbn; intro; try discriminate; reflexivity.
    + intro c. destruct c; cbn; intro; try discriminate; reflexivity.
  - apply perm_short_eq; [apply filter_perm; exact P|].
    apply (no_dup_single x ps [] k K1 K2 Hn).
Qed.

Theorem props_of_reorder x ps ps' : no_dup_ids x [] ps = true -> reorder ps ps' ->
  props_of ps' = props_of ps.
Proof.
  intros Hn R. apply slot_ext. intros k Hin. unfold props_of.
  rewrite !(slot_store_all k Hin). rewrite (filter_reorder x ps ps' k Hn R). reflexivity.
Qed.
