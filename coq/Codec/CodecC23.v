(* Bridge for C23 (well-formed output): whatever the mochi ENCODER model writes for a packet whose
   abstraction [abs pk] is valid for the protocol version is accepted by the independent reference
   decoder (SpecCodec.spec_decode_packet), which returns exactly [abs pk] — the properties in the
   order the encoder wrote them (mochi's fixed order), so no reordering is involved — and leaves
   the following bytes unread.

   Hypotheses that remain, precisely:
   - [wf_packet pk]: the Packet value is well-formed as a Go value for its type (CodecNorm.v): fields
     within their Go types, the fixed-header fields set as the broker sets them for the type (no
     DUP/RETAIN/QoS on non-PUBLISH types, QoS 1 on PUBREL/SUBSCRIBE/UNSUBSCRIBE; the Remaining field
     is not constrained, every encoder sets it), strings valid UTF-8 of at most 65535 bytes, size within 268435455, CONNECT
     with the standard protocol name.  It is what [encode_is_form] needs; [valid_packet] alone does
     not constrain the fields the encoder does not write.
   - [valid_packet v (abs pk)]: the value rules of the standard for the version (reason code sets,
     property table, no duplicates, ...) — exactly what C23 has to establish for the packets the
     broker emits.
   - the encoder returned bytes ([mochi_encode pk = Ok bs]); [encoder_output_total] removes this
     hypothesis for packets whose identifier is not the refused 0, and [C23_encoder_output_total]
     altogether: a valid packet has no such identifier ([valid_pid]). *)
From MV Require Import Base.Val Codec.Wire Codec.MochiCodec Codec.SpecCodec Codec.SpecRT Codec.WireProofs Codec.CodecNorm
  Codec.CodecRoundTrip.
From Coq Require Import Lia Permutation.
Open Scope N_scope.

Lemma reorder_refl ps : reorder ps ps.
Proof. split; [apply Permutation_refl | reflexivity]. Qed.

Lemma same_packet_refl p : same_packet p p.
Proof.
  destruct p; try (constructor; apply reorder_refl); try constructor.
  destruct will as [[wps wt wp wq wr]|]; constructor; apply reorder_refl.
Qed.

Lemma form_in_spec_forms v p body : In body (bodies v p) -> len body <= 268435455 ->
  In (frame p body) (spec_forms v p).
Proof.
  intros Hin Hl. unfold spec_forms. apply in_map. apply filter_In. split; [exact Hin|].
  apply N.leb_le. exact Hl.
Qed.

Theorem encoder_output_spec_decodable pk bs rest :
  wf_packet pk = true -> mochi_encode pk = Ok bs -> valid_packet (pk_version pk) (abs pk) = true ->
  spec_decode_packet (pk_version pk) (bs ++ rest) = Some (abs pk, rest).
Proof.
  intros W E V. destruct (encode_is_form pk bs W E) as (body & -> & Hin & Hl).
  apply spec_roundtrip; [exact V|]. apply form_in_spec_forms; assumption.
Qed.

Theorem encoder_output_spec_decodable_same pk bs rest :
  wf_packet pk = true -> mochi_encode pk = Ok bs -> valid_packet (pk_version pk) (abs pk) = true ->
  exists p', same_packet (abs pk) p' /\ spec_decode_packet (pk_version pk) (bs ++ rest) = Some (p', rest).
Proof.
  intros W E V. exists (abs pk). split; [apply same_packet_refl|].
  apply encoder_output_spec_decodable; assumption.
Qed.

Theorem encoder_output_total pk rest :
  wf_packet pk = true -> KF_C26_pid0 pk = false -> valid_packet (pk_version pk) (abs pk) = true ->
  exists bs, mochi_encode pk = Ok bs /\
             spec_decode_packet (pk_version pk) (bs ++ rest) = Some (abs pk, rest).
Proof.
  intros W K V. destruct (encode_total pk W K) as (body & E & Hin & Hl).
  eexists. split; [exact E|]. apply spec_roundtrip; [exact V|]. apply form_in_spec_forms; assumption.
Qed.

(* a packet valid by the standard has no zero packet identifier where one is required, so for the
   broker's valid output the pid-0 side condition is automatic *)
Lemma valid_pid pk : valid_packet (pk_version pk) (abs pk) = true -> KF_C26_pid0 pk = false.
Proof.
  intro V. unfold KF_C26_pid0.
  destruct (pk_packet_id pk =? 0) eqn:Ep; [|reflexivity]. apply N.eqb_eq in Ep. cbn [andb].
  unfold abs in V. rewrite Ep in V.
  destruct (fh_type (pk_fh pk) =? 3) eqn:E3; [|destruct (fh_type (pk_fh pk) =? 8) eqn:E8;
    [|destruct (fh_type (pk_fh pk) =? 10) eqn:E10; [|reflexivity]]].
  - apply N.eqb_eq in E3. rewrite E3 in *.
    destruct (0 <? fh_qos (pk_fh pk)) eqn:Eq; [exfalso | reflexivity]. cbn [valid_packet] in V. split_and.
    replace (fh_qos (pk_fh pk) =? 0) with false in * by lia. discriminate.
  - exfalso. apply N.eqb_eq in E8. rewrite E8 in V. cbn [valid_packet] in V. split_and. discriminate.
  - exfalso. apply N.eqb_eq in E10. rewrite E10 in V. cbn [valid_packet] in V. split_and. discriminate.
Qed.

Lemma valid_abs_pid pk : wf_packet pk = true -> valid_packet (pk_version pk) (abs pk) = true ->
  KF_C26_pid0 pk = false.
Proof. intros _. apply valid_pid. Qed.

Theorem C23_encoder_output_total pk rest :
  wf_packet pk = true -> valid_packet (pk_version pk) (abs pk) = true ->
  exists bs, mochi_encode pk = Ok bs /\
             spec_decode_packet (pk_version pk) (bs ++ rest) = Some (abs pk, rest).
Proof.
  intros W V. apply encoder_output_total; [exact W | apply valid_pid; exact V | exact V].
Qed.
