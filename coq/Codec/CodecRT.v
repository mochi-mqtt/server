(* For the codec round-trip proofs (C42, C26): what the offset-based decoders of Wire.v / Props.v
   return when the buffer, from the current offset on, starts with the reference encoding (the put_
   functions of SpecCodec.v) of a value, from a two-byte integer up to a whole property block
   (props_decode_put); the bounds a value must respect for that (str_fits, bin_fits, prop_fits);
   that codec.go's notion of a valid string is RFC 3629's; and the reading half of Properties.Decode
   ([read_prop]), which every proof about the property loop goes through. *)
From MV Require Import Base.Val Codec.Vbi Codec.VbiProofs Codec.Wire Codec.Props
  Codec.SpecCodec Codec.SpecFacts Codec.SpecBridge Codec.WireProofs Codec.CodecOrder.
From Coq Require Import Lia ZifyBool ZifyN ZifyNat.
Ltac Zify.zify_post_hook ::= Z.div_mod_to_equations.
Open Scope N_scope.
Set Warnings "-unused-intro-pattern".

Lemma len_blen (b : bytes) : len b = blen b.
Proof. reflexivity. Qed.

Lemma decodeUint16_put buf off n r :
  cur buf off (put_u16 n ++ r) -> decodeUint16 buf off = Ok (n, off + 2).
Proof.
  intro C. rewrite decodeUint16_suffix, (cur_suffix _ _ _ C). unfold put_u16. cbn [app]. f_equal. f_equal. lia.
Qed.
Arguments decodeUint16_put {buf off n r} _.

Lemma decodeUint32_put buf off n r :
  cur buf off (put_u32 n ++ r) -> decodeUint32 buf off = Ok (n, off + 4).
Proof.
  intro C. rewrite decodeUint32_suffix, (cur_suffix _ _ _ C). unfold put_u32. cbn [app]. rewrite u32_digits. reflexivity.
Qed.
Arguments decodeUint32_put {buf off n r} _.

Lemma blen_put_u16 n : blen (put_u16 n) = 2.
Proof. reflexivity. Qed.
Lemma blen_put_u32 n : blen (put_u32 n) = 4.
Proof. reflexivity. Qed.

(* what a 16-bit length prefix can carry; a string is valid UTF-8 as well *)
Definition str_fits (s : bytes) : bool := (blen s <=? 65535) && valid_utf8 s.
Definition bin_fits (d : bytes) : bool := blen d <=? 65535.

Lemma blen_put_bin d : blen (put_bin d) = 2 + blen d.
Proof. unfold put_bin. rewrite blen_app. reflexivity. Qed.

Lemma decodeBytes_fits buf off d r : bin_fits d = true ->
  cur buf off (put_bin d ++ r) -> decodeBytes buf off = Ok (d, off + blen (put_bin d)).
Proof.
  unfold bin_fits. intros Hd C. rewrite decodeBytes_suffix, (cur_suffix _ _ _ C). unfold put_bin, put_u16. cbn [app].
  change (len d) with (blen d). replace (blen d / 256 * 256 + blen d mod 256) with (blen d) by lia.
  rewrite blen_app, firstn_app_exact. replace (blen d + blen r <? blen d) with false by lia.
  rewrite !blen_cons. f_equal. f_equal. lia.
Qed.
Arguments decodeBytes_fits {buf off d r} _ _.

Lemma decodeString_fits buf off s r : str_fits s = true ->
  cur buf off (put_str s ++ r) -> decodeString buf off = Ok (s, off + blen (put_str s)).
Proof.
  unfold str_fits. intros Hs H. apply andb_prop in Hs. destruct Hs as [Hs Hu]. unfold decodeString, put_str in *.
  rewrite (decodeBytes_fits Hs H). cbn beta iota delta [bind bind_err]. rewrite Hu. reflexivity.
Qed.
Arguments decodeString_fits {buf off s r} _ _.

(* SpecCodec.utf8_wf tries the alternatives of the ABNF in turn, looking ahead up to four bytes;
   Wire.utf8_valid branches on the lead byte.  The first is brought into the shape of the second:
   one equation for each class of lead byte. *)

(* decides the tests on the lead byte [a] from the hypotheses *)
Local Ltac lead_class a :=
  repeat match goal with
  | |- context [(?lo <=? a) && (a <=? ?hi)] =>
      first [replace ((lo <=? a) && (a <=? hi)) with true by lia | replace ((lo <=? a) && (a <=? hi)) with false by lia]
  | |- context [a =? ?k] => first [replace (a =? k) with true by lia | replace (a =? k) with false by lia]
  | |- context [?k =? a] => first [replace (k =? a) with true by lia | replace (k =? a) with false by lia]
  | |- context [a <? ?k] => first [replace (a <? k) with true by lia | replace (a <? k) with false by lia]
  end; cbn [andb orb negb]; cbv iota.

Lemma utf8_wf_lead0 a r : a = 0 \/ 128 <= a < 194 \/ 245 <= a -> utf8_wf (a :: r) = false.
Proof.
  intro H. cbn [utf8_wf]. unfold btw. destruct r as [|b [|c [|d r]]]; lead_class a; reflexivity.
Qed.

Lemma utf8_wf_lead1 a r : 1 <= a < 128 -> utf8_wf (a :: r) = utf8_wf r.
Proof. intro H. cbn [utf8_wf]. unfold btw. lead_class a. reflexivity. Qed.

Lemma utf8_wf_lead2 a r : 194 <= a <= 223 ->
  utf8_wf (a :: r) = match r with b :: r1 => tail b && utf8_wf r1 | [] => false end.
Proof.
  intro H. cbn [utf8_wf]. unfold btw. destruct r as [|b [|c [|d r]]]; lead_class a; try reflexivity;
    destruct (tail b); reflexivity.
Qed.

Lemma utf8_wf_lead3 a r : 224 <= a <= 239 ->
  utf8_wf (a :: r) =
  match r with
  | b :: c :: r2 => btw b (if a =? 224 then 160 else 128) (if a =? 237 then 159 else 191) && tail c && utf8_wf r2
  | _ => false
  end.
Proof.
  intro H. cbn [utf8_wf]. unfold tail, btw. destruct r as [|b [|c r2]]; lead_class a; try reflexivity.
  assert (C : a = 224 \/ 225 <= a <= 236 \/ a = 237 \/ 238 <= a) by lia.
  destruct C as [C|[C|[C|C]]]; lead_class a;
    (match goal with |- (if ?t then _ else _) = _ => destruct t end; [reflexivity|]);
    destruct r2; reflexivity.
Qed.

Lemma utf8_wf_lead4 a r : 240 <= a <= 244 ->
  utf8_wf (a :: r) =
  match r with
  | b :: c :: d :: r3 =>
      btw b (if a =? 240 then 144 else 128) (if a =? 244 then 143 else 191) && tail c && tail d && utf8_wf r3
  | _ => false
  end.
Proof.
  intro H. cbn [utf8_wf]. unfold tail, btw. destruct r as [|b [|c [|d r3]]]; lead_class a; try reflexivity.
  assert (C : a = 240 \/ 241 <= a <= 243 \/ a = 244) by lia.
  destruct C as [C|[C|C]]; lead_class a;
    match goal with |- (if ?t then _ else _) = _ => destruct t end; reflexivity.
Qed.

(* by induction on a bound of the length: a step strips up to four bytes *)
Lemma valid_utf8_is_spec_n (n : nat) : forall s, (length s <= n)%nat ->
  utf8_valid s && negb (existsb (N.eqb 0) s) = utf8_wf s.
Proof.
  induction n as [|n IH]; intros s Hl; [destruct s; [reflexivity | cbn in Hl; lia]|].
  destruct s as [|a r]; [reflexivity|]. cbn [length] in Hl. cbn [utf8_valid existsb]. unfold cont, in_range.
  assert (C : (a = 0 \/ 128 <= a < 194 \/ 245 <= a) \/ 1 <= a < 128 \/ 194 <= a <= 223 \/ 224 <= a <= 239 \/ 240 <= a <= 244)
    by lia.
  destruct C as [C|[C|[C|[C|C]]]].
  - rewrite (utf8_wf_lead0 a r C). destruct C as [C|[C|C]]; lead_class a; try reflexivity. apply andb_false_r.
  - rewrite (utf8_wf_lead1 a r C), <- (IH r) by lia. lead_class a. reflexivity.
  - rewrite (utf8_wf_lead2 a r C). lead_class a. destruct r as [|b r1]; [reflexivity|].
    cbn [length] in Hl. rewrite <- (IH r1) by lia. cbn [existsb]. unfold tail, btw.
    destruct ((128 <=? b) && (b <=? 191)) eqn:B; [|reflexivity]. replace (0 =? b) with false by lia. reflexivity.
  - rewrite (utf8_wf_lead3 a r C). lead_class a. destruct r as [|b [|c r2]]; try reflexivity.
    cbn [length] in Hl. rewrite <- (IH r2) by lia. cbn [existsb]. unfold tail, btw.
    destruct (a =? 224), (a =? 237);
      match goal with |- ?x && ?y && _ && _ = _ => destruct x eqn:B; [|reflexivity]; destruct y eqn:D; [|reflexivity] end;
      replace (0 =? b) with false by lia; replace (0 =? c) with false by lia; reflexivity.
  - rewrite (utf8_wf_lead4 a r C). lead_class a. destruct r as [|b [|c [|d r3]]]; try reflexivity.
    cbn [length] in Hl. rewrite <- (IH r3) by lia. cbn [existsb]. unfold tail, btw.
    destruct (a =? 240), (a =? 244);
      match goal with |- ?x && ?y && ?z && _ && _ = _ =>
        destruct x eqn:B; [|reflexivity]; destruct y eqn:D; [|reflexivity]; destruct z eqn:F; [|reflexivity] end;
      replace (0 =? b) with false by lia; replace (0 =? c) with false by lia; replace (0 =? d) with false by lia;
      reflexivity.
Qed.

Theorem valid_utf8_is_spec s : valid_utf8 s = utf8_wf s.
Proof. apply (valid_utf8_is_spec_n (length s)), le_n. Qed.

Lemma blen_put_vbi n : n <= 268435455 -> blen (put_vbi n) = vbi_min_len n.
Proof. intro H. apply (enc_length n _ H). apply put_vbi_encode. exact H. Qed.

Lemma blen_put_vbi_range n : 1 <= blen (put_vbi n) <= 4.
Proof. unfold put_vbi. repeat match goal with |- context [if ?c then _ else _] => destruct c end; cbv; split; discriminate. Qed.

(* whatever follows: the round trip of Vbi.v read with nothing after the encoding, and the loop does
   not look further *)
Lemma vbi_decode_put n rest : n <= 268435455 ->
  vbi_decode (put_vbi n ++ rest) = VOk n (blen (put_vbi n)) rest.
Proof.
  intro Hn. destruct (roundtrip n Hn) as (e & He & _ & Hd).
  rewrite (put_vbi_encode n Hn) in He. injection He as <-. rewrite (blen_put_vbi n Hn).
  destruct (vbi_loop_prefix _ _ _ _ _ _ _ (Hd [] (Forall_nil _))) as (pre & E & _ & _ & X).
  rewrite !app_nil_r in E. rewrite E. apply X.
Qed.

Lemma encodeLength_put n : n <= 268435455 -> encodeLength n = Ok (put_vbi n).
Proof. intro H. unfold encodeLength. rewrite (put_vbi_encode n H). reflexivity. Qed.

(* the values a property can carry on the wire so that it reads back as itself *)
Definition prop_fits (c : sprop) : bool :=
  match c with
  | MessageExpiry n | SessionExpiry n | WillDelay n | MaximumPacketSize n => n <=? 4294967295
  | ContentType s | ResponseTopic s | AssignedClientId s | AuthMethod s | ResponseInfo s
  | ServerReference s | ReasonString s => str_fits s
  | CorrelationData d | AuthData d => bin_fits d
  | SubscriptionId n => n <=? 268435455
  | UserProperty k v => str_fits k && str_fits v
  | _ => true
  end.

Lemma str_ok_fits s : str_ok s = true -> str_fits s = true.
Proof. unfold str_ok, str_fits. rewrite valid_utf8_is_spec. exact (fun H => H). Qed.

Lemma prop_value_ok_fits c : prop_value_ok c = true -> prop_fits c = true.
Proof.
  destruct c; cbn [prop_value_ok prop_fits]; intro H; try reflexivity;
    try (apply str_ok_fits; exact H); try exact H; try lia.
  - apply andb_prop in H. destruct H as [H _]. apply str_ok_fits. exact H.
  - apply andb_prop in H. destruct H as [H1 H2]. rewrite (str_ok_fits _ H1), (str_ok_fits _ H2). reflexivity.
Qed.

Definition put_value (c : sprop) : bytes := List.tl (put_prop c).
Lemma put_prop_split c : put_prop c = prop_id c :: put_value c.
Proof. destruct c; reflexivity. Qed.

(* Properties.Decode reads one property and stores it: [read_prop] is the reading half of the
   [switch k] of the loop body (Props.prop_case), [SpecBridge.store] the storing half *)
Definition rd {A} (d : res (A * N)) (mk : A -> sprop) : res (sprop * N) :=
  let* (v, o) := d in Ok (mk v, o).

Definition read_prop (k : N) (bt : bytes) (off : N) : res (sprop * N) :=
  match k with
  | 1 => rd (decodeByte bt off) PayloadFormat
  | 2 => rd (decodeUint32 bt off) MessageExpiry
  | 3 => rd (decodeString bt off) ContentType
  | 8 => rd (decodeString bt off) ResponseTopic
  | 9 => rd (decodeBytes bt off) CorrelationData
  | 11 => let* s := slice_from bt off in
          match vbi_decode s with
          | VOk n bu _ => Ok (SubscriptionId n, off + bu)
          | VErrEOF _ => Err EEOF
          | VErrMalformed _ => Err EVariableByteInteger
          end
  | 17 => rd (decodeUint32 bt off) SessionExpiry
  | 18 => rd (decodeString bt off) AssignedClientId
  | 19 => rd (decodeUint16 bt off) ServerKeepAlive
  | 21 => rd (decodeString bt off) AuthMethod
  | 22 => rd (decodeBytes bt off) AuthData
  | 23 => rd (decodeByte bt off) RequestProblemInfo
  | 24 => rd (decodeUint32 bt off) WillDelay
  | 25 => rd (decodeByte bt off) RequestResponseInfo
  | 26 => rd (decodeString bt off) ResponseInfo
  | 28 => rd (decodeString bt off) ServerReference
  | 31 => rd (decodeString bt off) ReasonString
  | 33 => rd (decodeUint16 bt off) ReceiveMaximum
  | 34 => rd (decodeUint16 bt off) TopicAliasMaximum
  | 35 => rd (decodeUint16 bt off) TopicAlias
  | 36 => rd (decodeByte bt off) MaximumQoS
  | 37 => rd (decodeByte bt off) RetainAvailable
  | 38 => let* (key, o) := decodeString bt off in rd (decodeString bt o) (UserProperty key)
  | 39 => rd (decodeUint32 bt off) MaximumPacketSize
  | 40 => rd (decodeByte bt off) WildcardSubAvailable
  | 41 => rd (decodeByte bt off) SubIdAvailable
  | 42 => rd (decodeByte bt off) SharedSubAvailable
  | _ => Err EUnsupportedProperty
  end.

Lemma bind_rd {A B} (d : res (A * N)) mk (f : sprop * N -> res B) :
  bind (rd d mk) f = bind d (fun '(v, o) => f (mk v, o)).
Proof. destruct d as [[v o]| | |]; reflexivity. Qed.

(* an identifier that is no case of the switch stores nothing and reads nothing *)
Lemma prop_case_read k bt off p :
  prop_case k bt off p =
  if existsb (N.eqb k) all_ids then let* (c, o) := read_prop k bt off in Ok (store c p, o) else Ok (p, off).
Proof.
  case6 k; try reflexivity; cbn [existsb all_ids orb]; unfold read_prop, prop_case; rewrite ?bind_rd; try reflexivity.
  - destruct (slice_from bt off); try reflexivity. cbn [bind]. destruct (vbi_decode a); reflexivity.
  - destruct (decodeString bt off) as [[key o]| | |]; try reflexivity. cbn [bind]. rewrite bind_rd. reflexivity.
Qed.

Lemma rd_post {A} (d : res (A * N)) mk (Q : A * N -> Prop) :
  post d Q -> post (rd d mk) (fun '(c, o) => exists v, c = mk v /\ Q (v, o)).
Proof. destruct d as [[v o]| | |]; cbn; eauto. Qed.

(* the values a decoded property can have: prop_fits, and the integer fields within their Go types *)
Definition prop_range (c : sprop) : bool :=
  match c with
  | PayloadFormat b | RequestProblemInfo b | RequestResponseInfo b | MaximumQoS b
  | RetainAvailable b | WildcardSubAvailable b | SubIdAvailable b | SharedSubAvailable b => b <? 256
  | ServerKeepAlive n | ReceiveMaximum n | TopicAliasMaximum n | TopicAlias n => n <? 65536
  | _ => prop_fits c
  end.

(* one property never spans more than this many bytes after its identifier (a user property: two strings) *)
Definition PMAX : N := 131074.

(* [<=] in the size of the reference encoding: a subscription identifier that was not minimally
   encoded is written in fewer bytes than were read *)
Definition read_ok (bt : bytes) (off : N) : sprop * N -> Prop :=
  fun '(c, o) => off < o <= blen bt /\
    (wf_bytes bt -> prop_range c = true /\ blen (put_value c) <= o - off /\ o <= off + PMAX).

(* one lemma for each kind of value; [mk] is the constructor of a property of that kind, [L] what
   is known of the decoder *)
Local Ltac rd_kind L :=
  let M := fresh "M" in
  intro M; eapply post_weaken; [apply rd_post, L|]; intros [c o] (v & -> & Hv); decompose [and] Hv; clear Hv;
  unfold read_ok; destruct (M v) as [-> ->]; unfold PMAX, bin_fits, str_fits, put_str; (split; [lia|]);
  let W := fresh "W" in intro W;
  repeat match goal with H : wf_bytes _ -> _ |- _ => specialize (H W) | H : valid_utf8 _ = true |- _ => rewrite H end;
  rewrite ?blen_put_bin, ?blen_put_u16, ?blen_put_u32, ?blen_cons; change (blen []) with 0; lia.

Lemma rd_byte mk bt off : (forall b, prop_range (mk b) = (b <? 256) /\ put_value (mk b) = [b]) ->
  post (rd (decodeByte bt off) mk) (read_ok bt off).
Proof. rd_kind decodeByte_post. Qed.

Lemma rd_u16 mk bt off : (forall n, prop_range (mk n) = (n <? 65536) /\ put_value (mk n) = put_u16 n) ->
  post (rd (decodeUint16 bt off) mk) (read_ok bt off).
Proof. rd_kind decodeUint16_post. Qed.

Lemma rd_u32 mk bt off : (forall n, prop_range (mk n) = (n <=? 4294967295) /\ put_value (mk n) = put_u32 n) ->
  post (rd (decodeUint32 bt off) mk) (read_ok bt off).
Proof. rd_kind decodeUint32_post. Qed.

Lemma rd_bin mk bt off : (forall d, prop_range (mk d) = bin_fits d /\ put_value (mk d) = put_bin d) ->
  post (rd (decodeBytes bt off) mk) (read_ok bt off).
Proof. rd_kind decodeBytes_post. Qed.

Lemma rd_str mk bt off : (forall s, prop_range (mk s) = str_fits s /\ put_value (mk s) = put_str s) ->
  post (rd (decodeString bt off) mk) (read_ok bt off).
Proof. rd_kind decodeString_post. Qed.

Lemma read_prop_post k bt off : off <= blen bt -> post (read_prop k bt off) (read_ok bt off).
Proof.
  intro Hoff. unfold read_prop.
  case6 k; try exact I;
  try (match goal with
       | |- post (rd (decodeByte _ _) _) _ => apply rd_byte
       | |- post (rd (decodeUint16 _ _) _) _ => apply rd_u16
       | |- post (rd (decodeUint32 _ _) _) _ => apply rd_u32
       | |- post (rd (decodeBytes _ _) _) _ => apply rd_bin
       | |- post (rd (decodeString _ _) _) _ => apply rd_str
       end; intro; split; reflexivity).
  all: unfold read_ok, PMAX.
  - (* subscription identifier *)
    pstep ltac:(apply slice_from_post; exact Hoff). intros s [Hs Ws].
    destruct (vbi_decode s) as [n bu r| |] eqn:E; [|exact I|exact I].
    pose proof (vbi_decode_len s n bu r E). cbn. split; [lia|]. intro W.
    destruct (vbi_decode_val s n bu r (Ws W) E) as (V1 & V2 & V3 & V4).
    pose proof (decoded_bounded s n bu r (Ws W) E) as (_ & B & _).
    cbn [prop_range prop_fits put_value put_prop List.tl]. rewrite (blen_put_vbi n V1). repeat split; lia.
  - (* user property *)
    pstep ltac:(apply decodeString_post). intros [key o] (K1 & K2 & K3 & K4).
    eapply post_weaken; [apply rd_post, decodeString_post|]. intros [c o'] (v & -> & V1 & V2 & V3 & V4).
    split; [lia|]. intro W. specialize (K4 W). specialize (V4 W).
    cbn [prop_range prop_fits put_value put_prop List.tl]. unfold str_fits, put_str, put_bin.
    rewrite K3, V3, !blen_app, !blen_put_u16. repeat split; lia.
Qed.

Lemma read_prop_put c bt off r : prop_fits c = true ->
  cur bt off (put_value c ++ r) ->
  read_prop (prop_id c) bt off = Ok (c, off + blen (put_value c)).
Proof.
  intros Hf H.
  destruct c; cbn [prop_id read_prop]; unfold rd; cbn [put_value put_prop List.tl prop_id] in H |- *;
  cbn [prop_fits] in Hf;
  try (cbn [app] in H; rewrite (decodeByte_cur H); reflexivity);
  try (rewrite (decodeUint32_put H); reflexivity);
  try (rewrite (decodeUint16_put H); reflexivity);
  try (rewrite (decodeString_fits Hf H); reflexivity);
  try (rewrite (decodeBytes_fits Hf H); reflexivity).
  - (* subscription identifier *)
    rewrite (slice_from_cur H). cbn beta iota delta [bind bind_err].
    rewrite (vbi_decode_put n r ltac:(lia)). reflexivity.
  - (* user property *)
    apply andb_prop in Hf. destruct Hf as [Hk Hv].
    rewrite <- app_assoc in H.
    rewrite (decodeString_fits Hk H). cbn beta iota delta [bind bind_err].
    apply cur_adv in H.
    rewrite (decodeString_fits Hv H). cbn beta iota delta [bind bind_err].
    rewrite blen_app. f_equal. f_equal. lia.
Qed.

Lemma prop_case_put c bt off p r : prop_fits c = true ->
  cur bt off (put_value c ++ r) ->
  prop_case (prop_id c) bt off p = Ok (store c p, off + blen (put_value c)).
Proof.
  intros Hf H. rewrite prop_case_read, (read_prop_put c bt off r Hf H). destruct c; reflexivity.
Qed.

Definition props_valid_for (pkt : N) (cs : list sprop) : bool :=
  forallb (fun c => valid_prop (prop_id c) pkt) cs.

Lemma props_loop_put cs : forall fuel pkt bt off p r,
  (length cs <= fuel)%nat -> forallb prop_fits cs = true -> props_valid_for pkt cs = true ->
  cur bt off (put_props_body cs ++ r) ->
  props_loop fuel pkt bt (off + blen (put_props_body cs)) off p = Ok (store_all cs p).
Proof.
  induction cs as [|c cs IH]; intros fuel pkt bt off p r Hfu Hfit Hval H.
  - cbn [put_props_body map concat]. change (blen []) with 0.
    destruct fuel; cbn [props_loop]; replace (off + 0 <=? off) with true by lia; reflexivity.
  - destruct fuel as [|f]; [cbn in Hfu; lia|]. cbn [length] in Hfu.
    cbn [forallb] in Hfit. apply andb_prop in Hfit. destruct Hfit as [Hf1 Hf2].
    unfold props_valid_for in Hval. cbn [forallb] in Hval. apply andb_prop in Hval.
    destruct Hval as [Hv1 Hv2].
    rewrite put_props_body_cons in *. rewrite put_prop_split in *.
    cbn [props_loop]. rewrite blen_app, blen_cons.
    replace (off + (blen (put_value c) + 1 + blen (put_props_body cs)) <=? off) with false by lia.
    rewrite <- app_assoc in H. cbn [app] in H.
    rewrite (decodeByte_cur H). cbn beta iota delta [bind bind_err].
    rewrite Hv1. cbn [negb].
    apply (cur_adv bt off [prop_id c]) in H. change (blen [prop_id c]) with 1 in H.
    rewrite (prop_case_put c bt (off + 1) p _ Hf1 H).
    cbn beta iota delta [bind bind_err].
    apply cur_adv in H.
    replace (off + (blen (put_value c) + 1 + blen (put_props_body cs)))
      with (off + 1 + blen (put_value c) + blen (put_props_body cs)) by lia.
    apply (IH f pkt bt _ (store c p) r); try assumption; lia.
Qed.

Lemma put_props_body_nil cs : put_props_body cs = [] -> cs = [].
Proof.
  destruct cs as [|c cs]; [reflexivity|]. rewrite put_props_body_cons, put_prop_split. discriminate.
Qed.

Lemma blen_put_props cs : blen (put_props cs) = blen (put_vbi (len (put_props_body cs))) + blen (put_props_body cs).
Proof. unfold put_props. apply blen_app. Qed.

Lemma props_decode_put pkt p cs r :
  forallb prop_fits cs = true -> props_valid_for pkt cs = true ->
  len (put_props_body cs) <= 268435455 ->
  props_decode pkt p (put_props cs ++ r) = Ok (blen (put_props cs), store_all cs p).
Proof.
  intros Hfit Hval Hlen. unfold props_decode, put_props. rewrite <- app_assoc.
  rewrite (vbi_decode_put _ _ Hlen).
  change (len (put_props_body cs)) with (blen (put_props_body cs)) in *.
  destruct (blen (put_props_body cs) =? 0) eqn:E0.
  - assert (cs = []) as ->.
    { apply put_props_body_nil. destruct (put_props_body cs); [reflexivity|]. rewrite blen_cons in E0. lia. }
    reflexivity.
  - pose proof (props_loop_put cs (S (length (put_props_body cs ++ r))) pkt (put_props_body cs ++ r) 0 p r) as L.
    rewrite N.add_0_l in L. rewrite L.
    + cbn beta iota delta [bind bind_err]. rewrite blen_app. f_equal. f_equal. lia.
    + pose proof (props_count cs). rewrite app_length. lia.
    + exact Hfit.
    + exact Hval.
    + apply cur_start.
Qed.
