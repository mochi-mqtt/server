(* C26, re-encode direction: a byte string the decoder accepts re-encodes to bytes
   that decode to the normal form of the decoded packet. *)
From MV Require Import Base.Val Codec.Wire Codec.MochiCodec Codec.SpecCodec Codec.CodecEnc Codec.CodecNorm
  Codec.CodecNormProofs Codec.CodecRoundTrip Codec.CodecDecWf.
Open Scope N_scope.

Lemma kf_mods m pk : KF_C26_pid0 (set_pk_mods m pk) = KF_C26_pid0 pk.
Proof. destruct pk; reflexivity. Qed.

Lemma version_mods m pk : pk_version (set_pk_mods m pk) = pk_version pk.
Proof. destruct pk; reflexivity. Qed.

(* RE-ENCODING.  Any byte string the decoder accepts — under any protocol version byte, followed by
   anything — yields a packet that the encoder (with any Mods) accepts and whose encoding decodes to
   the packet's normal form, except for
   - the known finding KF_C26_pid0 (identifier 0 where one is required: the encoder refuses);
   - a CONNECT that ConnectValidate would refuse for its protocol name / level or for will bits
     without the will flag ([connect_standard]; the decoder accepts it, the proof does not cover it);
   - inputs within 0.4 MB of the protocol's maximum packet size (IN_MAX = 268000000): Properties.Decode
     lets the last property of a block run past the declared block length, so a re-encoding can be
     longer than the accepted input. *)
Theorem reencode v bs pk rest m :
  v < 256 -> Vbi.wf_bytes bs -> blen bs <= IN_MAX ->
  mochi_decode_packet v bs = Ok (pk, rest) ->
  (fh_type (pk_fh pk) = 1 -> connect_standard pk = true) ->
  KF_C26_pid0 pk = false ->
  let pk' := set_pk_mods m pk in
  exists bs' rem, mochi_encode pk' = Ok bs' /\
    forall rest', Vbi.wf_bytes (bs' ++ rest') ->
      mochi_decode_packet (pk_version pk) (bs' ++ rest') = Ok (norm pk' rem, rest').
Proof.
  intros Hv W Hmax E Hstd K. cbv zeta.
  pose proof (decoded_wf v bs pk rest m Hv W Hmax E Hstd) as Wf.
  destruct (roundtrip_total (set_pk_mods m pk) Wf ltac:(rewrite kf_mods; exact K)) as (bs' & rem & Eb & _ & Hd).
  exists bs', rem. split; [exact Eb|]. intros rest' Hw. rewrite <- (version_mods m pk). apply Hd. exact Hw.
Qed.

(* with the pid-0 finding: the encoder refuses exactly those decoded packets *)
Theorem reencode_refused v bs pk rest m :
  v < 256 -> Vbi.wf_bytes bs -> blen bs <= IN_MAX ->
  mochi_decode_packet v bs = Ok (pk, rest) ->
  (fh_type (pk_fh pk) = 1 -> connect_standard pk = true) ->
  KF_C26_pid0 pk = true -> mochi_encode (set_pk_mods m pk) = Err ENoPacketID.
Proof.
  intros _ _ _ _ _ K. apply encode_pid0. rewrite kf_mods. exact K.
Qed.
