(* Round trip of the REFERENCE codec (SpecCodec.v): the reference decoder accepts every form the
   reference encoder writes for a valid packet, returns that packet and leaves the following bytes
   unread (spec_roundtrip); validity does not depend on the order of the properties, so it accepts
   every encoding the standard permits (spec_accepts_encodings).  No mochi model is involved here. *)
From MV Require Import Base.Val Base.ListMisc Codec.Vbi Codec.VbiProofs Codec.SpecCodec Codec.SpecFacts.
From Coq Require Import Lia ZifyBool ZifyN ZifyNat Permutation.
(* no proof here needs division in lia *)
Local Ltac Zify.zify_post_hook ::= idtac.
Open Scope N_scope.

#[local] Arguments N.mul : simpl never.
#[local] Arguments N.add : simpl never.
#[local] Arguments N.sub : simpl never.
#[local] Arguments N.div : simpl never.
#[local] Arguments N.modulo : simpl never.
#[local] Arguments N.ltb : simpl never.
#[local] Arguments N.leb : simpl never.
#[local] Arguments N.eqb : simpl never.
#[local] Arguments N.of_nat : simpl never.
#[local] Arguments N.to_nat : simpl never.
#[local] Arguments N.pow : simpl never.
#[local] Arguments N.testbit : simpl never.

Ltac ob := cbn beta iota delta [obind guard].

Lemma get_u16_put n r : get_u16 (put_u16 n ++ r) = Some (n, r).
Proof. unfold put_u16. cbn [app get_u16]. rewrite N.mul_comm, <- N.div_mod'. reflexivity. Qed.

Lemma get_u32_put n r : get_u32 (put_u32 n ++ r) = Some (n, r).
Proof. unfold put_u32. cbn [app get_u32]. rewrite u32_digits. reflexivity. Qed.

Lemma take_app (d r : bytes) : take (len d) (d ++ r) = Some (d, r).
Proof.
  unfold take. rewrite len_app. replace (len d + len r <? len d) with false by lia.
  unfold len. replace (N.to_nat (N.of_nat (length d))) with (length d) by lia.
  rewrite firstn_app, firstn_all, Nat.sub_diag, skipn_app, skipn_all, Nat.sub_diag.
  cbn [firstn skipn app]. rewrite app_nil_r. reflexivity.
Qed.

Lemma get_bin_put d r : get_bin (put_bin d ++ r) = Some (d, r).
Proof.
  unfold get_bin, put_bin. rewrite <- app_assoc, get_u16_put. ob. apply take_app.
Qed.

Lemma get_str_put s r : utf8_wf s = true -> get_str (put_str s ++ r) = Some (s, r).
Proof. intro H. unfold get_str, put_str. rewrite get_bin_put. ob. rewrite H. reflexivity. Qed.

Lemma get_vbi_put n r : n <= 268435455 -> get_vbi (put_vbi n ++ r) = Some (n, r).
Proof.
  intro H. unfold get_vbi.
  rewrite (spec_decode_encode n (put_vbi n) r H (put_vbi_encode n H)). ob.
  rewrite app_length. replace (length (put_vbi n) + length r - length r)%nat with (length (put_vbi n)) by lia.
  rewrite (enc_length n (put_vbi n) H (put_vbi_encode n H)). rewrite N.eqb_refl. reflexivity.
Qed.

Lemma str_ok_wf s : str_ok s = true -> utf8_wf s = true.
Proof. unfold str_ok. intro H. apply andb_prop in H. tauto. Qed.

Lemma get_prop_put c r : prop_value_ok c = true -> get_prop (put_prop c ++ r) = Some (c, r).
Proof.
  intro H. destruct c; cbn [prop_value_ok] in H; unfold get_prop, put_prop; cbn [prop_id app get_u8]; ob;
    try (cbn [app get_u8]; ob; reflexivity);
    try (rewrite get_u32_put; reflexivity);
    try (rewrite get_u16_put; reflexivity);
    try (rewrite get_str_put by (split_and; apply str_ok_wf; assumption); reflexivity);
    try (rewrite get_bin_put; reflexivity).
  - (* subscription identifier *) rewrite get_vbi_put by (split_and; apply N.leb_le; assumption). reflexivity.
  - (* user property *) split_and. rewrite <- app_assoc.
    rewrite get_str_put by (apply str_ok_wf; assumption). ob.
    rewrite get_str_put by (apply str_ok_wf; assumption). reflexivity.
Qed.

Lemma put_prop_cons c : exists t, put_prop c = prop_id c :: t.
Proof. unfold put_prop. eexists. reflexivity. Qed.

Lemma parse_props_cons f b t :
  parse_props (S f) (b :: t) = (do (c, r) <- get_prop (b :: t); do cs <- parse_props f r; Some (c :: cs)).
Proof. reflexivity. Qed.

Lemma parse_props_put cs : forall fuel, (length cs <= fuel)%nat -> forallb prop_value_ok cs = true ->
  parse_props fuel (put_props_body cs) = Some cs.
Proof.
  induction cs as [|c cs IH]; intros fuel Hf Hv.
  - destruct fuel; reflexivity.
  - destruct fuel as [|f]; [inversion Hf|]. cbn [length] in Hf.
    cbn [forallb] in Hv. apply andb_prop in Hv. destruct Hv as [Hc Hcs].
    rewrite put_props_body_cons. destruct (put_prop_cons c) as [t Et].
    assert (E : put_prop c ++ put_props_body cs = prop_id c :: (t ++ put_props_body cs))
      by (rewrite Et; reflexivity).
    rewrite E, parse_props_cons, <- E.
    rewrite (get_prop_put c _ Hc). ob. rewrite (IH f (le_S_n _ _ Hf) Hcs). reflexivity.
Qed.

Lemma get_props_put cs r : forallb prop_value_ok cs = true -> len (put_props_body cs) <= 268435455 ->
  get_props (put_props cs ++ r) = Some (cs, r).
Proof.
  intros Hv Hl. unfold get_props, put_props. rewrite <- app_assoc.
  rewrite (get_vbi_put _ _ Hl). ob. rewrite take_app. ob.
  rewrite (parse_props_put cs _ (props_count cs) Hv). reflexivity.
Qed.

Lemma props_ok_parts x ps : props_ok x ps = true ->
  forallb prop_value_ok ps = true /\ len (put_props_body ps) <= 268435455.
Proof. unfold props_ok. intro H. split_and. split; [assumption | lia]. Qed.

Lemma get_props_v_put v x ps r : props_for v x ps = true ->
  get_props_v v (put_props_v v ps ++ r) = Some (ps, r).
Proof.
  unfold props_for, get_props_v, put_props_v. destruct (v5 v); intro H.
  - destruct (props_ok_parts _ _ H) as [H1 H2]. apply get_props_put; assumption.
  - rewrite (no_props_nil ps H). reflexivity.
Qed.

Lemma put_props_nonempty ps : exists b t, put_props ps = b :: t.
Proof.
  unfold put_props, put_vbi.
  repeat match goal with |- context [if ?c then _ else _] => destruct c end; cbn [app]; eauto.
Qed.

Lemma dec_reason_props_full reason ps : forallb prop_value_ok ps = true ->
  len (put_props_body ps) <= 268435455 ->
  dec_reason_props (reason :: put_props ps) = Some (reason, ps).
Proof.
  intros Hv Hl. destruct (put_props_nonempty ps) as (b & t & E).
  unfold dec_reason_props. rewrite E. rewrite <- E.
  rewrite <- (app_nil_r (put_props ps)). rewrite (get_props_put ps [] Hv Hl). reflexivity.
Qed.

Lemma bit_testbit b i : bit b i = N.testbit b i.
Proof. reflexivity. Qed.

Lemma filter_byte qos nl rap rh : qos <= 2 -> rh <= 2 ->
  let o := qos + bool_bit nl 2 + bool_bit rap 3 + 16 * rh in
  (o <? 64) = true /\ o mod 4 = qos /\ bit o 2 = nl /\ bit o 3 = rap /\ (o / 16) mod 4 = rh.
Proof.
  intros Hq Hr.
  assert (Q : qos = 0 \/ qos = 1 \/ qos = 2) by lia. assert (R : rh = 0 \/ rh = 1 \/ rh = 2) by lia.
  destruct Q as [->|[->| ->]]; destruct R as [->|[->| ->]]; destruct nl; destruct rap; vm_compute; repeat split.
Qed.

Lemma dec_filters_put v fs : forall fuel, (length fs <= fuel)%nat -> forallb (filter_ok v) fs = true ->
  dec_filters v fuel (concat (map (put_filter v) fs)) = Some fs.
Proof.
  induction fs as [|f fs IH]; intros fuel Hf Hv.
  - destruct fuel; reflexivity.
  - destruct fuel as [|fu]; [inversion Hf|]. cbn [length] in Hf.
    cbn [forallb] in Hv. apply andb_prop in Hv. destruct Hv as [Hc Hcs].
    cbn [map concat]. unfold put_filter at 1. rewrite <- app_assoc.
    destruct f as [flt qos nl rap rh]. cbn [f_filter f_qos f_no_local f_retain_as_published f_retain_handling] in *.
    unfold filter_ok in Hc. cbn [f_filter f_qos f_no_local f_retain_as_published f_retain_handling] in Hc. split_and.
    assert (Hne : exists b t, put_str flt ++ [qos + bool_bit nl 2 + bool_bit rap 3 + 16 * rh] ++ concat (map (put_filter v) fs) = b :: t).
    { unfold put_str, put_bin, put_u16. cbn [app]. eauto. }
    destruct Hne as (b & t & Ene). rewrite Ene. cbn [dec_filters]. rewrite <- Ene.
    rewrite get_str_put by (apply str_ok_wf; assumption). ob. cbn [app get_u8]. ob.
    assert (Hq : qos <= 2) by (apply N.leb_le; assumption).
    assert (Hrh : rh <= 2 /\ (v5 v = false -> nl = false /\ rap = false /\ rh = 0)).
    { destruct (v5 v); [split; [apply N.leb_le; assumption|discriminate]|]. split_and.
      match goal with E : (rh =? 0) = true |- _ => apply N.eqb_eq in E; subst rh end. split; [discriminate|]. intros _.
      destruct nl; [discriminate|]. destruct rap; [discriminate|]. auto. }
    destruct Hrh as [Hrh Hleg].
    destruct (filter_byte qos nl rap rh Hq Hrh) as (F1 & F2 & F3 & F4 & F5). cbv zeta in *.
    assert (G : (if v5 v then qos + bool_bit nl 2 + bool_bit rap 3 + 16 * rh <? 64
                 else qos + bool_bit nl 2 + bool_bit rap 3 + 16 * rh <? 4) = true).
    { destruct (v5 v); [exact F1|]. destruct (Hleg eq_refl) as (-> & -> & ->). cbn [bool_bit]. clear - Hq. lia. }
    rewrite G. ob. rewrite (IH fu (le_S_n _ _ Hf) Hcs). rewrite F2, F3, F4, F5. reflexivity.
Qed.

Lemma dec_strings_put (fs : list bytes) : forall fuel, (length fs <= fuel)%nat ->
  forallb (fun f => str_ok f && (1 <=? len f)) fs = true ->
  dec_strings fuel (concat (map put_str fs)) = Some fs.
Proof.
  induction fs as [|f fs IH]; intros fuel Hf Hv.
  - destruct fuel; reflexivity.
  - destruct fuel as [|fu]; [inversion Hf|]. cbn [length] in Hf.
    cbn [forallb] in Hv. apply andb_prop in Hv. destruct Hv as [Hc Hcs]. split_and.
    cbn [map concat].
    assert (Hne : exists b t, put_str f ++ concat (map put_str fs) = b :: t).
    { unfold put_str, put_bin, put_u16. cbn [app]. eauto. }
    destruct Hne as (b & t & Ene). rewrite Ene. cbn [dec_strings]. rewrite <- Ene.
    rewrite get_str_put by (apply str_ok_wf; assumption). ob. rewrite (IH fu (le_S_n _ _ Hf) Hcs). reflexivity.
Qed.

Lemma dec_reason_props_forms reason ps body :
  forallb prop_value_ok ps = true -> len (put_props_body ps) <= 268435455 ->
  In body ((reason :: put_props ps)
           :: (if no_props ps then [[reason]] else [])
           ++ (if no_props ps && (reason =? 0) then [[]] else [])) ->
  dec_reason_props body = Some (reason, ps).
Proof.
  intros Hv Hl Hin. apply (short_forms reason ps []) in Hin. cbn [app] in Hin.
  destruct Hin as [->|[[-> ->]|[-> [-> ->]]]].
  - apply dec_reason_props_full; assumption.
  - reflexivity.
  - reflexivity.
Qed.

Lemma publish_flags dup qos retain : qos <= 2 ->
  let f := bool_bit dup 3 + 2 * qos + bool_bit retain 0 in
  (f / 2) mod 4 = qos /\ bit f 3 = dup /\ bit f 0 = retain /\ f < 16.
Proof.
  intro H. assert (Q : qos = 0 \/ qos = 1 \/ qos = 2) by lia.
  destruct Q as [->|[->| ->]]; destruct dup; destruct retain; vm_compute; repeat split.
Qed.

Lemma props_for_parts v x ps : props_for v x ps = true ->
  (v5 v = true -> forallb prop_value_ok ps = true /\ len (put_props_body ps) <= 268435455) /\
  (v5 v = false -> ps = []).
Proof.
  unfold props_for. destruct (v5 v); intro H; split; intro E; try discriminate.
  - apply (props_ok_parts _ _ H).
  - exact (no_props_nil ps H).
Qed.

Lemma dec_connack v sp code ps : valid_packet v (SConnack sp code ps) = true ->
  dec_body v 2 0 (full_body v (SConnack sp code ps)) = Some (SConnack sp code ps).
Proof.
  intros V. cbn [valid_packet] in V. split_and.
  cbn [full_body dec_body app get_u8]. ob.
  replace ((if sp then 1 else 0) <=? 1) with true by (destruct sp; reflexivity). ob. cbn [get_u8]. ob.
  rewrite <- (app_nil_r (put_props_v v ps)).
  erewrite get_props_v_put by eassumption. ob. destruct sp; reflexivity.
Qed.

Lemma dec_publish v dup qos retain topic id ps payload (p := SPublish dup qos retain topic id ps payload) :
  valid_packet v p = true -> dec_body v 3 (pflags p) (full_body v p) = Some p.
Proof.
  intros V. subst p. cbn [valid_packet] in V. split_and.
  cbn [pflags full_body dec_body].
  destruct (publish_flags dup qos retain ltac:(lia)) as (F1 & F2 & F3 & _). cbv zeta in *.
  rewrite F1, F2, F3.
  rewrite get_str_put by (apply str_ok_wf; assumption). ob.
  destruct (qos =? 0) eqn:Eq.
  - assert (id = 0) as -> by lia. cbn [app]. ob.
    erewrite get_props_v_put by eassumption. ob. reflexivity.
  - rewrite get_u16_put. ob. erewrite get_props_v_put by eassumption. ob. reflexivity.
Qed.

Lemma dec_ack v k id reason ps body : valid_packet v (SAck k id reason ps) = true ->
  In body (bodies v (SAck k id reason ps)) ->
  dec_body v (ack_type k) (pflags (SAck k id reason ps)) body = Some (SAck k id reason ps).
Proof.
  intros V Hin. cbn [valid_packet] in V. split_and.
  assert (D : dec_body v (ack_type k) (pflags (SAck k id reason ps)) body =
              (do (id', r) <- get_u16 body;
               if v5 v then do (reason', ps') <- dec_reason_props r; Some (SAck k id' reason' ps')
               else match r with [] => Some (SAck k id' 0 []) | _ => None end))
    by (destruct k; reflexivity).
  rewrite D. clear D.
  match goal with Hp : props_for _ _ _ = true |- _ => destruct (props_for_parts _ _ _ Hp) as [P5 P3] end.
  unfold bodies in Hin. destruct (v5 v) eqn:E5; cbn [negb] in Hin.
  - destruct (P5 eq_refl) as [Hv Hl]. cbn [full_body] in Hin. rewrite E5 in Hin.
    apply (short_forms reason ps (put_u16 id)) in Hin.
    destruct Hin as [->|[[-> ->]|[-> [-> ->]]]].
    + rewrite get_u16_put. ob. rewrite (dec_reason_props_full _ _ Hv Hl). reflexivity.
    + rewrite get_u16_put. ob. reflexivity.
    + rewrite <- (app_nil_r (put_u16 id)). rewrite get_u16_put. ob. reflexivity.
  - apply in_single in Hin. subst body. cbn [full_body]. rewrite E5.
    rewrite (P3 eq_refl). rewrite get_u16_put. ob.
    match goal with Hr : (reason =? 0) = true |- _ => apply N.eqb_eq in Hr; subst reason end. reflexivity.
Qed.

Lemma nonempty_forallb {A} (f : A -> bool) l :
  match l with [] => false | _ => forallb f l end = true -> forallb f l = true.
Proof. destruct l; [discriminate|auto]. Qed.

Lemma dec_subscribe v id ps fs : valid_packet v (SSubscribe id ps fs) = true ->
  dec_body v 8 2 (full_body v (SSubscribe id ps fs)) = Some (SSubscribe id ps fs).
Proof.
  intros V. cbn [valid_packet] in V. split_and.
  cbn [full_body dec_body]. rewrite get_u16_put. ob.
  erewrite get_props_v_put by eassumption. ob.
  rewrite (dec_filters_put v fs _ (filters_count v fs)) by (apply nonempty_forallb; assumption).
  reflexivity.
Qed.

Lemma dec_suback v id ps codes : valid_packet v (SSuback id ps codes) = true ->
  dec_body v 9 0 (full_body v (SSuback id ps codes)) = Some (SSuback id ps codes).
Proof.
  intros V. cbn [valid_packet] in V. split_and.
  cbn [full_body dec_body]. rewrite get_u16_put. ob.
  erewrite get_props_v_put by eassumption. ob. reflexivity.
Qed.

Lemma dec_unsubscribe v id ps fs : valid_packet v (SUnsubscribe id ps fs) = true ->
  dec_body v 10 2 (full_body v (SUnsubscribe id ps fs)) = Some (SUnsubscribe id ps fs).
Proof.
  intros V. cbn [valid_packet] in V. split_and.
  cbn [full_body dec_body]. rewrite get_u16_put. ob.
  erewrite get_props_v_put by eassumption. ob.
  rewrite (dec_strings_put fs _ (strings_count fs)) by (apply nonempty_forallb; assumption).
  reflexivity.
Qed.

Lemma dec_unsuback v id ps codes : valid_packet v (SUnsuback id ps codes) = true ->
  dec_body v 11 0 (full_body v (SUnsuback id ps codes)) = Some (SUnsuback id ps codes).
Proof.
  intros V. cbn [valid_packet] in V. split_and.
  cbn [full_body dec_body]. rewrite get_u16_put. ob.
  erewrite get_props_v_put by eassumption. ob. reflexivity.
Qed.

Lemma dec_disconnect v reason ps body : valid_packet v (SDisconnect reason ps) = true ->
  In body (bodies v (SDisconnect reason ps)) -> dec_body v 14 0 body = Some (SDisconnect reason ps).
Proof.
  intros V Hin. cbn [valid_packet] in V. unfold bodies in Hin. cbn [dec_body].
  destruct (v5 v) eqn:E5; cbn [negb] in Hin; split_and.
  - destruct (props_ok_parts _ _ ltac:(eassumption)) as [Hv Hl].
    cbn [full_body] in Hin. rewrite E5 in Hin.
    rewrite (dec_reason_props_forms reason ps body Hv Hl Hin). reflexivity.
  - apply in_single in Hin. subst body. cbn [full_body]. rewrite E5.
    match goal with Hr : (reason =? 0) = true |- _ => apply N.eqb_eq in Hr; subst reason end.
    match goal with Hp : no_props ps = true |- _ => rewrite (no_props_nil ps Hp) end. reflexivity.
Qed.

Lemma dec_auth v reason ps body : valid_packet v (SAuth reason ps) = true ->
  In body (bodies v (SAuth reason ps)) -> dec_body v 15 0 body = Some (SAuth reason ps).
Proof.
  intros V Hin. cbn [valid_packet] in V. split_and. unfold bodies in Hin. cbn [dec_body].
  match goal with H5 : v5 v = true |- _ => rewrite H5 in *; cbn [negb] in Hin end.
  destruct (props_ok_parts _ _ ltac:(eassumption)) as [Hv Hl]. cbn [full_body] in Hin.
  rewrite (dec_reason_props_forms reason ps body Hv Hl Hin). reflexivity.
Qed.

Lemma connect_flags_bits clean will user pass : opt_ok (fun w => will_qos w <=? 2) will = true ->
  let fl := connect_flags_of clean will user pass in
  bit fl 0 = false /\ bit fl 1 = clean /\ bit fl 2 = is_some will /\
  (fl / 8) mod 4 = match will with Some w => will_qos w | None => 0 end /\
  bit fl 5 = match will with Some w => will_retain w | None => false end /\
  bit fl 6 = is_some pass /\ bit fl 7 = is_some user.
Proof.
  intro Hq. destruct will as [[wps wt wp wq wr]|]; cbn [opt_ok will_qos] in Hq.
  - assert (Q : wq = 0 \/ wq = 1 \/ wq = 2) by lia.
    destruct Q as [->|[->| ->]]; destruct clean; destruct wr; destruct user; destruct pass;
      vm_compute; repeat split.
  - destruct clean; destruct user; destruct pass; vm_compute; repeat split.
Qed.

Lemma dec_connect_ok v lvl clean ka ps cid will user pass (p := SConnect lvl clean ka ps cid will user pass) :
  valid_packet v p = true -> dec_body v 1 0 (full_body v p) = Some p.
Proof.
  intros V. subst p. cbn [valid_packet] in V. split_and.
  cbn [full_body dec_body]. unfold dec_connect.
  set (name := if lvl =? 3 then bytes_of_string "MQIsdp" else bytes_of_string "MQTT").
  assert (Hname : utf8_wf name = true) by (unfold name; destruct (lvl =? 3); reflexivity).
  rewrite (get_str_put name _ Hname). ob. cbn [app get_u8]. ob.
  assert (G1 : (if lvl =? 3 then beq_bytes name (bytes_of_string "MQIsdp")
                else ((lvl =? 4) || (lvl =? 5)) && beq_bytes name (bytes_of_string "MQTT")) = true).
  { unfold name. destruct (lvl =? 3) eqn:E3; [reflexivity|].
    replace ((lvl =? 4) || (lvl =? 5)) with true by lia. reflexivity. }
  rewrite G1. ob. cbn [get_u8]. ob.
  assert (Hq : opt_ok (fun w => will_qos w <=? 2) will = true).
  { destruct will as [w|]; [|reflexivity]. cbn [opt_ok] in *.
    match goal with Hw : will_ok _ _ = true |- _ => unfold will_ok in Hw end. split_and. assumption. }
  destruct (connect_flags_bits clean will user pass Hq) as (F0 & F1 & F2 & F3 & F5 & F6 & F7). cbv zeta in *.
  set (fl := connect_flags_of clean will user pass) in *.
  rewrite F0, F1, F2, F3, F5, F6, F7. cbn [negb]. ob.
  assert (G2 : is_some will || (match will with Some w => will_qos w | None => 0 end =? 0)
                 && negb match will with Some w => will_retain w | None => false end = true)
    by (destruct will; reflexivity).
  rewrite G2. ob. rewrite get_u16_put. ob.
  erewrite get_props_v_put by eassumption. ob.
  rewrite get_str_put by (apply str_ok_wf; assumption). ob.
  (* the will, if any; then user name and password in the same way with or without it *)
  destruct will as [[wps wt wp wq wr]|]; cbn [is_some opt_ok will_props will_topic will_payload will_qos will_retain app] in *;
    [match goal with Hw : will_ok _ _ = true |- _ => unfold will_ok in Hw; cbn [will_props will_topic will_payload will_qos] in Hw end;
     split_and; rewrite <- !app_assoc;
     rewrite (get_props_v_put lvl XWill wps) by (unfold props_for; assumption); ob;
     rewrite get_str_put by (apply str_ok_wf; assumption); ob; rewrite get_bin_put|];
    ob; destruct user as [u|], pass as [pw|]; cbn [is_some opt_ok app] in *;
    rewrite ?get_str_put by (apply str_ok_wf; assumption); ob;
    try (rewrite <- (app_nil_r (put_bin pw)), get_bin_put; ob); reflexivity.
Qed.

Theorem dec_body_ok v p body : valid_packet v p = true -> In body (bodies v p) ->
  dec_body v (ptype p) (pflags p) body = Some p.
Proof.
  intros V Hin. destruct p; try (apply bodies_full in Hin; [subst body | exact I]).
  - apply dec_connect_ok; assumption.
  - apply dec_connack; assumption.
  - apply dec_publish; assumption.
  - apply dec_ack; assumption.
  - apply dec_subscribe; assumption.
  - apply dec_suback; assumption.
  - apply dec_unsubscribe; assumption.
  - apply dec_unsuback; assumption.
  - reflexivity.
  - reflexivity.
  - apply dec_disconnect; assumption.
  - apply dec_auth; assumption.
Qed.

Lemma header_fields v p : valid_packet v p = true ->
  (ptype p * 16 + pflags p) / 16 = ptype p /\ (ptype p * 16 + pflags p) mod 16 = pflags p /\
  flags_ok (ptype p) (pflags p) = true.
Proof.
  intro V. destruct p; cbn [ptype pflags]; try (vm_compute; repeat split; fail).
  - cbn [valid_packet] in V. split_and.
    destruct (publish_flags dup qos retain ltac:(lia)) as (_ & _ & _ & F). cbv zeta in F.
    split; [rewrite N.div_add_l, (N.div_small _ 16 F) by discriminate; reflexivity|].
    split; [rewrite N.add_comm, N.mod_add by discriminate; exact (N.mod_small _ 16 F)|reflexivity].
  - destruct kind; vm_compute; repeat split.
Qed.

Theorem spec_roundtrip v p bs rest : valid_packet v p = true -> In bs (spec_forms v p) ->
  spec_decode_packet v (bs ++ rest) = Some (p, rest).
Proof.
  intros V Hin. unfold spec_forms in Hin. apply in_map_iff in Hin. destruct Hin as (body & <- & Hb).
  apply filter_In in Hb. destruct Hb as [Hb Hl].
  destruct (header_fields v p V) as (H1 & H2 & H3).
  unfold spec_decode_packet, frame. cbn [app get_u8]. ob. rewrite H1, H2, H3. ob.
  rewrite <- app_assoc. rewrite get_vbi_put by lia. ob. rewrite take_app. ob.
  rewrite (dec_body_ok v p body V Hb). ob. rewrite V. reflexivity.
Qed.

Corollary spec_encode_decode v p bs rest : spec_encode_packet v p = Some bs ->
  spec_decode_packet v (bs ++ rest) = Some (p, rest).
Proof.
  unfold spec_encode_packet. intro H.
  destruct (valid_packet v p && (len (full_body v p) <=? 268435455)) eqn:E; [|discriminate].
  injection H as <-. apply andb_prop in E. destruct E as [V L].
  apply spec_roundtrip; [exact V|]. unfold spec_forms. apply in_map. apply filter_In. split; [|exact L].
  apply full_in_bodies.
Qed.

Definition single (x : pctx) (c : sprop) : bool := negb (repeatable x c).

Lemma no_dup_ids_spec x : forall ps seen,
  no_dup_ids x seen ps = true <->
  (NoDup (map prop_id (filter (single x) ps)) /\
   forall k, In k (map prop_id (filter (single x) ps)) -> existsb (N.eqb k) seen = false).
Proof.
  induction ps as [|c r IH]; intro seen.
  - cbn. split; [intros _; split; [constructor | intros k []] | reflexivity].
  - cbn [no_dup_ids filter]. change (single x c) with (negb (repeatable x c)). destruct (repeatable x c) eqn:R; cbn [negb].
    + apply IH.
    + cbn [map]. rewrite andb_true_iff, negb_true_iff, (IH (prop_id c :: seen)). split.
      * intros (H1 & H2 & H3). split.
        -- constructor; [|exact H2]. intro Hin. specialize (H3 _ Hin). cbn [existsb] in H3.
           rewrite N.eqb_refl in H3. discriminate.
        -- intros k [<-|Hin]; [exact H1|]. specialize (H3 _ Hin). cbn [existsb] in H3.
           apply orb_false_iff in H3. tauto.
      * intros (H1 & H2). inversion H1 as [|? ? Hn Hd]; subst. split; [|split].
        -- apply H2. left. reflexivity.
        -- exact Hd.
        -- intros k Hin. cbn [existsb]. apply orb_false_iff. split.
           ++ apply N.eqb_neq. intro E. subst k. contradiction.
           ++ apply H2. right. exact Hin.
Qed.

Lemma no_dup_ids_perm x ps ps' : Permutation ps ps' -> no_dup_ids x [] ps = true -> no_dup_ids x [] ps' = true.
Proof.
  intros P H. apply no_dup_ids_spec in H. destruct H as [H _]. apply no_dup_ids_spec. split.
  - eapply Permutation_NoDup; [|exact H]. apply Permutation_map. apply filter_perm. exact P.
  - intros k _. reflexivity.
Qed.

Lemma props_ok_reorder x ps ps' : reorder ps ps' -> props_ok x ps = true -> props_ok x ps' = true.
Proof.
  intros [P _] H. unfold props_ok, has_prop in *.
  rewrite <- (forallb_perm _ _ _ P), <- (forallb_perm prop_value_ok _ _ P),
          <- !(existsb_perm _ _ _ P), <- (body_len_perm _ _ P).
  split_and. rewrite (no_dup_ids_perm x ps ps' P) by assumption.
  join_and; first [assumption | reflexivity].
Qed.

Lemma props_for_reorder v x ps ps' : reorder ps ps' -> props_for v x ps = true -> props_for v x ps' = true.
Proof. unfold props_for. destruct (v5 v); [apply props_ok_reorder | apply no_props_reorder]. Qed.

Lemma valid_same_packet v p p' : same_packet p p' -> valid_packet v p = true -> valid_packet v p' = true.
Proof.
  intros S V. destruct S; cbn [valid_packet] in *; split_and;
    join_and; try assumption;
    try (eapply props_for_reorder; eassumption).
  - (* connect with will *)
    cbn [opt_ok] in *. unfold will_ok in *. cbn [will_props will_topic will_payload will_qos] in *.
    split_and. join_and; try assumption. eapply (props_for_reorder lvl XWill); eassumption.
  - (* publish: topic alias presence *)
    unfold has_prop in *. destruct H as [P _]. rewrite <- (existsb_perm _ _ _ P). assumption.
  - (* disconnect *)
    destruct (v5 v); split_and; join_and; try assumption;
      [eapply props_ok_reorder | eapply no_props_reorder]; eassumption.
  - eapply props_ok_reorder; eassumption.
Qed.

Theorem spec_accepts_encodings v p bs rest : valid_packet v p = true -> spec_encodings v p bs ->
  exists p', same_packet p p' /\ spec_decode_packet v (bs ++ rest) = Some (p', rest).
Proof.
  intros V (p' & S & Hin). exists p'. split; [exact S|].
  apply spec_roundtrip; [|exact Hin]. eapply valid_same_packet; eassumption.
Qed.
