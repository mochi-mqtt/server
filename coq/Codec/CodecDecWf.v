(* C26, re-encode direction: every packet the decoder model returns is well-formed (wf_packet), so the
   encoder accepts it (apart from the refused identifier 0) and the round trip theorem applies.
   Two halves.  What the decoders do: whatever the packet type, each step stores a value in the
   range of its field, read from the bytes before the new offset; [inv] says so, with a size account
   ([psize] for a Properties struct, [fsz] for the packet) showing that the content of the fields
   is no longer than what was read, and every body decoder keeps it ([keeps], [decode_body_inv]).
   What that is worth: [fields_wf], a packet whose fields are in range and not too long is
   well-formed; no decoder is looked at there, only [abs] and [enc_ok]. *)
From MV Require Import Base.Val Base.Bytes Base.BytesEq Codec.Vbi Codec.Wire Codec.Props Codec.MochiCodec
  Codec.SpecCodec Codec.SpecFacts Codec.SpecBridge Codec.WireProofs Codec.CodecOrder Codec.CodecTotal Codec.CodecRT Codec.CodecEnc Codec.CodecNorm
  Codec.CodecNormProofs.
From Coq Require Import Lia ZifyBool ZifyN ZifyNat.
Ltac Zify.zify_post_hook ::= Z.div_mod_to_equations.
Open Scope N_scope.
Set Warnings "-unused-intro-pattern".

Local Notation wfb := Vbi.wf_bytes.

Lemma decodeBytes_val buf off : wfb buf ->
  post (decodeBytes buf off) (fun '(s, o) => o = off + 2 + blen s /\ o <= blen buf /\ bin_fits s = true).
Proof.
  intro W. eapply post_weaken; [apply decodeBytes_post|]. intros [s o] (A & B & C). destruct (C W) as [L _].
  unfold bin_fits. repeat split; try assumption. lia.
Qed.

Lemma decodeString_val buf off : wfb buf ->
  post (decodeString buf off) (fun '(s, o) => o = off + 2 + blen s /\ o <= blen buf /\ str_fits s = true).
Proof.
  intro W. eapply post_weaken; [apply decodeString_post|]. intros [s o] (A & B & U & C). destruct (C W) as [L _].
  unfold str_fits. rewrite U. repeat split; try assumption. lia.
Qed.

(* the range of the Go type behind a slot *)
Definition slot_wf (k : N) (s : sv) : bool :=
  match s with
  | SN n _ => match k with
              | 2 | 17 | 24 | 39 => n <=? 4294967295
              | 19 | 33 | 34 | 35 => n <? 65536
              | _ => n <? 256
              end
  | SB b => match k with 9 | 22 => bin_fits b | _ => str_fits b end
  | SL l => forallb (fun v => v <=? 268435455) l
  | SU l => forallb (fun kv => str_fits (fst kv) && str_fits (snd kv)) l
  | SNone => true
  end.

Lemma wf_props_slots p : wf_props p = forallb (fun k => slot_wf k (slot k p)) all_ids.
Proof.
  destruct p. apply eq_true_iff_eq. unfold wf_props. cbn.
  split; intro H; split_and; join_and; first [assumption | reflexivity].
Qed.

Lemma store_slot_wf c s : prop_range c = true -> slot_wf (prop_id c) s = true ->
  slot_wf (prop_id c) (sstore c s) = true.
Proof.
  destruct c; cbn [prop_range prop_fits prop_id sstore slot_wf]; intros R W; try assumption.
  - destruct s; try assumption. cbn [slot_wf] in *. rewrite forallb_app, W. cbn [forallb]. rewrite R. reflexivity.
  - destruct s; try assumption. cbn [slot_wf] in *. rewrite forallb_app, W. cbn [forallb fst snd]. rewrite R. reflexivity.
Qed.

Lemma store_wf c p : wf_props p = true -> prop_range c = true -> wf_props (store c p) = true.
Proof.
  rewrite !wf_props_slots, !forallb_forall. intros W R k Hk.
  destruct (N.eq_dec (prop_id c) k) as [<-|Hn].
  - rewrite slot_own. apply store_slot_wf; [exact R | apply W, Hk].
  - rewrite (slot_other c k p Hk Hn). apply W, Hk.
Qed.

(* size account of a Properties struct: an upper bound of what Properties.Encode can write for it *)
Definition tnum (k : N) (n : N) : N := if 0 <? n then k else 0.
Definition tstr (s : bytes) : N := if nonempty s then 3 + blen s else 0.
Fixpoint tsub (l : list N) : N :=
  match l with [] => 0 | v :: r => (if 0 <? v then 1 + vbi_min_len v else 0) + tsub r end.
Fixpoint tuser (l : list (bytes * bytes)) : N :=
  match l with [] => 0 | kv :: r => 5 + blen (fst kv) + blen (snd kv) + tuser r end.

(* identifier and value; a number is written when its flag is set or, having no flag, when it is not 0 *)
Definition slot_size (k : N) (s : sv) : N :=
  match s with
  | SN n f => let w := match k with 2 | 17 | 24 | 39 => 5 | 19 | 33 | 34 | 35 => 3 | _ => 2 end in
              if f then w else tnum w n
  | SB b => tstr b
  | SL l => tsub l
  | SU l => tuser l
  | SNone => 0
  end.

Fixpoint sumN (f : N -> N) (l : list N) : N := match l with [] => 0 | k :: r => f k + sumN f r end.

Definition psize (p : props) : N := sumN (fun k => slot_size k (slot k p)) all_ids.
#[local] Arguments psize : simpl never.

Lemma tnum_le k n : tnum k n <= k. Proof. unfold tnum. destruct (0 <? n); lia. Qed.
Lemma tstr_le s : tstr s <= 3 + blen s. Proof. unfold tstr. destruct (nonempty s); lia. Qed.
Lemma tsub_app l n : tsub (l ++ [n]) <= tsub l + 1 + vbi_min_len n.
Proof. induction l as [|a l IH]; cbn [app tsub]; [destruct (0 <? n); lia | lia]. Qed.
Lemma tuser_app l k v : tuser (l ++ [(k, v)]) = tuser l + 5 + blen k + blen v.
Proof. induction l as [|a l IH]; cbn [app tuser fst snd]; lia. Qed.

Lemma sumN_ext f g l : (forall k, In k l -> f k = g k) -> sumN f l = sumN g l.
Proof.
  induction l as [|a l IH]; intro H; [reflexivity|]. cbn [sumN].
  rewrite (H a (or_introl eq_refl)), IH; [reflexivity|]. intros k Hk. apply H. right. exact Hk.
Qed.

Lemma sumN_point f g k0 d l : NoDup l -> (forall k, In k l -> k <> k0 -> f k = g k) -> f k0 <= g k0 + d ->
  sumN f l <= sumN g l + d.
Proof.
  intros ND H H0. induction ND as [|a l Ha ND IH]; [cbn; lia|]. cbn [sumN].
  destruct (N.eq_dec a k0) as [->|Ne].
  - rewrite (sumN_ext f g l); [lia|]. intros k Hk. apply H; [right; exact Hk|]. intros ->. exact (Ha Hk).
  - rewrite (H a (or_introl eq_refl) Ne). specialize (IH (fun k Hk => H k (or_intror Hk))). lia.
Qed.

Lemma all_ids_nodup : NoDup all_ids.
Proof. exact (NoDup_nodup N.eq_dec all_ids). Qed.

Lemma store_slot_size c s : prop_range c = true ->
  slot_size (prop_id c) (sstore c s) <= slot_size (prop_id c) s + 1 + blen (put_value c).
Proof.
  intro R.
  destruct c; cbn [prop_range prop_fits] in R; cbn [prop_id sstore slot_size put_value put_prop List.tl];
    unfold put_str, put_bin; rewrite ?blen_app, ?blen_put_u16, ?blen_put_u32, ?blen_cons; change (blen []) with 0;
    try lia;
    try (match goal with |- context [tnum ?k ?n] => pose proof (tnum_le k n) end; lia);
    try (match goal with |- context [tstr ?s] => pose proof (tstr_le s) end; lia).
  - destruct s; try lia. cbn [slot_size]. pose proof (tsub_app l n). rewrite (blen_put_vbi n) by lia. lia.
  - destruct s; try lia. cbn [slot_size]. rewrite tuser_app. lia.
Qed.

Lemma store_psize c p : prop_range c = true -> psize (store c p) <= psize p + 1 + blen (put_value c).
Proof.
  intro R. unfold psize. rewrite <- N.add_assoc. apply (sumN_point _ _ (prop_id c)); [apply all_ids_nodup | |].
  - intros k Hk Hn. rewrite slot_other; [reflexivity | exact Hk | auto].
  - rewrite slot_own, N.add_assoc. apply store_slot_size, R.
Qed.

Lemma prop_case_inv k bt off p : wfb bt -> off <= blen bt -> wf_props p = true ->
  post (prop_case k bt off p)
       (fun '(p', o) => wf_props p' = true /\ off <= o <= blen bt /\ psize p' + off <= psize p + o + 1 /\ o <= off + PMAX).
Proof.
  intros W Hoff Wp. rewrite prop_case_read. destruct (existsb (N.eqb k) all_ids).
  - pstep ltac:(apply read_prop_post; exact Hoff). intros [c o] [H1 H2]. destruct (H2 W) as (R & L & S).
    pose proof (store_psize c p R). cbn. repeat split; try lia. apply store_wf; assumption.
  - cbn. unfold PMAX. repeat split; try assumption; lia.
Qed.

Lemma props_loop_inv fuel : forall pkt bt n off p,
  wfb bt -> off <= blen bt -> blen bt < off + N.of_nat fuel -> wf_props p = true ->
  post (props_loop fuel pkt bt n off p)
       (fun p' => wf_props p' = true /\ psize p' + off <= psize p + (N.max off (n + PMAX))).
Proof.
  induction fuel as [|f IH]; intros pkt bt n off p W H1 H2 Wp; [lia|].
  cbn [props_loop]. destruct (n <=? off) eqn:E; [cbn; split; [exact Wp | lia]|].
  pstep ltac:(apply decodeByte_val; exact W). intros [k o1] (K1 & K2 & K3).
  destruct (negb (valid_prop k pkt)); [exact I|].
  pstep ltac:(apply (prop_case_inv k bt o1 p W K2 Wp)). intros [p' o2] (I1 & I2 & I3 & I4).
  eapply post_weaken; [apply (IH pkt bt n o2 p' W ltac:(lia) ltac:(lia) I1)|].
  intros q [Q1 Q2]. split; [exact Q1|]. lia.
Qed.

Lemma props_decode_inv pkt p b : wfb b -> wf_props p = true ->
  post (props_decode pkt p b)
       (fun '(nn, p') => wf_props p' = true /\ nn <= blen b /\ psize p' + 1 <= psize p + nn + PMAX).
Proof.
  intros W Wp. unfold props_decode.
  destruct (vbi_decode b) as [n bu bt| |] eqn:E; [|exact I|exact I].
  destruct (vbi_decode_val b n bu bt W E) as (V1 & V2 & V3 & V4). destruct (vbi_decode_len b n bu bt E) as [_ B1].
  destruct (n =? 0) eqn:E0; [cbn; unfold PMAX; repeat split; try assumption; lia|].
  eapply post_bind.
  { apply post_and; [apply (props_loop_inv (S (length bt)) pkt bt n 0 p V4); [lia | unfold blen; lia | exact Wp]
                    | apply (props_loop_post (S (length bt)) pkt bt n 0 p); [lia | unfold blen; lia]]. }
  intros p' [[Q1 Q2] Q3]. cbn. unfold PMAX in *. repeat split; try assumption; lia.
Qed.

Lemma len_put_str s : len (put_str s) = 2 + blen s.
Proof. exact (blen_put_bin s). Qed.
Lemma len_put_u16 n : len (put_u16 n) = 2.
Proof. reflexivity. Qed.
Lemma len_cons a (l : bytes) : len (a :: l) = 1 + len l.
Proof. unfold len. cbn [length]. lia. Qed.
Lemma len_nil : len (@nil N) = 0. Proof. reflexivity. Qed.

Lemma ppb_optl_len c x : len (put_props_body (optl c x)) = if c then len (put_prop x) else 0.
Proof. destruct c; cbn [optl put_props_body map concat]; [rewrite app_nil_r|]; reflexivity. Qed.

Lemma seg_num (c : bool) x k n : (c = true -> (0 <? n) = true) -> len (put_prop x) = k ->
  len (put_props_body (optl c x)) <= tnum k n.
Proof. intros H L. rewrite ppb_optl_len. unfold tnum. destruct c; [rewrite (H eq_refl), L; lia | destruct (0 <? n); lia]. Qed.

Lemma andb_l a b : a && b = true -> a = true. Proof. destruct a; [reflexivity|discriminate]. Qed.
Lemma andb_r a b : a && b = true -> b = true. Proof. destruct a; [cbn; auto|discriminate]. Qed.

Definition fits_in (pkt : N) (l : list sprop) (z : N) : Prop :=
  forallb prop_fits l = true /\ props_valid_for pkt l = true /\ len (put_props_body l) <= z.

Lemma fits_app pkt a b x y : fits_in pkt a x -> fits_in pkt b y -> fits_in pkt (a ++ b) (x + y).
Proof.
  intros (A1 & A2 & A3) (B1 & B2 & B3). unfold fits_in, props_valid_for in *.
  rewrite !forallb_app, put_props_body_app, len_app, A1, A2, B1, B2. repeat split. lia.
Qed.

Lemma fits_optl pkt c x z :
  (c = true -> prop_fits x = true /\ valid_prop (prop_id x) pkt = true /\ len (put_prop x) <= z) ->
  fits_in pkt (optl c x) z.
Proof.
  intro H. destruct c; [|repeat split; apply N.le_0_l]. destruct (H eq_refl) as (H1 & H2 & H3).
  unfold fits_in, props_valid_for. cbn [optl forallb put_props_body map concat]. rewrite H1, H2, app_nil_r. auto.
Qed.

Lemma fits_if pkt (c : bool) l z : (c = true -> fits_in pkt l z) -> fits_in pkt (if c then l else []) z.
Proof. destruct c; [auto | repeat split; apply N.le_0_l]. Qed.

Lemma len_subid v : v <= 268435455 -> len (put_prop (SubscriptionId v)) = 1 + vbi_min_len v.
Proof.
  intro H. rewrite <- (blen_put_vbi v H). unfold len, blen, put_prop. cbn [prop_id length]. lia.
Qed.

Lemma fits_subids pkt l : valid_prop 11 pkt = true -> forallb (fun v => v <=? 268435455) l = true ->
  fits_in pkt (map SubscriptionId (filter (fun v => 0 <? v) l)) (tsub l).
Proof.
  intro V. induction l as [|v r IH]; intro H; [repeat split; apply N.le_0_l|].
  cbn [forallb] in H. apply andb_prop in H. destruct H as [Hv Hr]. specialize (IH Hr). cbn [filter tsub].
  destruct (0 <? v); [|destruct IH as (I1 & I2 & I3); repeat split; try assumption; lia].
  apply (fits_app pkt [SubscriptionId v]); [|exact IH].
  apply (fits_optl pkt true). intros _. rewrite len_subid by lia. repeat split; [exact Hv | exact V | lia].
Qed.

Lemma fits_users pkt (l : list (bytes * bytes)) : valid_prop 38 pkt = true ->
  forallb (fun kv => str_fits (fst kv) && str_fits (snd kv)) l = true ->
  fits_in pkt (map (fun kv => UserProperty (fst kv) (snd kv)) l) (tuser l).
Proof.
  intro V. induction l as [|[k v] r IH]; intro H; [repeat split; apply N.le_0_l|].
  cbn [forallb] in H. apply andb_prop in H. destruct H as [Hv Hr]. cbn [map tuser].
  apply (fits_app pkt [UserProperty k v]); [|exact (IH Hr)].
  apply (fits_optl pkt true). intros _. repeat split; [exact Hv | exact V |].
  unfold put_prop. cbn [prop_id fst snd]. rewrite len_cons, len_app, !len_put_str. lia.
Qed.

Lemma len_str_prop k s : len (k :: put_str s) <= 3 + blen s.
Proof. rewrite len_cons, len_put_str. lia. Qed.

(* row by row: the condition of a row names the packet type and says that the flag is set, the
   number not 0 or the string not empty, which is when the size account counts the slot *)
Lemma entries_fit pkt m p n : wf_props p = true -> fits_in pkt (entries pkt m p n) (psize p).
Proof.
  rewrite wf_props_slots. unfold entries, psize. cbv zeta. cbn [forallb sumN all_ids slot slot_wf slot_size].
  intro W. split_and. rewrite N.add_0_r. repeat apply fits_app.
  all: try (apply fits_optl; intro Hc; split_and; cbn [prop_fits prop_id]; unfold tnum, tstr;
            repeat match goal with H : ?c = true |- context [if ?c then _ else _] => rewrite H end;
            repeat split; first [assumption | reflexivity | apply N.le_refl | apply len_str_prop]).
  - apply fits_if. intro V. apply fits_subids; assumption.
  - apply fits_if. intro Hc. split_and. apply fits_users; assumption.
Qed.

Lemma entries_plist pkt m p n : wf_props p = true -> psize p <= 268435455 ->
  plist_fits pkt (entries pkt m p n) = true.
Proof.
  intros W S. destruct (entries_fit pkt m p n W) as (F & V & L). unfold plist_fits. rewrite F, V. cbn [andb]. lia.
Qed.

Lemma put_props_size ps : len (put_props ps) <= 4 + len (put_props_body ps).
Proof. unfold put_props. rewrite len_app. pose proof (blen_put_vbi_range (len (put_props_body ps))). unfold blen, len in *. lia. Qed.

Lemma len_put_props_entries pkt m p n : wf_props p = true ->
  len (put_props (entries pkt m p n)) <= 4 + psize p.
Proof.
  intro W. pose proof (put_props_size (entries pkt m p n)). destruct (entries_fit pkt m p n W) as (_ & _ & L). lia.
Qed.

(* what a packet carries as properties: those of [entries] under MQTT 5, none otherwise *)
Lemma plist_v_entries v pkt m p n : wf_props p = true -> psize p <= 268435455 ->
  plist_v v pkt (if v =? 5 then entries pkt m p n else []) = true.
Proof. intros W S. unfold plist_v. destruct (v =? 5); [apply entries_plist; assumption | reflexivity]. Qed.

Lemma len_put_props_v_entries v pkt m p n : wf_props p = true ->
  len (put_props_v v (if v =? 5 then entries pkt m p n else [])) <= 4 + psize p.
Proof.
  intro W. unfold put_props_v, v5. destruct (v =? 5); [apply len_put_props_entries; exact W|].
  change (len []) with 0. lia.
Qed.

Definition filt_ok (s : subscription) : bool :=
  str_fits (s_filter s) && (s_qos s <=? 2) && (s_retain_handling s <? 4).
Fixpoint fsize (k : N) (l : list subscription) : N :=
  match l with [] => 0 | s :: r => k + blen (s_filter s) + fsize k r end.

Lemma fsize_app k a b : fsize k (a ++ b) = fsize k a + fsize k b.
Proof. induction a as [|s a IH]; cbn [app fsize]; lia. Qed.

Lemma land3_lt x : N.land 3 x < 4.
Proof. rewrite N.land_comm. change 3 with (N.ones 2). rewrite N.land_ones. change (2 ^ 2) with 4. lia. Qed.

Lemma subscribe_loop_inv fuel : forall v5 ids buf off acc,
  wfb buf -> off <= blen buf -> blen buf < off + N.of_nat fuel -> forallb filt_ok acc = true ->
  post (subscribe_loop fuel v5 ids buf off acc)
       (fun fs => forallb filt_ok fs = true /\ fsize 3 fs + off = fsize 3 acc + blen buf).
Proof.
  induction fuel as [|f IH]; intros v5 ids buf off acc W H1 H2 A; [lia|].
  cbn [subscribe_loop]. destruct (blen buf <=? off) eqn:E; [cbn; split; [exact A | lia]|].
  pstep ltac:(apply decodeString_val; exact W). intros [flt o1] (F1 & F2 & F3).
  pstep ltac:(apply decodeByte_val; exact W). intros [opt o2] (O1 & O2 & O3).
  match goal with |- context [2 <? s_qos ?s] => set (sub := s) end.
  destruct (2 <? s_qos sub) eqn:Eq; [exact I|].
  assert (Hs : s_filter sub = flt /\ s_retain_handling sub < 4).
  { unfold sub. destruct v5; destruct ids; cbn; split; try reflexivity; try apply land3_lt; lia. }
  destruct Hs as [Hf Hr].
  eapply post_weaken; [apply (IH v5 ids buf o2 (acc ++ [sub]) W O2 ltac:(lia))|].
  - rewrite forallb_app, A. cbn [forallb]. unfold filt_ok. rewrite Hf, F3, andb_true_r. cbn [andb].
    apply andb_true_intro. split; lia.
  - intros fs [G1 G2]. split; [exact G1|]. rewrite fsize_app in G2. cbn [fsize] in G2. rewrite Hf in G2. lia.
Qed.

Lemma unsubscribe_loop_inv fuel : forall buf off acc,
  wfb buf -> off <= blen buf -> blen buf < off + N.of_nat fuel -> forallb filt_ok acc = true ->
  post (unsubscribe_loop fuel buf off acc)
       (fun fs => forallb filt_ok fs = true /\ fsize 2 fs + off = fsize 2 acc + blen buf).
Proof.
  induction fuel as [|f IH]; intros buf off acc W H1 H2 A; [lia|].
  cbn [unsubscribe_loop]. destruct (blen buf <=? off) eqn:E; [cbn; split; [exact A | lia]|].
  pstep ltac:(apply decodeString_val; exact W). intros [flt o1] (F1 & F2 & F3).
  eapply post_weaken; [apply (IH buf o1 (acc ++ [set_s_filter flt sub0]) W F2 ltac:(lia))|].
  - rewrite forallb_app, A. unfold filt_ok. cbn [forallb s_filter set_s_filter s_qos s_retain_handling sub0].
    rewrite F3. reflexivity.
  - intros fs [G1 G2]. split; [exact G1|]. rewrite fsize_app in G2. cbn [fsize s_filter set_s_filter] in G2. lia.
Qed.

Lemma filters_len v (fs : list subscription) :
  len (concat (map (put_filter v) (map (filter_of (v =? 5)) fs))) = fsize 3 fs.
Proof.
  induction fs as [|s r IH]; [reflexivity|]. cbn [map concat fsize]. rewrite len_app, IH.
  unfold put_filter. rewrite len_app, len_put_str, len_cons. change (len (@nil N)) with 0.
  destruct (v =? 5); cbn [filter_of f_filter]; lia.
Qed.

Lemma unsub_filters_len (fs : list subscription) :
  len (concat (map put_str (map s_filter fs))) = fsize 2 fs.
Proof.
  induction fs as [|s r IH]; [reflexivity|]. cbn [map concat fsize]. rewrite len_app, IH, len_put_str. lia.
Qed.

(* every field within the range of its Go type, whether or not the packet type carries it *)
Record fields_ok (pk : packet) : Prop := {
  fo_version : pk_version pk < 256;
  fo_props : wf_props (pk_props pk) = true;
  fo_wprops : wf_props (c_will_props (pk_connect pk)) = true;
  fo_topic : str_fits (pk_topic pk) = true;
  fo_id : pk_packet_id pk < 65536;
  fo_rc : pk_reason_code pk < 256;
  fo_payload : wfb (pk_payload pk);
  fo_codes : wfb (pk_reason_codes pk);
  fo_filters : forallb filt_ok (pk_filters pk) = true;
  fo_ka : c_keepalive (pk_connect pk) < 65536;
  fo_cid : str_fits (c_client_id (pk_connect pk)) = true;
  fo_wt : str_fits (c_will_topic (pk_connect pk)) = true;
  fo_wp : bin_fits (c_will_payload (pk_connect pk)) = true;
  fo_user : bin_fits (c_username (pk_connect pk)) = true;
  fo_pass : bin_fits (c_password (pk_connect pk)) = true;
  fo_wq : c_will_qos (pk_connect pk) < 4
}.

(* The bytes the content of the fields takes when written, length prefixes and fixed-size fields not
   counted; a filter takes 3 bytes beside its content in a SUBSCRIBE and 2 in an UNSUBSCRIBE.
   The sum is nested to the right on purpose: the kernel compares two left-nested sums whose terms
   are convertible but not identical (the same getter of [pk] and of [set_.. x pk]) in time
   exponential in the number of terms (eleven terms: 0.3 s for each conversion, against 1 ms). *)
Definition fsz (pk : packet) : N :=
  let c := pk_connect pk in
  psize (pk_props pk) + (psize (c_will_props c) + (blen (pk_topic pk) + (blen (pk_payload pk)
  + (blen (pk_reason_codes pk) + (fsize (if fh_type (pk_fh pk) =? 10 then 2 else 3) (pk_filters pk)
  + (blen (c_client_id c) + (blen (c_will_topic c) + (blen (c_will_payload c)
  + (blen (c_username c) + blen (c_password c)))))))))).

(* the decoder stands at [off] and has not touched the header [fh]: the fields are in range and
   their content was read from the bytes before [off], but for [k] bytes: a property block may run
   past its declared length by one property, and what follows the block is read again *)
Definition inv (buf : bytes) (fh : fixedheader) (k : N) : packet * N -> Prop :=
  fun '(pk, off) => pk_fh pk = fh /\ fields_ok pk /\ off <= blen buf /\ fsz pk <= off + k.

Lemma inv_more buf fh k k' x : k <= k' -> inv buf fh k x -> inv buf fh k' x.
Proof. destruct x as [pk off]. intros Hk (A & B & C & D). split; [exact A|]. split; [exact B|]. split; lia. Qed.

Lemma inv_end buf fh k pk off : inv buf fh k (pk, off) -> inv buf fh k (pk, blen buf).
Proof. intros (A & B & C & D). split; [exact A|]. split; [exact B|]. split; lia. Qed.

Lemma inv_fresh v fh buf : v < 256 -> inv buf fh 0 (fresh_packet v fh, 0).
Proof.
  intro Hv. split; [reflexivity|]. split; [|split; [apply N.le_0_l | reflexivity]].
  constructor; try reflexivity; try constructor; try exact Hv; reflexivity.
Qed.

Ltac getset := pkred; connred.

(* [inv_set I]: from [I : inv buf fh k (pk, off)], the goal [inv buf fh k' (pk', off')] where [pk'] is
   [pk] with fields set.  The ranges of the values stored and the place of [off'] are found in the
   context, where the postcondition of the decoder that read them (a [.._val] lemma) has put them;
   the getters of [pk'] are computed, every other field is that of [pk], the sizes are left to lia. *)
Ltac inv_set I :=
  let F := fresh in
  destruct I as (? & F & ? & ?); cbn [post]; unfold inv; getset;
  (split; [assumption|]); (split; [destruct F; constructor; getset; assumption|]);
  clear F; unfold fsz in *; getset; split; lia.

Lemma decode_props_at_inv pk buf off fh k : wfb buf -> inv buf fh k (pk, off) ->
  post (decode_props_at pk buf off) (fun '(n, pk') => inv buf fh (k + PMAX) (pk', off + n)).
Proof.
  intros W I. unfold decode_props_at.
  pstep ltac:(apply slice_from_val; [exact W | apply I]). intros s [Hs Ws].
  pstep ltac:(apply (props_decode_inv _ (pk_props pk) s Ws); apply I). intros [n p'] (Q1 & Q2 & Q3).
  inv_set I.
Qed.

Lemma props_if_v5_inv pk buf off fh k : wfb buf -> inv buf fh k (pk, off) ->
  post (props_if_v5 pk buf off) (inv buf fh (k + PMAX)).
Proof.
  intros W I. unfold props_if_v5. destruct (pk_version pk =? 5).
  - pstep ltac:(apply (decode_props_at_inv pk buf off fh k W I)). intros [n pk'] R. exact R.
  - apply (inv_more buf fh k _ _ (N.le_add_r _ _) I).
Qed.

Lemma will_props_if_v5_inv pk buf off fh k : wfb buf -> inv buf fh k (pk, off) ->
  post (will_props_if_v5 pk buf off) (inv buf fh (k + PMAX)).
Proof.
  intros W I. unfold will_props_if_v5. destruct (pk_version pk =? 5).
  - pstep ltac:(apply slice_from_val; [exact W | apply I]). intros s [Hs Ws].
    pstep ltac:(apply (props_decode_inv _ (c_will_props (pk_connect pk)) s Ws); apply I).
    intros [n p'] (Q1 & Q2 & Q3). inv_set I.
  - apply (inv_more buf fh k _ _ (N.le_add_r _ _) I).
Qed.

Lemma packet_id_inv pk buf off fh k : wfb buf -> inv buf fh k (pk, off) ->
  post (decodeUint16 buf off) (fun '(id, o) => inv buf fh k (set_pk_packet_id id pk, o)).
Proof.
  intros W I. eapply post_weaken; [apply decodeUint16_val; exact W|]. intros [id o] (I1 & I2 & I3). inv_set I.
Qed.

(* [2 * PMAX]: a body holds at most two property blocks (a CONNECT its own and the will's); [ty] is
   the packet type in the header *)
Definition keeps (ty : N) (d : packet -> bytes -> res packet) : Prop :=
  forall pk buf fh, fh_type fh = ty -> wfb buf -> inv buf fh 0 (pk, 0) ->
  post (d pk buf) (fun pk' => inv buf fh (2 * PMAX) (pk', blen buf)).

Lemma PMAX_le : 0 + PMAX <= 2 * PMAX.
Proof. discriminate. Qed.

Lemma inv_stop buf fh pk off : inv buf fh 0 (pk, off) -> inv buf fh (2 * PMAX) (pk, blen buf).
Proof. intro I. apply (inv_end _ _ _ _ off), (inv_more _ _ 0 _ _ (N.le_0_l _) I). Qed.

(* the tail shared by CONNACK, the acknowledgements, DISCONNECT and AUTH: a reason code, then
   properties if [c]; they end the packet *)
Lemma reason_props_inv (c : bool) pk buf off fh : wfb buf -> inv buf fh 0 (pk, off) ->
  post (let* (rc, offset) := decodeByte buf off onerr EReasonCode in
        if c then let* (_, pk') := decode_props_at (set_pk_reason_code rc pk) buf offset in Ok pk'
        else Ok (set_pk_reason_code rc pk))
       (fun pk' => inv buf fh (2 * PMAX) (pk', blen buf)).
Proof.
  intros W I. pstep ltac:(apply decodeByte_val; exact W). intros [rc o] (R1 & R2 & R3).
  assert (I' : inv buf fh 0 (set_pk_reason_code rc pk, o)) by inv_set I.
  destruct c.
  - pstep ltac:(apply (decode_props_at_inv _ buf o fh 0 W I')). intros [n pk'] R.
    apply (inv_end _ _ _ _ _ (inv_more _ _ _ _ _ PMAX_le R)).
  - apply (inv_stop _ _ _ o I').
Qed.

Lemma publish_keeps ty : keeps ty publish_decode.
Proof.
  intros pk buf fh _ W I. unfold publish_decode.
  pstep ltac:(apply decodeString_val; exact W). intros [topic o1] (T1 & T2 & T3).
  eapply post_bind with (Q := inv buf fh 0).
  { destruct (0 <? _).
    - pstep ltac:(apply decodeUint16_val; exact W). intros [id o2] (I1 & I2 & I3). inv_set I.
    - inv_set I. }
  intros [pk1 o2] I1.
  pstep ltac:(apply (props_if_v5_inv pk1 buf o2 fh 0 W I1)). intros [pk2 o3] I2.
  pstep ltac:(apply slice_from_val; [exact W | apply I2]). intros payload [Y1 Y2].
  apply (inv_more _ _ _ _ _ PMAX_le). inv_set I2.
Qed.

Lemma connack_keeps ty : keeps ty connack_decode.
Proof.
  intros pk buf fh _ W I. unfold connack_decode.
  pstep ltac:(apply decodeByteBool_post). intros [sp o1] (S1 & S2).
  assert (I' : inv buf fh 0 (set_pk_session_present sp pk, o1)) by inv_set I.
  getset. apply (reason_props_inv _ _ buf o1 fh W I').
Qed.

Lemma ack_keeps ty : keeps ty ack_decode.
Proof.
  intros pk buf fh _ W I. unfold ack_decode.
  pstep ltac:(apply (packet_id_inv pk buf 0 fh 0 W I)). intros [id o1] I'.
  getset. destruct (_ && _).
  - apply (reason_props_inv _ _ buf o1 fh W I').
  - apply (inv_stop _ _ _ o1 I').
Qed.

Lemma disconnect_keeps ty : keeps ty disconnect_decode.
Proof.
  intros pk buf fh _ W I. unfold disconnect_decode. getset. destruct (_ && _).
  - apply (reason_props_inv _ _ buf 0 fh W I).
  - apply (inv_stop _ _ _ 0 I).
Qed.

Lemma auth_keeps ty : keeps ty auth_decode.
Proof.
  intros pk buf fh _ W I. unfold auth_decode. getset. destruct (_ =? 0).
  - apply (inv_stop _ _ _ 0 I).
  - apply (reason_props_inv _ _ buf 0 fh W I).
Qed.

Lemma suback_keeps ty : keeps ty suback_decode.
Proof.
  intros pk buf fh _ W I. unfold suback_decode.
  pstep ltac:(apply (packet_id_inv pk buf 0 fh 0 W I)). intros [id o1] I'.
  pstep ltac:(apply (props_if_v5_inv _ buf o1 fh 0 W I')). intros [pk2 o3] J.
  pstep ltac:(apply slice_from_val; [exact W | apply J]). intros codes [Y1 Y2].
  apply (inv_more _ _ _ _ _ PMAX_le). inv_set J.
Qed.

Lemma unsuback_keeps ty : keeps ty unsuback_decode.
Proof.
  intros pk buf fh _ W I. unfold unsuback_decode.
  pstep ltac:(apply (packet_id_inv pk buf 0 fh 0 W I)). intros [id o1] I'.
  getset. destruct (pk_version pk =? 5).
  - pstep ltac:(apply (decode_props_at_inv _ buf o1 fh 0 W I')). intros [n pk2] J.
    pstep ltac:(apply slice_from_val; [exact W | apply J]). intros codes [Y1 Y2].
    apply (inv_more _ _ _ _ _ PMAX_le). inv_set J.
  - apply (inv_stop _ _ _ o1 I').
Qed.

(* SUBSCRIBE and UNSUBSCRIBE: packet identifier, properties, then [loop] reads filters to the end of
   the packet.  That they are stored is the only step that needs the packet type, for the [w] bytes
   a filter takes beside its content. *)
Lemma filters_keeps ty w (loop : packet -> bytes -> N -> res (list subscription)) :
  (if ty =? 10 then 2 else 3) = w ->
  (forall pk buf off, wfb buf -> off <= blen buf ->
     post (loop pk buf off) (fun fs => forallb filt_ok fs = true /\ fsize w fs + off = blen buf)) ->
  keeps ty (fun pk buf =>
    let* (id, offset) := decodeUint16 buf 0 onerr EPacketID in
    let* (pk, offset) := props_if_v5 (set_pk_packet_id id pk) buf offset in
    let* fs := loop pk buf offset in Ok (set_pk_filters fs pk)).
Proof.
  intros Ew L pk buf fh Ty W I.
  pstep ltac:(apply (packet_id_inv pk buf 0 fh 0 W I)). intros [id o1] I'.
  pstep ltac:(apply (props_if_v5_inv _ buf o1 fh 0 W I')). intros [pk2 o3] J.
  pstep ltac:(apply L; [exact W | apply J]). intros fs [G1 G2].
  destruct J as (E & F & Ho & Sz). split; [exact E|]. split; [destruct F; constructor; assumption|].
  split; [apply N.le_refl|]. unfold fsz in *. getset. rewrite E, Ty, Ew. unfold PMAX in *. lia.
Qed.

Lemma subscribe_keeps : keeps 8 subscribe_decode.
Proof.
  apply (filters_keeps 8 3 (fun pk buf off =>
           subscribe_loop (S (length buf)) (pk_version pk =? 5) (p_sub_ids (pk_props pk)) buf off [])); [reflexivity|].
  intros pk buf off W H. apply subscribe_loop_inv; [exact W | exact H | unfold blen; lia | reflexivity].
Qed.

Lemma unsubscribe_keeps : keeps 10 unsubscribe_decode.
Proof.
  apply (filters_keeps 10 2 (fun _ buf off => unsubscribe_loop (S (length buf)) buf off [])); [reflexivity|].
  intros pk buf off W H. apply unsubscribe_loop_inv; [exact W | exact H | unfold blen; lia | reflexivity].
Qed.

Lemma connect_keeps ty : keeps ty connect_decode.
Proof.
  intros pk buf fh _ W I. unfold connect_decode.
  pstep ltac:(apply decodeBytes_val; exact W). intros [name o1] (N1 & N2 & N3).
  pstep ltac:(apply decodeByte_val; exact W). intros [ver o2] (V1 & V2 & V3).
  pstep ltac:(apply decodeByte_val; exact W). intros [flags o3] (F1 & F2 & F3).
  pstep ltac:(apply decodeUint16_val; exact W). intros [ka o4] (K1 & K2 & K3).
  pose proof (land3_lt (N.shiftr flags 3)) as Wq.
  (* protocol name, version, the flags and the keep-alive are stored *)
  match goal with |- post (bind (props_if_v5 ?p _ _) _) _ => assert (I4 : inv buf fh 0 (p, o4)) by inv_set I end.
  pstep ltac:(apply (props_if_v5_inv _ buf o4 fh 0 W I4)). intros [pk5 o5] I5.
  pstep ltac:(apply decodeString_val; exact W). intros [cid o6] (C1 & C2 & C3).
  assert (I6 : inv buf fh (0 + PMAX) (upd_connect (set_c_client_id cid) pk5, o6)) by inv_set I5.
  eapply post_bind with (Q := inv buf fh (2 * PMAX)).
  { destruct (c_will_flag _).
    - pstep ltac:(apply (will_props_if_v5_inv _ buf o6 fh _ W I6)). intros [pk7 o7] I7.
      pstep ltac:(apply decodeString_val; exact W). intros [wt o8] (T1 & T2 & T3).
      pstep ltac:(apply decodeBytes_val; exact W). intros [wp o9] (Y1 & Y2 & Y3). inv_set I7.
    - apply (inv_more _ _ _ _ _ PMAX_le I6). }
  intros [pk8 o8] I8.
  eapply post_bind with (Q := inv buf fh (2 * PMAX)).
  { destruct (c_username_flag _); [|exact I8]. destruct (blen buf <=? o8); [exact Logic.I|].
    pstep ltac:(apply decodeBytes_val; exact W). intros [u o9] (U1 & U2 & U3). inv_set I8. }
  intros [pk9 o9] I9.
  destruct (c_password_flag _).
  - pstep ltac:(apply decodeBytes_val; exact W). intros [pw o10] (X1 & X2 & X3). inv_set I9.
  - apply (inv_end _ _ _ _ o9 I9).
Qed.

Lemma decode_body_inv pk px fh : wfb px -> inv px fh 0 (pk, 0) ->
  post (decode_body pk px) (fun pk' => inv px fh (2 * PMAX) (pk', blen px)).
Proof.
  intros W I. unfold decode_body. rewrite (proj1 I).
  assert (Ty : exists ty, fh_type fh = ty) by eauto. destruct Ty as [ty Ty]. rewrite Ty.
  case4 ty; try exact Logic.I;
  first [ apply (inv_stop _ _ _ 0 I)
        | refine (_ pk px fh Ty W I);
          first [ apply connect_keeps | apply connack_keeps | apply publish_keeps | apply ack_keeps
                | apply subscribe_keeps | apply suback_keeps | apply unsubscribe_keeps | apply unsuback_keeps
                | apply disconnect_keeps | apply auth_keeps ] ].
Qed.

(* Second half: from here to [fields_wf] no decoder is looked at. *)

(* the decoded-input size for which the re-encoding is guaranteed to fit: Properties.Decode lets the
   last property of a block run past the declared block length, so a re-encoding can be up to one
   property (PMAX bytes) per block longer than the accepted input *)
Definition IN_MAX : N := 268000000.

(* what FixedHeader.Decode leaves in an accepted header, and the type is one of the fifteen *)
Definition header_ok (fh : fixedheader) : Prop :=
  1 <= fh_type fh <= 15 /\
  (fh_type fh = 3 -> fh_qos fh <= 2 /\ (fh_qos fh = 0 -> fh_dup fh = false)) /\
  (fh_type fh <> 3 -> fh_dup fh = false /\ fh_retain fh = false /\
     fh_qos fh = if (fh_type fh =? 6) || (fh_type fh =? 8) || (fh_type fh =? 10) then 1 else 0).

Lemma fsz_props pk : fsz pk <= IN_MAX + 2 * PMAX ->
  psize (pk_props pk) <= 268435455 /\ psize (c_will_props (pk_connect pk)) <= 268435455.
Proof. unfold fsz, IN_MAX, PMAX. lia. Qed.

Lemma forallb_map_imp {A B} (f : A -> bool) (g : B -> bool) (h : A -> B) l :
  (forall a, f a = true -> g (h a) = true) -> forallb f l = true -> forallb g (map h l) = true.
Proof.
  intros H G. induction l as [|a l IH]; [reflexivity|]. cbn [forallb map] in *. apply andb_prop in G.
  rewrite (H a (proj1 G)), (IH (proj2 G)). reflexivity.
Qed.

Lemma opt_ok_if {A} (f : A -> bool) (c : bool) x : f x = true -> opt_ok f (if c then Some x else None) = true.
Proof. intro H. destruct c; [exact H | reflexivity]. Qed.

Lemma fields_enc_ok pk m : fields_ok pk -> fsz pk <= IN_MAX + 2 * PMAX -> header_ok (pk_fh pk) ->
  enc_ok (pk_version pk) (abs (set_pk_mods m pk)) = true.
Proof.
  intros F S (T & F3 & _). apply fsz_props in S. destruct S as [Sp Sw].
  assert (P : forall ty n, plist_v (pk_version pk) ty (if pk_version pk =? 5 then entries ty m (pk_props pk) n else []) = true)
    by (intros; apply plist_v_entries; [apply F | exact Sp]).
  unfold abs. getset. revert F3. pattern (fh_type (pk_fh pk)). apply packet_type_cases; [..|exact T]; intro F3;
    cbn [enc_ok ack_type ack_kind_of]; rewrite ?P; cbn [andb]; try reflexivity;
    try (destruct (pk_version pk =? 5); reflexivity); destruct F.
  - (* CONNECT *)
    join_and; try (apply opt_ok_if); try assumption.
    unfold will_fits. cbn [will_props will_topic will_payload will_qos]. join_and; try assumption; [|apply N.ltb_lt; assumption].
    apply plist_v_entries; assumption.
  - (* PUBLISH: the flags *)
    destruct (F3 eq_refl) as [Q D]. rewrite fo_topic0. clear - Q D. destruct (fh_dup _).
    + replace (1 <=? fh_qos (pk_fh pk)) with true
        by (destruct (N.eq_dec (fh_qos (pk_fh pk)) 0) as [Z|Z]; [discriminate (D Z) | lia]).
      join_and; [lia | reflexivity..].
    + destruct (0 <? fh_qos (pk_fh pk)) eqn:Eq; join_and; try reflexivity; try apply orb_true_r; lia.
  - (* SUBSCRIBE *)
    apply (forallb_map_imp filt_ok); [|assumption]. intros s G. unfold filt_ok in G. split_and.
    unfold filter_fits. destruct (pk_version pk =? 5); cbn [filter_of f_filter f_qos f_no_local f_retain_as_published f_retain_handling];
      join_and; try assumption; reflexivity.
  - (* UNSUBSCRIBE *)
    apply (forallb_map_imp filt_ok); [|assumption]. intros s G. unfold filt_ok in G. split_and. assumption.
  - (* AUTH *) apply entries_plist; assumption.
Qed.

(* the size of the re-encoded property blocks of the goal, from the size account *)
Local Ltac props_size P :=
  repeat match goal with
  | |- context [put_props_v ?v (if _ then entries ?k ?m ?p ?n else [])] =>
      lazymatch goal with _ : len (put_props_v v (if _ then entries k m p n else [])) <= _ |- _ => fail | _ => idtac end;
      pose proof (len_put_props_v_entries v k m p n P)
  | |- context [put_props (entries ?k ?m ?p ?n)] =>
      lazymatch goal with _ : len (put_props (entries k m p n)) <= _ |- _ => fail | _ => idtac end;
      pose proof (len_put_props_entries k m p n P)
  end.

(* what a body takes beside its property blocks and the content of its variable-size fields: at most
   22 bytes, for a CONNECT with all its optional parts *)
Lemma full_body_len v p : len (full_body v p) <=
  match p with
  | SConnect lvl _ _ ps cid will user pass =>
      14 + len (put_props_v lvl ps) + blen cid
      + match will with
        | Some w => 4 + len (put_props_v lvl (will_props w)) + blen (will_topic w) + blen (will_payload w)
        | None => 0
        end
      + match user with Some u => 2 + blen u | None => 0 end
      + match pass with Some pw => 2 + blen pw | None => 0 end
  | SConnack _ _ ps => 2 + len (put_props_v v ps)
  | SPublish _ _ _ topic _ ps payload => 4 + blen topic + len (put_props_v v ps) + blen payload
  | SAck _ _ _ ps => 3 + len (put_props_v v ps)
  | SSubscribe _ ps fs => 2 + len (put_props_v v ps) + len (concat (map (put_filter v) fs))
  | SSuback _ ps codes | SUnsuback _ ps codes => 2 + len (put_props_v v ps) + blen codes
  | SUnsubscribe _ ps fs => 2 + len (put_props_v v ps) + len (concat (map put_str fs))
  | SPingreq | SPingresp => 0
  | SDisconnect _ ps => 1 + len (put_props_v v ps)
  | SAuth _ ps => 1 + len (put_props ps)
  end.
Proof.
  destruct p; cbn [full_body]; unfold put_props_v; rewrite ?len_app, ?len_put_str, ?len_put_u16.
  1: { assert (Hn : blen (if level =? 3 then bytes_of_string "MQIsdp" else bytes_of_string "MQTT") <= 6)
         by (destruct (level =? 3); vm_compute; discriminate).
       rewrite !len_cons. destruct will, username, password; rewrite ?len_app, ?len_put_str;
         change (len []) with 0; change len with blen in *; lia. }
  all: try destruct (v5 v); try destruct (qos =? 0); rewrite ?len_cons, ?len_put_u16; change (len []) with 0;
    change len with blen in *; lia.
Qed.

(* the body of the re-encoding exceeds the content of the fields by the length prefixes and the
   fixed-size fields only: at most 30 bytes, for a CONNECT *)
Lemma fields_len pk m : fields_ok pk -> fsz pk <= IN_MAX + 2 * PMAX -> header_ok (pk_fh pk) ->
  len (full_body (pk_version pk) (abs (set_pk_mods m pk))) <= 268435455.
Proof.
  intros F S (T & _ & _). pose proof (fo_props _ F) as Wp. pose proof (fo_wprops _ F) as Ww. clear F.
  unfold fsz, IN_MAX, PMAX in S. eapply N.le_trans; [apply full_body_len|].
  unfold abs. getset. revert S. pattern (fh_type (pk_fh pk)). apply packet_type_cases; [..|exact T]; intros S;
    cbv beta iota; cbn [N.eqb Pos.eqb] in S; unfold codes_of.
  1: { destruct (c_will_flag _), (c_username_flag _), (c_password_flag _); cbn [will_props will_topic will_payload];
       props_size Wp; props_size Ww; change len with blen in *; lia. }
  all: props_size Wp; rewrite ?filters_len, ?unsub_filters_len; try destruct (pk_version pk =? 5);
       change len with blen in *; change (blen []) with 0; lia.
Qed.

Definition connect_standard (pk : packet) : bool :=
  let v := pk_version pk in
  let c := pk_connect pk in
  ((v =? 3) || (v =? 4) || (v =? 5))
  && beq_bytes (c_protocol_name c) (if v =? 3 then bytes_of_string "MQIsdp" else bytes_of_string "MQTT")
  && (c_will_flag c || ((c_will_qos c =? 0) && negb (c_will_retain c))).

Theorem fields_wf pk m : fields_ok pk -> fsz pk <= IN_MAX + 2 * PMAX -> header_ok (pk_fh pk) ->
  (fh_type (pk_fh pk) = 1 -> connect_standard pk = true) -> wf_packet (set_pk_mods m pk) = true.
Proof.
  intros F S H Std. pose proof (fields_enc_ok pk m F S H). pose proof (fields_len pk m F S H).
  destruct F, H as (T & F3 & Fn). apply wf_packet_intro.
  constructor; getset; try assumption; try (apply wfb_iff; assumption).
  - intro T1. specialize (Std T1). unfold connect_standard in Std. split_and.
    repeat split; try assumption. apply beq_bytes_eq. assumption.
  - eapply forallb_imp; [|eassumption]. intros s Hs. unfold filt_ok in Hs. split_and. join_and; assumption.
Qed.

Definition fh_check (hb : N) : bool :=
  match fh_decode fh0 hb with
  | Ok fh =>
      (fh_remaining fh =? 0) && (fh_type fh <=? 15) &&
      (if fh_type fh =? 3
       then (fh_qos fh <=? 2) && (negb (fh_qos fh =? 0) || negb (fh_dup fh))
       else negb (fh_dup fh) && negb (fh_retain fh)
            && (fh_qos fh =? (if (fh_type fh =? 6) || (fh_type fh =? 8) || (fh_type fh =? 10) then 1 else 0)))
  | Err _ => true
  | _ => false
  end.

Lemma fh_check_all hb : hb < 256 -> fh_check hb = true.
Proof.
  intro H.
  assert (S : forallb fh_check (rangeN 256) = true) by (vm_compute; reflexivity).
  exact (forall_below _ 256 S hb H).
Qed.

Lemma fh_decode_flags hb fh : hb < 256 -> fh_decode fh0 hb = Ok fh -> fh_type fh <> 0 -> header_ok fh.
Proof.
  intros H E T0. pose proof (fh_check_all hb H) as C. unfold fh_check in C. rewrite E in C.
  apply andb_prop in C. destruct C as [C F]. apply andb_prop in C. destruct C as [_ T].
  split; [lia|]. destruct (fh_type fh =? 3) eqn:T3.
  - split; [|intro N3; lia]. intros _. apply andb_prop in F. destruct F as [Q D]. split; [lia|].
    intro Q0. rewrite Q0 in D. destruct (fh_dup fh); [discriminate D | reflexivity].
  - split; [intro T3'; lia|]. intros _. split_and.
    destruct (fh_dup fh); [discriminate|]. destruct (fh_retain fh); [discriminate|]. repeat split. lia.
Qed.

(* EVERY PACKET THE DECODER RETURNS IS WELL-FORMED (for re-encoding with any Mods), provided a
   CONNECT has the standard protocol name / level and no will bits without a will flag (which
   ConnectValidate requires as well), and the input is not within 0.4 MB of the protocol's maximum *)
Theorem decoded_wf v bs pk rest m : v < 256 -> wfb bs -> blen bs <= IN_MAX ->
  mochi_decode_packet v bs = Ok (pk, rest) ->
  (fh_type (pk_fh pk) = 1 -> connect_standard pk = true) ->
  wf_packet (set_pk_mods m pk) = true.
Proof.
  intros Hv W Hmax E Hstd. unfold mochi_decode_packet in E.
  destruct bs as [|hb r]; [discriminate|]. pose proof (wf_cons_l _ _ W) as Hhb. apply wf_cons_r in W.
  destruct (fh_decode fh0 hb) as [fh| | |] eqn:Efh; try discriminate. cbn beta iota delta [bind] in E.
  destruct (vbi_decode r) as [n bu r'| |] eqn:Ev; try discriminate.
  destruct (vbi_decode_val r n bu r' W Ev) as (V1 & V2 & V3 & V4).
  destruct (blen r' <? n) eqn:En; [discriminate|].
  set (body := firstn (N.to_nat n) r') in *.
  assert (Wb : wfb body) by (apply wfb_firstn; exact V4).
  assert (Lb : blen body = n) by (apply blen_firstn; lia).
  assert (Mb : blen body <= IN_MAX) by (rewrite blen_cons in Hmax; lia).
  destruct (mochi_decode_body v (set_fh_remaining n fh) body) as [pk'| | |] eqn:Eb; try discriminate.
  cbn beta iota delta [bind] in E. injection E as <- <-.
  (* the type is not 0: ReadPacket's switch has no such case *)
  assert (T0 : fh_type fh <> 0).
  { intro Z. unfold mochi_decode_body, decode_body in Eb. cbn [fresh_packet pk_fh set_pk_fh] in Eb.
    destruct fh as [rem ty qos dup retain]. cbn [set_fh_remaining fh_type] in *. rewrite Z in Eb. discriminate Eb. }
  destruct (post_ok _ _ _ (decode_body_inv _ body _ Wb (inv_fresh v (set_fh_remaining n fh) body Hv)) Eb) as (Efh' & F & _ & S).
  apply fields_wf; [exact F | unfold PMAX, IN_MAX in *; lia | | exact Hstd].
  rewrite Efh'. pose proof (fh_decode_flags hb fh Hhb Efh T0) as H. destruct fh; exact H.
Qed.
