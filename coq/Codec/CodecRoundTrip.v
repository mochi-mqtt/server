(* C26: the mochi encoder model writes one of the reference forms of the packet [abs pk]; hence the
   decoder model returns [norm pk] for it (CodecEnc.form_decodes). *)
From MV Require Import Base.Val Codec.Wire Codec.Props Codec.MochiCodec Codec.SpecCodec Codec.SpecFacts Codec.WireProofs
  Codec.CodecRT Codec.CodecEnc Codec.CodecNorm Codec.CodecNormProofs.
From Coq Require Import Lia.
Local Ltac Zify.zify_post_hook ::= Z.div_mod_to_equations.
Open Scope N_scope.

Lemma encodeUint16_put v : v < 65536 -> encodeUint16 v = put_u16 v.
Proof. intro H. unfold encodeUint16, put_u16. f_equal. lia. Qed.

Lemma encodeUint32_put v : v <= 4294967295 -> encodeUint32 v = put_u32 v.
Proof. intro H. unfold encodeUint32, put_u32. f_equal. lia. Qed.

Lemma encodeBytes_put d : bin_fits d = true -> encodeBytes d = put_bin d.
Proof.
  unfold bin_fits. intro H. unfold encodeBytes, put_bin. change (len d) with (blen d).
  rewrite N.mod_small by lia. rewrite encodeUint16_put by lia. reflexivity.
Qed.

Lemma encodeString_put s : str_fits s = true -> encodeString s = put_str s.
Proof.
  unfold str_fits. intro H. apply andb_prop in H. destruct H as [H _].
  apply encodeBytes_put. exact H.
Qed.

Lemma ppb_app l1 l2 b1 b2 : b1 = put_props_body l1 -> b2 = put_props_body l2 ->
  b1 ++ b2 = put_props_body (l1 ++ l2).
Proof. intros -> ->. symmetry. apply put_props_body_app. Qed.

Lemma ppb_optl c x : put_props_body (optl c x) = when c (put_prop x).
Proof. destruct c; [apply app_nil_r | reflexivity]. Qed.

Lemma enc_sub_ids_put l : forallb (fun v => v <=? 268435455) l = true ->
  enc_sub_ids l = Ok (put_props_body (map SubscriptionId (filter (fun v => 0 <? v) l))).
Proof.
  induction l as [|v r IH]; intro H; [reflexivity|].
  cbn [forallb] in H. apply andb_prop in H. destruct H as [Hv Hr].
  cbn [enc_sub_ids filter]. rewrite (IH Hr). cbn beta iota delta [bind].
  destruct (0 <? v); [|reflexivity].
  rewrite encodeLength_put by lia. reflexivity.
Qed.

Lemma enc_user_put l : forallb (fun kv => str_fits (fst kv) && str_fits (snd kv)) l = true ->
  enc_user l = put_props_body (map (fun kv => UserProperty (fst kv) (snd kv)) l).
Proof.
  induction l as [|[k v] r IH]; intro H; [reflexivity|].
  cbn [forallb fst snd] in H. split_and.
  cbn [enc_user map fst snd]. rewrite IH by assumption.
  rewrite !encodeString_put by assumption.
  change (put_props_body (UserProperty k v :: ?x)) with (put_prop (UserProperty k v) ++ put_props_body x).
  cbn [put_prop prop_id app]. rewrite <- app_assoc. reflexivity.
Qed.

Lemma props_body_entries pkt m p n : wf_props p = true ->
  props_body pkt m p n = Ok (put_props_body (entries pkt m p n)).
Proof.
  intro W. unfold wf_props in W. split_and.
  unfold props_body, entries. cbv zeta.
  assert (S : (if valid_prop 11 pkt && negb match p_sub_ids p with [] => true | _ => false end
               then enc_sub_ids (p_sub_ids p) else Ok [])
              = Ok (put_props_body (if valid_prop 11 pkt
                                    then map SubscriptionId (filter (fun v => 0 <? v) (p_sub_ids p)) else []))).
  { destruct (valid_prop 11 pkt); [|reflexivity]. cbn [andb].
    destruct (p_sub_ids p) eqn:E; [reflexivity|]. cbn [negb]. rewrite <- E in *.
    apply enc_sub_ids_put. assumption. }
  rewrite S. cbn beta iota delta [bind]. f_equal.
  repeat apply ppb_app; rewrite ?ppb_optl;
    try (rewrite ?encodeString_put, ?encodeBytes_put, ?encodeUint32_put, ?encodeUint16_put by (assumption || lia);
         reflexivity).
  destruct (_ && valid_prop 38 pkt && _); [apply enc_user_put; assumption | reflexivity].
Qed.

Lemma props_encode_entries pkt m p n : wf_props p = true ->
  len (put_props_body (entries pkt m p n)) <= 268435455 ->
  props_encode pkt m p n = Ok (put_props (entries pkt m p n)).
Proof.
  intros W L. unfold props_encode. rewrite (props_body_entries pkt m p n W).
  cbn beta iota delta [bind]. change (blen ?x) with (len x).
  rewrite encodeLength_put by exact L. reflexivity.
Qed.

Lemma plist_v_len v pkt ps : plist_v v pkt ps = true -> len (put_props_body ps) <= 268435455.
Proof.
  unfold plist_v. destruct (v =? 5); intro H.
  - apply plist_fits_parts in H. tauto.
  - apply no_props_nil in H. subst ps. change (0 <= 268435455). lia.
Qed.

(* Properties.Encode where the encoders call it: under MQTT 5 only *)
Lemma props_encode_v v ty m p n :
  wf_props p = true -> plist_v v ty (if v =? 5 then entries ty m p n else []) = true ->
  (if v =? 5 then props_encode ty m p n else Ok []) =
  Ok (put_props_v v (if v =? 5 then entries ty m p n else [])).
Proof.
  intros W Hp. apply plist_v_len in Hp. unfold put_props_v, v5.
  destruct (v =? 5); [apply props_encode_entries; assumption | reflexivity].
Qed.

Lemma enc_props_v pk ty n :
  wf_props (pk_props pk) = true -> fh_type (pk_fh pk) = ty ->
  plist_v (pk_version pk) ty (if pk_version pk =? 5 then entries ty (pk_mods pk) (pk_props pk) n else []) = true ->
  (if pk_version pk =? 5 then enc_props pk n else Ok []) =
  Ok (put_props_v (pk_version pk) (if pk_version pk =? 5 then entries ty (pk_mods pk) (pk_props pk) n else [])).
Proof. intros W <-. apply props_encode_v. exact W. Qed.

Lemma finish_frame pk body : wf_packet pk = true -> len body <= 268435455 ->
  finish pk body = Ok (frame (abs pk) body).
Proof.
  intros W L. unfold finish, fh_encode, frame. rewrite <- (wf_header pk (blen body) W).
  rewrite (proj2 (header_byte (pk_version pk) (abs pk) (wfp_enc_ok pk (wf_packet_parts pk W)))).
  cbn [fh_of fh_remaining]. rewrite encodeLength_put by exact L. reflexivity.
Qed.

Definition encode_ok (pk : packet) : Prop :=
  exists body, mochi_encode pk = Ok (frame (abs pk) body) /\ In body (bodies (pk_version pk) (abs pk)) /\
               len body <= 268435455.

(* an encoder that writes the complete form; what all of them use of the packet's well-formedness *)
Lemma full_encode_ok pk : wf_packet pk = true ->
  (wf_props (pk_props pk) = true -> enc_ok (pk_version pk) (abs pk) = true -> pk_packet_id pk < 65536 ->
   mochi_encode pk = finish pk (full_body (pk_version pk) (abs pk))) ->
  encode_ok pk.
Proof.
  intros W E. pose proof (wf_packet_parts pk W) as Wp. pose proof (wfp_len pk Wp) as L.
  exists (full_body (pk_version pk) (abs pk)).
  rewrite (E (wfp_props pk Wp) (wfp_enc_ok pk Wp) (wfp_packet_id pk Wp)), (finish_frame pk _ W L).
  split; [reflexivity|]. split; [apply full_in_bodies | exact L].
Qed.

Lemma suback_encode_ok pk : wf_packet pk = true -> fh_type (pk_fh pk) = 9 -> encode_ok pk.
Proof.
  intros W Ety. apply (full_encode_ok pk W). intros P E I.
  unfold mochi_encode, abs in *. rewrite Ety in *. cbv zeta iota in *. cbn [enc_ok full_body] in *. unfold suback_encode.
  rewrite encodeUint16_put by exact I. change (blen (put_u16 _)) with 2.
  rewrite (enc_props_v pk 9 _ P Ety E). reflexivity.
Qed.

Lemma connack_encode_ok pk : wf_packet pk = true -> fh_type (pk_fh pk) = 2 -> encode_ok pk.
Proof.
  intros W Ety. apply (full_encode_ok pk W). intros P E I.
  unfold mochi_encode, abs in *. rewrite Ety in *. cbv zeta iota in *. cbn [enc_ok full_body] in *. unfold connack_encode.
  change (blen [_; _] + 2) with 4. rewrite (enc_props_v pk 2 _ P Ety E). reflexivity.
Qed.

Lemma pid_nonzero pk : KF_C26_pid0 pk = false ->
  (fh_type (pk_fh pk) = 3 /\ (0 <? fh_qos (pk_fh pk)) = true) \/ fh_type (pk_fh pk) = 8 \/ fh_type (pk_fh pk) = 10 ->
  (pk_packet_id pk =? 0) = false.
Proof.
  unfold KF_C26_pid0. intros K H. destruct (pk_packet_id pk =? 0); [|reflexivity]. cbn [andb] in K.
  destruct H as [[T Q]|[T|T]]; rewrite T in K; [rewrite Q in K|..]; discriminate K.
Qed.

Lemma publish_encode_ok pk : wf_packet pk = true -> fh_type (pk_fh pk) = 3 -> KF_C26_pid0 pk = false ->
  encode_ok pk.
Proof.
  intros W Ety K. apply (full_encode_ok pk W). intros P E I.
  unfold mochi_encode, abs in *. rewrite Ety in *. cbv zeta iota in *. cbn [enc_ok full_body] in *. unfold publish_encode.
  split_and. rewrite (encodeString_put (pk_topic pk)) in * by assumption.
  destruct (0 <? fh_qos (pk_fh pk)) eqn:Q.
  - rewrite (pid_nonzero pk K) by auto. replace (fh_qos (pk_fh pk) =? 0) with false by lia.
    cbn beta iota delta [bind]. rewrite encodeUint16_put by exact I. rewrite blen_app, blen_put_u16.
    rewrite (enc_props_v pk 3 _ P Ety) by assumption. cbn beta iota delta [bind]. rewrite <- !app_assoc. reflexivity.
  - replace (fh_qos (pk_fh pk) =? 0) with true by lia. cbn beta iota delta [bind]. rewrite N.add_0_r in *.
    rewrite (enc_props_v pk 3 _ P Ety) by assumption. cbn beta iota delta [bind]. rewrite <- !app_assoc. reflexivity.
Qed.

Lemma unsuback_encode_ok pk : wf_packet pk = true -> fh_type (pk_fh pk) = 11 -> encode_ok pk.
Proof.
  intros W Ety. apply (full_encode_ok pk W). intros P E I.
  unfold mochi_encode, abs in *. rewrite Ety in *. cbv zeta iota in *. cbn [enc_ok full_body] in *. unfold unsuback_encode.
  split_and. rewrite encodeUint16_put by exact I. rewrite blen_put_u16.
  match goal with Hp : plist_v _ _ _ = true |- _ => pose proof (enc_props_v pk 11 2 P Ety Hp) as Ep end.
  unfold put_props_v, v5 in *. destruct (pk_version pk =? 5).
  - rewrite Ep. reflexivity.
  - rewrite !app_nil_r. reflexivity.
Qed.

Lemma disconnect_encode_ok pk : wf_packet pk = true -> fh_type (pk_fh pk) = 14 -> encode_ok pk.
Proof.
  intros W Ety. apply (full_encode_ok pk W). intros P E I.
  unfold mochi_encode, abs in *. rewrite Ety in *. cbv zeta iota in *. cbn [enc_ok full_body] in *. unfold disconnect_encode.
  split_and.
  match goal with Hp : plist_v _ _ _ = true |- _ => pose proof (enc_props_v pk 14 1 P Ety Hp) as Ep end.
  unfold put_props_v, v5 in *. destruct (pk_version pk =? 5); [rewrite Ep|]; reflexivity.
Qed.

Lemma auth_encode_ok pk : wf_packet pk = true -> fh_type (pk_fh pk) = 15 -> encode_ok pk.
Proof.
  intros W Ety. apply (full_encode_ok pk W). intros P E I.
  unfold mochi_encode, abs in *. rewrite Ety in *. cbv zeta iota in *. cbn [enc_ok full_body] in *. unfold auth_encode, enc_props.
  apply plist_fits_parts in E. rewrite Ety, props_encode_entries by tauto. reflexivity.
Qed.

Lemma enc_filters_put v l :
  forallb (filter_fits v) (map (filter_of (v =? 5)) l) = true ->
  enc_filters (v =? 5) l = concat (map (put_filter v) (map (filter_of (v =? 5)) l)).
Proof.
  induction l as [|s r IH]; intro H; [reflexivity|].
  cbn [forallb map] in H. split_and.
  cbn [enc_filters map concat]. rewrite IH by assumption.
  unfold put_filter at 2. rewrite <- app_assoc. unfold filter_fits in *. split_and.
  destruct (v =? 5) eqn:E5; cbn [filter_of f_filter f_qos f_no_local f_retain_as_published f_retain_handling] in *.
  - rewrite encodeString_put by assumption. unfold sub_encode.
    rewrite (proj1 (sub_byte (s_qos s) (s_no_local s) (s_rap s) (s_retain_handling s) ltac:(lia) ltac:(lia))). reflexivity.
  - rewrite encodeString_put by assumption. cbn [bool_bit].
    replace (s_qos s + 0 + 0 + 16 * 0) with (s_qos s) by lia. reflexivity.
Qed.

Lemma enc_unsub_filters_put l : forallb str_fits (map s_filter l) = true ->
  enc_unsub_filters l = concat (map put_str (map s_filter l)).
Proof.
  induction l as [|s r IH]; intro H; [reflexivity|].
  cbn [forallb map] in H. split_and. cbn [enc_unsub_filters map concat].
  rewrite IH by assumption. rewrite encodeString_put by assumption. reflexivity.
Qed.

Lemma subscribe_encode_ok pk : wf_packet pk = true -> fh_type (pk_fh pk) = 8 -> KF_C26_pid0 pk = false ->
  encode_ok pk.
Proof.
  intros W Ety K. apply (full_encode_ok pk W). intros P E I.
  unfold mochi_encode, abs in *. rewrite Ety in *. cbv zeta iota in *. cbn [enc_ok full_body] in *. unfold subscribe_encode.
  split_and. rewrite (pid_nonzero pk K) by auto. rewrite encodeUint16_put by exact I. rewrite blen_put_u16.
  rewrite (enc_props_v pk 8 _ P Ety) by assumption. cbn beta iota delta [bind].
  rewrite (enc_filters_put (pk_version pk) (pk_filters pk)) by assumption. reflexivity.
Qed.

Lemma unsubscribe_encode_ok pk : wf_packet pk = true -> fh_type (pk_fh pk) = 10 -> KF_C26_pid0 pk = false ->
  encode_ok pk.
Proof.
  intros W Ety K. apply (full_encode_ok pk W). intros P E I.
  unfold mochi_encode, abs in *. rewrite Ety in *. cbv zeta iota in *. cbn [enc_ok full_body] in *. unfold unsubscribe_encode.
  split_and. rewrite (pid_nonzero pk K) by auto. rewrite encodeUint16_put by exact I. rewrite blen_put_u16.
  rewrite (enc_props_v pk 10 _ P Ety) by assumption. cbn beta iota delta [bind].
  rewrite (enc_unsub_filters_put (pk_filters pk)) by assumption. reflexivity.
Qed.

Lemma put_props_nil_len : blen (put_props []) = 1.
Proof. reflexivity. Qed.

Lemma put_props_cons_len c cs : 2 <= blen (put_props (c :: cs)).
Proof.
  unfold put_props. rewrite blen_app. pose proof (blen_put_vbi_range (len (put_props_body (c :: cs)))).
  assert (1 <= blen (put_props_body (c :: cs)))
    by (rewrite put_props_body_cons, put_prop_split, blen_app, blen_cons; lia).
  lia.
Qed.

(* encodePubAckRelRecComp writes the shortest form the reason code and the properties allow *)
Lemma ack_encode_ok pk ty : wf_packet pk = true -> fh_type (pk_fh pk) = ty ->
  ty = 4 \/ ty = 5 \/ ty = 6 \/ ty = 7 -> encode_ok pk.
Proof.
  intros W Ety Hty. pose proof (finish_frame pk) as Fin.
  pose proof (wf_packet_parts pk W) as Wp. pose proof (wfp_props pk Wp) as P.
  pose proof (wfp_enc_ok pk Wp) as E. pose proof (wfp_len pk Wp) as L. pose proof (wfp_packet_id pk Wp) as I.
  assert (Em : mochi_encode pk = ack_encode pk).
  { unfold mochi_encode. rewrite Ety. destruct Hty as [->|[->|[->| ->]]]; reflexivity. }
  assert (Ea : abs pk = SAck (ack_kind_of ty) (pk_packet_id pk) (if pk_version pk =? 5 then pk_reason_code pk else 0)
                 (if pk_version pk =? 5 then entries ty (pk_mods pk) (pk_props pk) 2 else [])).
  { unfold abs. rewrite Ety. destruct Hty as [->|[->|[->| ->]]]; reflexivity. }
  assert (Eat : ack_type (ack_kind_of ty) = ty) by (destruct Hty as [->|[->|[->| ->]]]; reflexivity).
  unfold encode_ok. rewrite Em, Ea in *. cbn [enc_ok full_body] in E, L. rewrite Eat in E. apply andb_prop in E. destruct E as [Ep _].
  unfold ack_encode, bodies, v5 in *. cbn [full_body]. unfold v5. rewrite encodeUint16_put by exact I.
  destruct (pk_version pk =? 5) eqn:E5; cbn [negb].
  - unfold enc_props. rewrite Ety, blen_put_u16, props_encode_entries by (try assumption; apply (plist_v_len _ _ _ Ep)).
    cbn beta iota delta [bind].
    destruct (entries ty (pk_mods pk) (pk_props pk) 2) as [|c cs] eqn:Een.
    + change (1 <? blen (put_props [])) with false. cbn [when orb no_props andb]. rewrite app_nil_r.
      destruct (pk_reason_code pk =? 0) eqn:Er; cbn [negb orb when].
      * exists (put_u16 (pk_packet_id pk)). rewrite app_nil_r, (Fin _ W) by (change (2 <= 268435455); lia).
        split; [reflexivity|]. split; [right; right; left; reflexivity | change (2 <= 268435455); lia].
      * exists (put_u16 (pk_packet_id pk) ++ [pk_reason_code pk]). rewrite (Fin _ W) by (change (3 <= 268435455); lia).
        split; [reflexivity|]. split; [right; left; reflexivity | change (3 <= 268435455); lia].
    + pose proof (put_props_cons_len c cs) as L2.
      replace (1 <? blen (put_props (c :: cs))) with true by lia. rewrite orb_true_r. cbn [when].
      exists (put_u16 (pk_packet_id pk) ++ pk_reason_code pk :: put_props (c :: cs)).
      change ([pk_reason_code pk] ++ put_props (c :: cs)) with (pk_reason_code pk :: put_props (c :: cs)).
      rewrite (Fin _ W L). split; [reflexivity|]. split; [left; reflexivity | exact L].
  - exists (put_u16 (pk_packet_id pk) ++ []). rewrite app_nil_r, (Fin _ W) by (change (2 <= 268435455); lia).
    split; [reflexivity|]. split; [left; reflexivity | change (2 <= 268435455); lia].
Qed.

Lemma ping_encode_ok pk ty : wf_packet pk = true -> fh_type (pk_fh pk) = ty -> ty = 12 \/ ty = 13 ->
  encode_ok pk.
Proof.
  intros W Ety Hty. apply (full_encode_ok pk W).
  assert (Ea : full_body (pk_version pk) (abs pk) = []).
  { unfold abs. rewrite Ety. destruct Hty as [-> | ->]; reflexivity. }
  rewrite Ea. unfold mochi_encode, finish. rewrite Ety. change (blen []) with 0.
  destruct Hty as [-> | ->]; unfold ping_encode; destruct (fh_encode _); cbn; rewrite ?app_nil_r; reflexivity.
Qed.

Lemma connect_encode_ok pk : wf_packet pk = true -> fh_type (pk_fh pk) = 1 -> encode_ok pk.
Proof.
  intros W Ety. apply (full_encode_ok pk W). intros P E _.
  pose proof (wfp_will_props pk (wf_packet_parts pk W)) as WP.
  destruct (wfp_connect pk (wf_packet_parts pk W) Ety) as (_ & Name & Ka & Wl).
  unfold mochi_encode, abs in *. rewrite Ety in *. cbv zeta iota in *. cbn [enc_ok full_body] in *. unfold connect_encode.
  cbv zeta. split_and. rewrite (enc_props_v pk 1 0 P Ety) by assumption. cbn beta iota delta [bind].
  set (c := pk_connect pk) in *. set (v := pk_version pk) in *.
  rewrite <- Name, encodeUint16_put by exact Ka.
  rewrite (encodeBytes_put (c_protocol_name c)) by (rewrite Name; destruct (v =? 3); reflexivity).
  rewrite (encodeString_put (c_client_id c)) by assumption.
  (* the flags byte *)
  assert (Hq : c_will_qos c < 4 /\ (c_will_flag c = true \/ (c_will_qos c = 0 /\ c_will_retain c = false))).
  { destruct (c_will_flag c) eqn:Ew.
    - cbn [opt_ok] in *. match goal with Hw : will_fits _ _ = true |- _ => unfold will_fits in Hw; cbn [will_qos] in Hw end.
      split_and. split; [lia | left; reflexivity].
    - cbn [orb] in Wl. apply andb_prop in Wl. destruct Wl as [Q R]. destruct (c_will_retain c); [discriminate|].
      split; [lia | right; split; [lia | reflexivity]]. }
  destruct Hq as [Hq Hwc]. unfold connect_flags. rewrite (proj1 (connect_flags_byte _ _ _ _ _ _ Hq Hwc)). unfold connect_flags_of.
  destruct (c_will_flag c), (c_username_flag c), (c_password_flag c);
    cbn [opt_ok when is_some will_props will_topic will_payload will_qos will_retain] in *;
    repeat match goal with Hw : will_fits _ _ = true |- _ =>
      unfold will_fits in Hw; cbn [will_props will_topic will_payload will_qos] in Hw; split_and end;
    rewrite ?props_encode_v by assumption;
    repeat match goal with Hs : str_fits ?x = true |- _ => rewrite (encodeString_put x Hs) end;
    repeat match goal with Hs : bin_fits ?x = true |- _ => rewrite (encodeBytes_put x Hs) end;
    reflexivity.
Qed.

Theorem encode_total pk : wf_packet pk = true -> KF_C26_pid0 pk = false -> encode_ok pk.
Proof.
  intros W K. pose proof (wfp_type pk (wf_packet_parts pk W)) as T.
  assert (E : exists ty, fh_type (pk_fh pk) = ty) by eauto. destruct E as [ty Ety]. rewrite Ety in T.
  revert Ety. pattern ty. apply packet_type_cases; [..|exact T]; intro Ety.
  - apply connect_encode_ok; assumption.
  - apply connack_encode_ok; assumption.
  - apply publish_encode_ok; assumption.
  - apply (ack_encode_ok pk 4); auto.
  - apply (ack_encode_ok pk 5); auto.
  - apply (ack_encode_ok pk 6); auto.
  - apply (ack_encode_ok pk 7); auto.
  - apply subscribe_encode_ok; assumption.
  - apply suback_encode_ok; assumption.
  - apply unsubscribe_encode_ok; assumption.
  - apply unsuback_encode_ok; assumption.
  - apply (ping_encode_ok pk 12); auto.
  - apply (ping_encode_ok pk 13); auto.
  - apply disconnect_encode_ok; assumption.
  - apply auth_encode_ok; assumption.
Qed.

Lemma encode_pid0 pk : KF_C26_pid0 pk = true -> mochi_encode pk = Err ENoPacketID.
Proof.
  intro K. unfold KF_C26_pid0 in K. apply andb_prop in K. destruct K as [Hp Ht].
  unfold mochi_encode.
  apply orb_prop in Ht. destruct Ht as [Ht|Ht]; [apply orb_prop in Ht; destruct Ht as [Ht|Ht]|].
  - apply andb_prop in Ht. destruct Ht as [Ht Hq]. apply N.eqb_eq in Ht. rewrite Ht.
    unfold publish_encode. rewrite Hq, Hp. reflexivity.
  - apply N.eqb_eq in Ht. rewrite Ht. unfold subscribe_encode. rewrite Hp. reflexivity.
  - apply N.eqb_eq in Ht. rewrite Ht. unfold unsubscribe_encode. rewrite Hp. reflexivity.
Qed.

Theorem encode_is_form pk bs : wf_packet pk = true -> mochi_encode pk = Ok bs ->
  exists body, bs = frame (abs pk) body /\ In body (bodies (pk_version pk) (abs pk)) /\ len body <= 268435455.
Proof.
  intros W E. destruct (KF_C26_pid0 pk) eqn:K.
  - rewrite (encode_pid0 pk K) in E. discriminate E.
  - destruct (encode_total pk W K) as (body & Eb & Hin & Hl). rewrite Eb in E. injection E as <-.
    exists body. split; [reflexivity|]. split; assumption.
Qed.

(* round trip: what the encoder writes for a well-formed packet, followed by anything, is decoded
   (same protocol version) as the normal form of the packet, leaving the rest unread; the remaining
   length in the fixed header is the number of bytes that follow it *)
Theorem roundtrip pk bs rest :
  wf_packet pk = true -> mochi_encode pk = Ok bs -> Vbi.wf_bytes (bs ++ rest) ->
  exists rem, mochi_decode_packet (pk_version pk) (bs ++ rest) = Ok (norm pk rem, rest) /\
              exists hb body, bs = hb :: put_vbi rem ++ body /\ blen body = rem /\ rem <= 268435455.
Proof.
  intros W E _. destruct (encode_is_form pk bs W E) as (body & -> & Hin & Hl).
  exists (len body). split.
  - apply form_decodes; try assumption. apply (wfp_enc_ok pk (wf_packet_parts pk W)).
  - exists (ptype (abs pk) * 16 + pflags (abs pk)), body. split; [reflexivity|]. split; [reflexivity | exact Hl].
Qed.

(* the round trip without the "encoder returned bytes" hypothesis *)
Theorem roundtrip_total pk : wf_packet pk = true -> KF_C26_pid0 pk = false ->
  exists bs rem, mochi_encode pk = Ok bs /\
    (exists hb body, bs = hb :: put_vbi rem ++ body /\ blen body = rem /\ rem <= 268435455) /\
    forall rest, Vbi.wf_bytes (bs ++ rest) ->
      mochi_decode_packet (pk_version pk) (bs ++ rest) = Ok (norm pk rem, rest).
Proof.
  intros W K. destruct (encode_total pk W K) as (body & E & Hin & Hl).
  exists (frame (abs pk) body), (len body). split; [exact E|]. split.
  - exists (ptype (abs pk) * 16 + pflags (abs pk)), body. split; [reflexivity|]. split; [reflexivity | exact Hl].
  - intros rest _. apply form_decodes; try assumption. apply (wfp_enc_ok pk (wf_packet_parts pk W)).
Qed.
