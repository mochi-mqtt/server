(* Facts about the writers of the reference codec (SpecCodec.v: put_props_body, put_vbi, bodies)
   that both the round trip of the reference codec (SpecRT.v) and the proofs about the mochi model
   use.  Nothing of the mochi model is mentioned here. *)
From MV Require Import Base.Val Base.ListMisc Codec.Vbi Codec.VbiProofs Codec.SpecCodec.
From Coq Require Import Lia ZifyNat Permutation.
Open Scope N_scope.

Lemma len_app (a b : bytes) : len (a ++ b) = len a + len b.
Proof. unfold len. rewrite app_length. lia. Qed.

Lemma digit256 n k : k <> 0 -> n / (k * 256) * 256 + (n / k) mod 256 = n / k.
Proof. intros K. rewrite <- N.div_div by (assumption || discriminate). rewrite N.mul_comm. symmetry. apply N.div_mod'. Qed.

(* the four bytes of [put_u32 n], read big-endian *)
Lemma u32_digits n : ((n / 16777216 * 256 + (n / 65536) mod 256) * 256 + (n / 256) mod 256) * 256 + n mod 256 = n.
Proof.
  change 16777216 with (65536 * 256). rewrite (digit256 n 65536) by discriminate.
  change 65536 with (256 * 256). rewrite (digit256 n 256) by discriminate.
  rewrite N.mul_comm, <- N.div_mod'. reflexivity.
Qed.

Lemma put_vbi_encode n : n <= 268435455 -> vbi_encode n = Some (put_vbi n).
Proof. intro H. rewrite (enc_shape n H). reflexivity. Qed.

Lemma no_props_nil ps : no_props ps = true -> ps = [].
Proof. destruct ps; [reflexivity|discriminate]. Qed.

Lemma no_props_reorder ps ps' : reorder ps ps' -> no_props ps = true -> no_props ps' = true.
Proof. intros [P _] H. rewrite (no_props_nil ps H) in P. apply Permutation_nil in P. subst ps'. reflexivity. Qed.

Lemma put_props_body_cons c cs : put_props_body (c :: cs) = put_prop c ++ put_props_body cs.
Proof. reflexivity. Qed.

Lemma put_props_body_app a b : put_props_body (a ++ b) = put_props_body a ++ put_props_body b.
Proof. unfold put_props_body. rewrite map_app, concat_app. reflexivity. Qed.

Lemma body_len_perm ps ps' : Permutation ps ps' -> len (put_props_body ps) = len (put_props_body ps').
Proof.
  unfold len, put_props_body.
  induction 1 as [|a l l' H IH|a b l|l l' l'' H1 IH1 H2 IH2]; cbn [map concat]; rewrite ?app_length in *; lia.
Qed.

(* every property, filter and string takes at least one byte: the number of items is a fuel for the loops *)
Lemma props_count cs : (length cs <= length (put_props_body cs))%nat.
Proof.
  induction cs as [|c cs IH]; [cbn; lia|].
  rewrite put_props_body_cons, app_length. unfold put_prop. cbn [length]. lia.
Qed.

Lemma filters_count v fs : (length fs <= length (concat (map (put_filter v) fs)))%nat.
Proof.
  induction fs as [|f fs IH]; [cbn; lia|].
  cbn [map concat]. rewrite app_length. unfold put_filter at 1. rewrite app_length. cbn [length]. lia.
Qed.

Lemma strings_count (fs : list bytes) : (length fs <= length (concat (map put_str fs)))%nat.
Proof.
  induction fs as [|f fs IH]; [cbn; lia|].
  cbn [map concat]. rewrite app_length. unfold put_str at 1, put_bin, put_u16. cbn [app length]. lia.
Qed.

Lemma in_single {A} (x a : A) : In x [a] -> x = a.
Proof. intros [H|[]]. symmetry. exact H. Qed.

Lemma bodies_full v p body :
  match p with SAck _ _ _ _ | SDisconnect _ _ | SAuth _ _ => False | _ => True end ->
  In body (bodies v p) -> body = full_body v p.
Proof.
  intros Hp Hin. unfold bodies in Hin.
  destruct (negb (v5 v)); [apply in_single; exact Hin|].
  destruct p; try contradiction; apply in_single; exact Hin.
Qed.

Lemma full_in_bodies v p : In (full_body v p) (bodies v p).
Proof. unfold bodies. destruct (negb (v5 v)); [left; reflexivity|]. destruct p; left; reflexivity. Qed.

(* reason code + properties in the three forms, shared by the acknowledgements ([pre] is the packet
   identifier), DISCONNECT and AUTH ([pre] is empty) *)
Lemma short_forms reason ps (pre : bytes) body :
  In body ((pre ++ reason :: put_props ps)
           :: (if no_props ps then [pre ++ [reason]] else [])
           ++ (if no_props ps && (reason =? 0) then [pre] else [])) ->
  (body = pre ++ reason :: put_props ps) \/
  (ps = [] /\ body = pre ++ [reason]) \/
  (ps = [] /\ reason = 0 /\ body = pre).
Proof.
  intros [H|H]; [left; symmetry; exact H|]. apply in_app_or in H. destruct H as [H|H].
  - destruct ps; [|contradiction]. right. left. split; [reflexivity|]. apply in_single in H. exact H.
  - destruct ps; [|contradiction]. cbn [no_props andb] in H.
    destruct (reason =? 0) eqn:E; [|contradiction]. right. right. split; [reflexivity|].
    split; [apply N.eqb_eq; exact E|]. apply in_single in H. exact H.
Qed.
