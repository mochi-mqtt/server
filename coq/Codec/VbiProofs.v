(* C29, variable byte integers: the shape of what encodeLength writes for each of the four sizes;
   the model of DecodeLength accepts exactly what the decoder written from the standard accepts,
   with the same value and number of bytes (decode_refines_spec); hence the round trip, the bounds
   on an accepted value and on its length, and that no accepted encoding is shorter than vbi_min_len. *)
From MV Require Import Base.Val Base.Bytes Codec.Vbi.
From Coq Require Import Lia ZifyBool ZifyN ZifyNat.
Ltac Zify.zify_post_hook ::= Z.div_mod_to_equations.
Open Scope N_scope.

#[local] Arguments N.mul : simpl never.

Lemma enc_small f n : n < 128 -> vbi_encode_fuel (S f) n = Some [n].
Proof.
  intro H. cbn [vbi_encode_fuel].
  replace (0 <? n / 128) with false by lia.
  f_equal. f_equal. lia.
Qed.

Lemma enc_big f n : 128 <= n ->
  vbi_encode_fuel (S f) n =
  match vbi_encode_fuel f (n / 128) with
  | Some r => Some (n mod 128 + 128 :: r)
  | None => None
  end.
Proof.
  intro H. cbn [vbi_encode_fuel].
  replace (0 <? n / 128) with true by lia.
  rewrite small_lor128 by lia. reflexivity.
Qed.

Lemma enc_shape n : n <= vbi_max ->
  vbi_encode n = Some
    (if n <? 128 then [n]
     else if n <? 16384 then [n mod 128 + 128; n / 128]
     else if n <? 2097152 then [n mod 128 + 128; (n / 128) mod 128 + 128; n / 16384]
     else [n mod 128 + 128; (n / 128) mod 128 + 128; (n / 16384) mod 128 + 128; n / 2097152]).
Proof.
  unfold vbi_max, vbi_encode. intro H.
  destruct (n <? 128) eqn:E1.
  { apply enc_small. lia. }
  rewrite enc_big by lia.
  destruct (n <? 16384) eqn:E2.
  { rewrite enc_small by lia. reflexivity. }
  rewrite enc_big by lia.
  replace (n / 128 / 128) with (n / 16384) by lia.
  destruct (n <? 2097152) eqn:E3.
  { rewrite enc_small by lia. reflexivity. }
  rewrite enc_big by lia.
  replace (n / 16384 / 128) with (n / 2097152) by lia.
  rewrite enc_small by lia. reflexivity.
Qed.

Lemma enc_length n e : n <= vbi_max -> vbi_encode n = Some e ->
  N.of_nat (length e) = vbi_min_len n.
Proof.
  intros H E. rewrite (enc_shape n H) in E. injection E as <-.
  unfold vbi_min_len.
  destruct (n <? 128); [reflexivity|].
  destruct (n <? 16384); [reflexivity|].
  destruct (n <? 2097152); reflexivity.
Qed.

Lemma spec_value_S j b r :
  spec_value (S j) (b :: r) =
  if b <? 128 then Some (b, r)
  else match spec_value j r with Some (v, r') => Some (b - 128 + 128 * v, r') | None => None end.
Proof. reflexivity. Qed.

Lemma enc_fuel_spec f : forall n e, vbi_encode_fuel f n = Some e ->
  wf_bytes e /\ forall j rest, (length e <= j)%nat -> spec_value j (e ++ rest) = Some (n, rest).
Proof.
  induction f as [|f IH]; intros n e H; [discriminate|]. cbn [vbi_encode_fuel] in H.
  pose proof (N.mod_lt n 128 ltac:(discriminate)) as M.
  destruct (0 <? n / 128) eqn:Q.
  - destruct (vbi_encode_fuel f (n / 128)) as [r|] eqn:E; [|discriminate]. injection H as <-.
    destruct (IH _ _ E) as [W D]. rewrite small_lor128 by exact M. split.
    + constructor; [|exact W]. change 256 with (128 + 128). apply N.add_lt_mono_r, M.
    + intros [|j] rest L; [inversion L|]. cbn [app]. rewrite spec_value_S.
      replace (n mod 128 + 128 <? 128) with false by (symmetry; apply N.ltb_ge, N.le_add_l).
      rewrite D by exact (le_S_n _ _ L). rewrite N.add_sub, N.add_comm, <- N.div_mod'. reflexivity.
  - injection H as <-. split; [constructor; [exact (N.lt_trans _ 128 256 M eq_refl)|constructor]|].
    intros [|j] rest L; [inversion L|]. cbn [app]. rewrite spec_value_S, (proj2 (N.ltb_lt _ _) M).
    rewrite N.mod_small; [reflexivity|]. apply N.div_small_iff; [discriminate|].
    apply N.ltb_ge, N.le_0_r in Q. exact Q.
Qed.

Lemma enc_wf n e : n <= vbi_max -> vbi_encode n = Some e -> wf_bytes e.
Proof. intros _ E. exact (proj1 (enc_fuel_spec _ _ _ E)). Qed.

Lemma spec_decode_encode n e rest : n <= vbi_max -> vbi_encode n = Some e ->
  spec_decode (e ++ rest) = Some (n, rest).
Proof.
  intros H E. apply (proj2 (enc_fuel_spec _ _ _ E)). pose proof (enc_length n e H E) as L.
  unfold vbi_min_len in L. destruct (n <? 128); [|destruct (n <? 16384); [|destruct (n <? 2097152)]]; lia.
Qed.

Lemma wf_app_iff a b : wf_bytes (a ++ b) <-> wf_bytes a /\ wf_bytes b.
Proof. apply Forall_app. Qed.

Lemma wf_app a b : wf_bytes a -> wf_bytes b -> wf_bytes (a ++ b).
Proof. intros. apply wf_app_iff. split; assumption. Qed.

Lemma spec_value_prefix j : forall bs v r, spec_value j bs = Some (v, r) ->
  exists pre, bs = pre ++ r /\ (1 <= length pre <= j)%nat /\
              (forall y, spec_value j (pre ++ y) = Some (v, y)) /\
              (wf_bytes pre -> v < 2 ^ (7 * N.of_nat (length pre))).
Proof.
  induction j as [|j IH]; intros bs v r H; [discriminate|].
  destruct bs as [|b t]; [discriminate|]. rewrite spec_value_S in H.
  destruct (b <? 128) eqn:E.
  - injection H as <- <-. exists [b]. split; [reflexivity|]. split; [cbn [length]; lia|]. split.
    + intro y. cbn [app]. rewrite spec_value_S, E. reflexivity.
    + intros _. change (2 ^ (7 * N.of_nat (length [b]))) with 128. lia.
  - destruct (spec_value j t) as [[v' r']|] eqn:S; [|discriminate]. injection H as <- <-.
    destruct (IH t v' r' S) as (pre & -> & L & X & B). exists (b :: pre). split; [reflexivity|].
    split; [cbn [length]; lia|]. split.
    + intro y. cbn [app]. rewrite spec_value_S, E, X. reflexivity.
    + intro W. inversion W as [|? ? Hb Ht]; subst. specialize (B Ht).
      replace (7 * N.of_nat (length (b :: pre))) with (7 + 7 * N.of_nat (length pre)) by (cbn [length]; lia).
      rewrite N.pow_add_r. change (2 ^ 7) with 128. lia.
Qed.

(* one loop iteration with shift [m] (= 0, 7, 14 or 21): the accumulated value is below 2^m,
   so the lor is an addition and no uint32 overflow can occur *)
Lemma step_value (eb value m : N) : eb < 256 -> m <= 21 -> value < 2 ^ m ->
  N.lor value (u32 (N.shiftl (N.land eb 127) m)) = value + (eb mod 128) * 2 ^ m.
Proof.
  intros Hb Hk Hv. rewrite byte_land127 by exact Hb.
  rewrite N.shiftl_mul_pow2. unfold u32.
  assert (P : 2 ^ m <= 2 ^ 21) by (apply N.pow_le_mono_r; lia).
  change (2 ^ 21) with 2097152 in P.
  rewrite N.mod_small by nia.
  apply lor_add_disjoint. exact Hv.
Qed.

Definition consumed (bs rest : bytes) : N := N.of_nat (length bs - length rest).

(* The loop at shift m with bu bytes used so far and j more bytes allowed (m + 7j = 28, bu + j = 5), started with an
   accumulated value below 2^m: it agrees with the spec decoder on the remaining bytes. *)
Lemma loop_ok j : forall m bu (bs : bytes) (value : N),
  (0 < j)%nat -> m + 7 * N.of_nat j = 28 -> bu + N.of_nat j = 5 -> wf_bytes bs -> value < 2 ^ m ->
  match spec_value j bs with
  | Some (v, rest) =>
      vbi_decode_loop bs m value bu = VOk (value + v * 2 ^ m) (bu - 1 + consumed bs rest) rest
      /\ (length rest < length bs)%nat
  | None => forall n b r, vbi_decode_loop bs m value bu <> VOk n b r
  end.
Proof.
  induction j as [|j IH]; intros m bu bs value J M B Hwf Hv; [lia|].
  destruct bs as [|eb r]; [cbn [spec_value vbi_decode_loop]; intros; discriminate|].
  inversion Hwf as [|? ? Hb Hr]; subst.
  rewrite spec_value_S. cbn [vbi_decode_loop].
  rewrite step_value by (assumption || lia). rewrite byte_land128 by exact Hb.
  (* the next power, and why nothing exceeds the maximum *)
  assert (P : 2 ^ (m + 7) = 2 ^ m * 128) by (rewrite N.pow_add_r; reflexivity).
  assert (P28 : 2 ^ (m + 7) <= 2 ^ 28) by (apply N.pow_le_mono_r; lia). change (2 ^ 28) with 268435456 in P28.
  (* the low seven bits as a variable [x]: no [mod] in what lia sees below *)
  assert (X : exists x, eb mod 128 = x /\ x <= 127 /\ (eb < 128 -> x = eb) /\ (128 <= eb -> x = eb - 128))
    by (exists (eb mod 128); lia).
  destruct X as (x & -> & X & X1 & X2).
  assert (V : value + x * 2 ^ m < 2 ^ (m + 7)).
  { apply N.lt_le_trans with (2 ^ m + 127 * 2 ^ m); [|rewrite P; lia].
    apply N.add_lt_le_mono; [exact Hv|apply N.mul_le_mono_r; exact X]. }
  replace (268435455 <? value + x * 2 ^ m) with false by lia.
  destruct (eb <? 128) eqn:E.
  - rewrite X1 by lia. split; [f_equal; unfold consumed; cbn [length]; lia|cbn [length]; lia].
  - destruct j as [|j].
    + (* the fourth byte *)
      replace (bu =? 4) with true by lia. cbn [spec_value]. intros; discriminate.
    + replace (bu =? 4) with false by lia.
      specialize (IH (m + 7) (bu + 1) r _ ltac:(lia) ltac:(lia) ltac:(lia) Hr V).
      destruct (spec_value (S j) r) as [[v rest]|]; [|exact IH].
      destruct IH as (I1 & I3). rewrite I1. split; [|cbn [length]; lia].
      f_equal; [|unfold consumed in *; cbn [length]; lia].
      rewrite P, X2 by lia. ring.
Qed.

Theorem decode_refines_spec (bs : bytes) : wf_bytes bs ->
  match spec_decode bs with
  | Some (v, rest) => vbi_decode bs = VOk v (consumed bs rest) rest /\ v <= vbi_max
  | None => forall n b r, vbi_decode bs <> VOk n b r
  end.
Proof.
  intro Hwf. unfold spec_decode, vbi_decode.
  pose proof (loop_ok 4 0 1 bs 0 ltac:(lia) eq_refl eq_refl Hwf ltac:(reflexivity)) as H.
  destruct (spec_value 4 bs) as [[v rest]|] eqn:S; [|exact H].
  destruct H as (H1 & _). rewrite H1. split; [f_equal; lia|].
  (* at most four groups of seven bits *)
  destruct (spec_value_prefix 4 bs v rest S) as (pre & E & L & _ & B). rewrite E in Hwf. apply wf_app_iff in Hwf. specialize (B (proj1 Hwf)).
  assert (P : 2 ^ (7 * N.of_nat (length pre)) <= 2 ^ 28) by (apply N.pow_le_mono_r; lia).
  change (2 ^ 28) with 268435456 in P. unfold vbi_max. lia.
Qed.

Theorem roundtrip (n : N) : n <= vbi_max ->
  exists e, vbi_encode n = Some e /\ N.of_nat (length e) = vbi_min_len n /\
            forall rest, wf_bytes rest -> vbi_decode (e ++ rest) = VOk n (vbi_min_len n) rest.
Proof.
  intro H. pose proof (enc_shape n H) as E.
  eexists. split; [exact E|]. split; [apply (enc_length n _ H E)|].
  intros rest Hr.
  pose proof (decode_refines_spec _ (wf_app _ _ (enc_wf n _ H E) Hr)) as D.
  rewrite (spec_decode_encode n _ rest H E) in D. destruct D as [D _]. rewrite D.
  f_equal. unfold consumed. rewrite app_length.
  rewrite <- (enc_length n _ H E). lia.
Qed.

Theorem reject_long (b1 b2 b3 b4 : N) (rest : bytes) :
  wf_bytes (b1 :: b2 :: b3 :: b4 :: rest) ->
  128 <= b1 -> 128 <= b2 -> 128 <= b3 -> 128 <= b4 ->
  forall n b r, vbi_decode (b1 :: b2 :: b3 :: b4 :: rest) <> VOk n b r.
Proof.
  intros Hwf H1 H2 H3 H4.
  pose proof (decode_refines_spec _ Hwf) as D.
  unfold spec_decode in D. rewrite !spec_value_S in D.
  replace (b1 <? 128) with false in D by lia.
  replace (b2 <? 128) with false in D by lia.
  replace (b3 <? 128) with false in D by lia.
  replace (b4 <? 128) with false in D by lia.
  cbn [spec_value] in D. exact D.
Qed.

Theorem decoded_bounded (bs : bytes) n bu r : wf_bytes bs -> vbi_decode bs = VOk n bu r ->
  n <= vbi_max /\ 1 <= bu <= 4 /\ spec_decode bs = Some (n, r).
Proof.
  intros Hwf E. pose proof (decode_refines_spec bs Hwf) as D.
  destruct (spec_decode bs) as [[v rest]|] eqn:S; [|destruct (D _ _ _ E)].
  destruct D as [D1 D2]. rewrite D1 in E. injection E as <- <- <-.
  split; [exact D2|]. split; [|reflexivity].
  destruct (spec_value_prefix 4 bs v rest S) as (pre & -> & L & _).
  unfold consumed. rewrite app_length. lia.
Qed.

Theorem min_len_minimal (bs : bytes) n rest : wf_bytes bs -> spec_decode bs = Some (n, rest) ->
  vbi_min_len n <= consumed bs rest.
Proof.
  intros Hwf S. destruct (spec_value_prefix 4 bs n rest S) as (pre & -> & L & _ & B). apply wf_app_iff in Hwf. specialize (B (proj1 Hwf)).
  unfold consumed. rewrite app_length. replace (length pre + length rest - length rest)%nat with (length pre) by lia.
  unfold vbi_min_len.
  destruct (length pre) as [|[|[|[|[|k]]]]]; [lia| | | | |lia];
    [change (2 ^ _) with 128 in B|change (2 ^ _) with 16384 in B|change (2 ^ _) with 2097152 in B|];
    destruct (n <? 128) eqn:?; try lia; destruct (n <? 16384) eqn:?; try lia; destruct (n <? 2097152) eqn:?; lia.
Qed.
