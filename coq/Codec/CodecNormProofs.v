(* C26: the definitions of CodecNorm.v through lemmas.  The Properties struct decoded from what
   Properties.Encode wrote is the explicit normal form [norm_props]; wf_packet conjunct by conjunct
   ([wf_parts]); the header a well-formed packet has ([wf_header]); what [norm] keeps of a packet. *)
From MV Require Import Base.Val Codec.Wire Codec.Props Codec.MochiCodec Codec.SpecCodec
  Codec.SpecBridge Codec.CodecOrder Codec.CodecEnc Codec.CodecNorm Base.BytesEq.
From Coq Require Import Lia.
Open Scope N_scope.

Lemma filter_optl k c x : filter (has_id k) (optl c x) = if has_id k x then optl c x else [].
Proof. destruct c; cbn [optl filter]; destruct (has_id k x); reflexivity. Qed.

Lemma filter_if {A} (f : A -> bool) (c : bool) l : filter f (if c then l else []) = if c then filter f l else [].
Proof. destruct c; reflexivity. Qed.

Lemma filter_subids k l : filter (has_id k) (map SubscriptionId l) = if 11 =? k then map SubscriptionId l else [].
Proof.
  unfold has_id. induction l as [|a l IH]; [destruct (11 =? k); reflexivity|].
  cbn [map filter prop_id]. rewrite IH. destruct (11 =? k); reflexivity.
Qed.

Lemma filter_users k (l : list (bytes * bytes)) :
  filter (has_id k) (map (fun kv => UserProperty (fst kv) (snd kv)) l)
  = if 38 =? k then map (fun kv => UserProperty (fst kv) (snd kv)) l else [].
Proof.
  unfold has_id. induction l as [|a l IH]; [destruct (38 =? k); reflexivity|].
  cbn [map filter prop_id]. rewrite IH. destruct (38 =? k); reflexivity.
Qed.

Lemma fold_subids l acc : fold_left (fun s c => sstore c s) (map SubscriptionId l) (SL acc) = SL (acc ++ l).
Proof.
  revert acc. induction l as [|a l IH]; intro acc; [cbn; rewrite app_nil_r; reflexivity|].
  cbn [map fold_left sstore]. rewrite IH, <- app_assoc. reflexivity.
Qed.

Lemma fold_users (l : list (bytes * bytes)) acc :
  fold_left (fun s c => sstore c s) (map (fun kv => UserProperty (fst kv) (snd kv)) l) (SU acc) = SU (acc ++ l).
Proof.
  revert acc. induction l as [|[a b] l IH]; intro acc; [cbn; rewrite app_nil_r; reflexivity|].
  cbn [map fold_left sstore fst snd]. rewrite IH, <- app_assoc. reflexivity.
Qed.

Lemma if_same {A} (c : bool) (x : A) : (if c then x else x) = x.
Proof. destruct c; reflexivity. Qed.

Lemma props_of_entries pkt m p n : props_of (entries pkt m p n) = norm_props pkt m p n.
Proof.
  apply slot_ext. intros k Hin. unfold props_of. rewrite (slot_store_all k Hin).
  (* slot by slot: of [entries], only the row of the slot's identifier passes the filter *)
  unfold entries. cbv zeta. rewrite !filter_app, !filter_optl, !filter_if, filter_subids, filter_users.
  unfold all_ids in Hin.
  repeat (destruct Hin as [<-|Hin]; [
    cbv beta iota delta [has_id prop_id]; cbn [N.eqb Pos.eqb app];
    try match goal with |- context [optl ?c _] => destruct c eqn:? end;
    cbn [optl fold_left sstore slot props0 norm_props app
         p_payload_format p_payload_format_flag p_message_expiry p_content_type p_response_topic
         p_correlation_data p_sub_ids p_session_expiry p_session_expiry_flag p_assigned_client_id p_server_keep_alive
         p_server_keep_alive_flag p_auth_method p_auth_data p_request_problem_info p_request_problem_info_flag
         p_will_delay p_request_response_info p_response_info p_server_reference p_reason_string p_receive_maximum
         p_topic_alias_maximum p_topic_alias p_topic_alias_flag p_maximum_qos p_maximum_qos_flag p_retain_available
         p_retain_available_flag p_user p_maximum_packet_size p_wildcard_sub_available p_wildcard_sub_available_flag
         p_sub_id_available p_sub_id_available_flag p_shared_sub_available p_shared_sub_available_flag];
    idtac |]).
  all: try contradiction.
  all: repeat match goal with |- context [if ?c then @nil ?A else @nil ?A] => replace (if c then @nil A else @nil A) with (@nil A) by (destruct c; reflexivity) end.
  all: cbn [app fold_left].
  all: try (match goal with H : ?c = _ |- context [?c] => rewrite H end; reflexivity).
  - destruct (valid_prop 11 pkt); [|reflexivity]. rewrite app_nil_r, fold_subids. reflexivity.
  - destruct ((negb (m_disallow_problem_info m) || (pkt =? PUBLISH)) && valid_prop 38 pkt &&
              ((m_max_size m =? 0) || (uint32 (n + blen (enc_user (p_user p)) + 1) <? m_max_size m)));
      [|reflexivity]. rewrite app_nil_r, fold_users. reflexivity.
Qed.

Record wf_parts (pk : packet) : Prop := {
  wfp_type : 1 <= fh_type (pk_fh pk) <= 15;
  wfp_version : pk_version pk < 256;
  wfp_props : wf_props (pk_props pk) = true;
  wfp_will_props : wf_props (c_will_props (pk_connect pk)) = true;
  wfp_enc_ok : enc_ok (pk_version pk) (abs pk) = true;
  wfp_len : len (full_body (pk_version pk) (abs pk)) <= 268435455;
  wfp_packet_id : pk_packet_id pk < 65536;
  wfp_reason_code : pk_reason_code pk < 256;
  wfp_payload : Vbi.wf_bytesb (pk_payload pk) = true;
  wfp_reason_codes : Vbi.wf_bytesb (pk_reason_codes pk) = true;
  wfp_flags : fh_type (pk_fh pk) <> 3 ->
    fh_dup (pk_fh pk) = false /\ fh_retain (pk_fh pk) = false /\
    fh_qos (pk_fh pk) = (let ty := fh_type (pk_fh pk) in if (ty =? 6) || (ty =? 8) || (ty =? 10) then 1 else 0);
  wfp_connect : fh_type (pk_fh pk) = 1 ->
    let v := pk_version pk in
    let c := pk_connect pk in
    ((v =? 3) || (v =? 4) || (v =? 5)) = true /\
    c_protocol_name c = (if v =? 3 then bytes_of_string "MQIsdp" else bytes_of_string "MQTT") /\
    c_keepalive c < 65536 /\
    (c_will_flag c || ((c_will_qos c =? 0) && negb (c_will_retain c))) = true;
  wfp_filters : forallb (fun s => (s_qos s <=? 2) && (s_retain_handling s <? 4)) (pk_filters pk) = true
}.

Lemma wf_packet_parts pk : wf_packet pk = true -> wf_parts pk.
Proof.
  unfold wf_packet, is_byte. cbv zeta. intro W.
  repeat (apply andb_prop in W; let H := fresh "W" in destruct W as [W H]).
  constructor; try assumption.
  - split; [apply N.leb_le | apply N.leb_le]; assumption.
  - apply N.ltb_lt. assumption.
  - apply N.leb_le. assumption.
  - apply N.ltb_lt. assumption.
  - apply N.ltb_lt. assumption.
  - intro T. apply N.eqb_neq in T. rewrite T in W2.
    apply andb_prop in W2. destruct W2 as [W2 Q]. apply andb_prop in W2. destruct W2 as [D R].
    apply negb_true_iff in D. apply negb_true_iff in R. apply N.eqb_eq in Q. auto.
  - intro T. cbv zeta. rewrite T in W1. change (1 =? 1) with true in W1. cbv iota in W1.
    apply andb_prop in W1. destruct W1 as [W1 F]. apply andb_prop in W1. destruct W1 as [W1 K].
    apply andb_prop in W1. destruct W1 as [V P]. apply beq_bytes_eq in P. apply N.ltb_lt in K. auto.
Qed.

Lemma wf_packet_intro pk : wf_parts pk -> wf_packet pk = true.
Proof.
  intros [[T1 T2] V P WP E L I R Y C F K S]. unfold wf_packet, is_byte. cbv zeta.
  apply N.leb_le in T1, T2, L. apply N.ltb_lt in V, I, R. rewrite T1, T2, V, P, WP, E, L, I, R, Y, C, S.
  cbn [andb]. rewrite andb_true_r. apply andb_true_intro. split.
  - destruct (fh_type (pk_fh pk) =? 3) eqn:T; [reflexivity|]. apply N.eqb_neq in T.
    destruct (F T) as (-> & -> & ->). apply N.eqb_refl.
  - destruct (fh_type (pk_fh pk) =? 1) eqn:T; [|reflexivity]. apply N.eqb_eq in T.
    destruct (K T) as (Lv & -> & Ka & Wl). apply N.ltb_lt in Ka. rewrite Lv, Ka, Wl, beq_bytes_refl. reflexivity.
Qed.

Lemma packet_type_cases (P : N -> Prop) :
  P 1 -> P 2 -> P 3 -> P 4 -> P 5 -> P 6 -> P 7 -> P 8 -> P 9 -> P 10 -> P 11 -> P 12 -> P 13 -> P 14 -> P 15 ->
  forall ty, 1 <= ty <= 15 -> P ty.
Proof.
  intros. destruct ty as [|q]; [lia|].
  do 4 (destruct q as [q|q|]; try assumption); lia.
Qed.

Lemma expected_fh v p rem : pk_fh (expected v p rem) = fh_of p rem.
Proof. destruct p as [| | |[]| | | | | | | |]; reflexivity. Qed.

Lemma norm_version pk rem : wf_packet pk = true -> pk_version (norm pk rem) = pk_version pk.
Proof.
  intro W. unfold norm, abs.
  pattern (fh_type (pk_fh pk)). apply packet_type_cases; [..| apply (wfp_type pk (wf_packet_parts pk W))];
    reflexivity.
Qed.

(* the header fields of a well-formed packet are those its type prescribes: only a PUBLISH has flags
   of its own *)
Lemma wf_header pk rem : wf_packet pk = true -> fh_of (abs pk) rem = set_fh_remaining rem (pk_fh pk).
Proof.
  intro W. destruct (wf_packet_parts pk W) as [T _ _ _ _ _ _ _ _ _ F _ _].
  unfold abs. destruct (pk_fh pk) as [r ty q d rt].
  cbn [fh_type fh_qos fh_dup fh_retain set_fh_remaining fh_remaining] in *. cbv zeta in F.
  revert F. pattern ty. apply packet_type_cases; [..| exact T]; intro F;
    try reflexivity;
    (destruct F as (-> & -> & ->); [discriminate | reflexivity]).
Qed.

Lemma norm_fh pk rem : wf_packet pk = true -> pk_fh (norm pk rem) = set_fh_remaining rem (pk_fh pk).
Proof. intro W. unfold norm. rewrite expected_fh. apply wf_header. exact W. Qed.

Lemma norm_same_fields pk rem : wf_packet pk = true -> same_fields pk (norm pk rem).
Proof.
  intro W. destruct (wf_packet_parts pk W) as [T _ _ _ _ _ _ _ _ _ _ C _].
  unfold same_fields, norm, abs. cbv zeta.
  revert C. pattern (fh_type (pk_fh pk)). apply packet_type_cases; [..|exact T]; cbv beta iota; intro C;
    cbn [expected ack_type ack_kind_of]; pkred.
  - destruct (C eq_refl) as (_ & Name & _ & _).
    destruct (c_will_flag (pk_connect pk)), (c_username_flag (pk_connect pk)), (c_password_flag (pk_connect pk));
      connred; cbn [is_some opt_bytes will_props will_topic will_payload will_qos will_retain];
      repeat split; try discriminate; try (symmetry; exact Name);
      intros ->; apply props_of_entries.
  - split; reflexivity.
  - repeat split. intro Q. apply N.ltb_lt in Q. rewrite Q. reflexivity.
  - split; [reflexivity | intros ->; reflexivity].
  - split; [reflexivity | intros ->; reflexivity].
  - split; [reflexivity | intros ->; reflexivity].
  - split; [reflexivity | intros ->; reflexivity].
  - (* SUBSCRIBE: a filter keeps its options under MQTT 5, its QoS otherwise *)
    rewrite !map_map. split; [reflexivity|].
    split; [apply map_ext; intro s; destruct (pk_version pk =? 5); reflexivity|].
    split; [apply map_ext; intro s; destruct (pk_version pk =? 5); reflexivity|].
    intros ->. repeat split; apply map_ext; reflexivity.
  - split; reflexivity.
  - rewrite !map_map. split; [reflexivity | apply map_ext; reflexivity].
  - split; [reflexivity | intros ->; reflexivity].
  - exact I.
  - exact I.
  - intros ->. reflexivity.
  - reflexivity.
Qed.

Lemma props_of_v5_entries v ty m p n : v = 5 \/ ty = 15 -> ty <> 15 ->
  exists n', props_of (if v =? 5 then entries ty m p n else []) = norm_props ty m p n'.
Proof. intros [->|E] N15; [exists n; apply props_of_entries | contradiction]. Qed.

Lemma norm_props_kept pk rem : wf_packet pk = true ->
  pk_version pk = 5 \/ fh_type (pk_fh pk) = 15 -> fh_type (pk_fh pk) <> 12 -> fh_type (pk_fh pk) <> 13 ->
  exists n, pk_props (norm pk rem) = norm_props (fh_type (pk_fh pk)) (pk_mods pk) (pk_props pk) n.
Proof.
  intro W. unfold norm, abs. cbv zeta.
  pattern (fh_type (pk_fh pk)). apply packet_type_cases; [..| apply (wfp_type pk (wf_packet_parts pk W))];
    cbn [expected]; pkred; intros V N12 N13.
  1-11, 14: apply (props_of_v5_entries _ _ _ _ _ V); discriminate.
  - contradiction N12; reflexivity.
  - contradiction N13; reflexivity.
  - eexists. apply props_of_entries.
Qed.

Theorem norm_preserves pk rem : wf_packet pk = true ->
  let q := norm pk rem in
  pk_version q = pk_version pk /\
  fh_type (pk_fh q) = fh_type (pk_fh pk) /\ fh_qos (pk_fh q) = fh_qos (pk_fh pk) /\
  fh_dup (pk_fh q) = fh_dup (pk_fh pk) /\ fh_retain (pk_fh q) = fh_retain (pk_fh pk) /\
  fh_remaining (pk_fh q) = rem /\
  same_fields pk q /\
  ((pk_version pk = 5 \/ fh_type (pk_fh pk) = 15) -> fh_type (pk_fh pk) <> 12 -> fh_type (pk_fh pk) <> 13 ->
   exists n, pk_props q = norm_props (fh_type (pk_fh pk)) (pk_mods pk) (pk_props pk) n).
Proof.
  intro W. cbv zeta. rewrite (norm_version pk rem W), (norm_fh pk rem W).
  split; [reflexivity|]. do 5 (split; [destruct (pk_fh pk); reflexivity|]).
  split; [apply norm_same_fields | apply norm_props_kept]; exact W.
Qed.
