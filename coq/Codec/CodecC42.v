(* C42: every encoding the standard permits for a valid packet — any permitted omission, the
   properties in any permitted order — is decoded by the mochi model as the packet the sender meant. *)
From MV Require Import Base.Val Codec.Wire Codec.Props Codec.MochiCodec Codec.SpecCodec Codec.SpecFacts Codec.SpecRT Codec.SpecBridge
  Codec.WireProofs Codec.CodecRT Codec.CodecEnc Codec.CodecOrder.
From Coq Require Import Lia Permutation.
Open Scope N_scope.

Definition ctx_table : list (pctx * N) :=
  [(XConnect, 1); (XConnack, 2); (XPublish, 3); (XAck, 4); (XAck, 5); (XAck, 6); (XAck, 7);
   (XSubscribe, 8); (XSuback, 9); (XUnsubscribe, 10); (XUnsuback, 11); (XDisconnect, 14);
   (XAuth, 15); (XWill, 99)].

Lemma allowed_valid x pkt c : In (x, pkt) ctx_table -> prop_allowed x c = true ->
  valid_prop (prop_id c) pkt = true.
Proof.
  intro H. unfold ctx_table in H.
  repeat (destruct H as [H|H]; [injection H as <- <-; destruct c; intro A; try discriminate A; reflexivity|]).
  destruct H.
Qed.

Lemma props_ok_fits x pkt ps : In (x, pkt) ctx_table -> props_ok x ps = true -> plist_fits pkt ps = true.
Proof.
  intros Hx H. unfold props_ok in H. split_and. unfold plist_fits. join_and.
  - apply (forallb_imp prop_value_ok prop_fits); [apply prop_value_ok_fits | assumption].
  - unfold props_valid_for. apply (forallb_imp (prop_allowed x)); [|assumption]. intros c. apply allowed_valid. exact Hx.
  - assumption.
Qed.

Lemma props_for_fits v x pkt ps : In (x, pkt) ctx_table -> props_for v x ps = true -> plist_v v pkt ps = true.
Proof.
  unfold props_for, plist_v, v5. intros Hx H. destruct (v =? 5); [|exact H].
  eapply props_ok_fits; eassumption.
Qed.

Ltac intable := unfold ctx_table; repeat (first [left; reflexivity | right]).

Lemma bin_ok_fits d : bin_ok d = true -> bin_fits d = true.
Proof. intro H. exact H. Qed.

Lemma str_ok_bin_fits s : str_ok s = true -> bin_fits s = true.
Proof. unfold str_ok. intro H. apply andb_prop in H. destruct H as [H _]. exact H. Qed.

Lemma will_ok_fits lvl w : will_ok lvl w = true -> will_fits lvl w = true.
Proof.
  unfold will_ok, will_fits. intro H. split_and. join_and.
  - apply (props_for_fits lvl XWill); [intable | assumption].
  - apply str_ok_fits. assumption.
  - assumption.
  - lia.
Qed.

Lemma filter_ok_fits v f : filter_ok v f = true -> filter_fits v f = true.
Proof.
  unfold filter_ok, filter_fits, v5. intro H. split_and. join_and.
  - apply str_ok_fits. assumption.
  - assumption.
  - destruct (v =? 5); [lia | assumption].
Qed.

Lemma valid_enc_ok v p : valid_packet v p = true -> enc_ok v p = true.
Proof.
  destruct p; cbn [valid_packet enc_ok]; intro H; split_and.
  - join_and.
    + eapply props_for_fits; [|eassumption]. intable.
    + apply str_ok_fits. assumption.
    + destruct will as [w|]; [apply will_ok_fits; assumption | reflexivity].
    + destruct username; [|reflexivity]. cbn [opt_ok] in *. apply str_ok_bin_fits. assumption.
    + destruct password; [|reflexivity]. cbn [opt_ok] in *. assumption.
  - eapply props_for_fits; [|eassumption]. intable.
  - (* publish: the identifier is 0 exactly at QoS 0 *)
    join_and; try assumption.
    + apply str_ok_fits. assumption.
    + eapply props_for_fits; [|eassumption]. intable.
    + match goal with Hq : (if qos =? 0 then _ else _) = true |- _ => revert Hq end. clear.
      destruct (qos =? 0) eqn:E; intro Hq; [rewrite Hq; apply orb_true_r | replace (1 <=? qos) with true by lia; reflexivity].
  - join_and.
    + eapply props_for_fits; [|eassumption]. destruct kind; intable.
    + unfold v5 in *. destruct (v =? 5); [reflexivity|]. cbn [orb]. assumption.
  - join_and.
    + eapply props_for_fits; [|eassumption]. intable.
    + destruct filters; [discriminate|]. eapply forallb_imp; [apply filter_ok_fits | eassumption].
  - eapply props_for_fits; [|eassumption]. intable.
  - join_and.
    + eapply props_for_fits; [|eassumption]. intable.
    + destruct filters; [discriminate|].
      eapply forallb_imp; [|eassumption]. intros f Hf. cbv beta in Hf. split_and. apply str_ok_fits. assumption.
  - join_and.
    + eapply props_for_fits; [|eassumption]. intable.
    + unfold v5 in *. destruct (v =? 5); [reflexivity|]. cbn [orb]. assumption.
  - reflexivity.
  - reflexivity.
  - unfold v5, plist_v in *. destruct (v =? 5); split_and; join_and.
    + eapply props_ok_fits; [|eassumption]. intable.
    + reflexivity.
    + assumption.
    + cbn [orb]. assumption.
  - eapply props_ok_fits; [|eassumption]. intable.
Qed.

Lemma props_of_reorder_ok x ps ps' : props_ok x ps = true -> reorder ps ps' -> props_of ps' = props_of ps.
Proof. unfold props_ok. intros H R. split_and. eapply props_of_reorder; eassumption. Qed.

Lemma props_of_reorder_for v x ps ps' : props_for v x ps = true -> reorder ps ps' -> props_of ps' = props_of ps.
Proof.
  unfold props_for. intros H R. destruct (v5 v).
  - exact (props_of_reorder_ok x ps ps' H R).
  - rewrite (no_props_nil ps H), (no_props_nil ps' (no_props_reorder ps ps' R H)). reflexivity.
Qed.

Lemma same_packet_expected v p p' rem : same_packet p p' -> valid_packet v p = true ->
  expected v p' rem = expected v p rem.
Proof.
  intros S H. destruct S; cbn [valid_packet] in H; split_and; cbn [expected];
    try reflexivity;
    try (erewrite (props_of_reorder_for _ _ ps ps') by eassumption; reflexivity).
  - (* connect with will *)
    cbn [opt_ok] in *.
    match goal with Hw : will_ok _ _ = true |- _ => unfold will_ok in Hw; cbn [will_props] in Hw end. split_and.
    cbn [will_props will_topic will_payload will_qos will_retain].
    rewrite (props_of_reorder_for lvl XConnect ps ps'), (props_of_reorder_for lvl XWill wps wps') by assumption.
    reflexivity.
  - (* subscribe: the identifier copied into each filter is the first one of the list *)
    unfold first_sub_id. erewrite (props_of_reorder_for _ _ ps ps') by eassumption. reflexivity.
  - (* disconnect *)
    rewrite (props_of_reorder_for v XDisconnect ps ps'); [reflexivity | | assumption].
    unfold props_for. destruct (v5 v); split_and; assumption.
  - (* auth *)
    rewrite (props_of_reorder_ok XAuth ps ps') by assumption. reflexivity.
Qed.

Theorem permitted_encoding_decodes v p bs rest :
  valid_packet v p = true -> spec_encodings v p bs -> Vbi.wf_bytes (bs ++ rest) ->
  exists rem, mochi_decode_packet v (bs ++ rest) = Ok (expected v p rem, rest) /\
              blen bs = 1 + blen (put_vbi rem) + rem.
Proof.
  intros Hv (p' & S & Hin) _. unfold spec_forms in Hin.
  apply in_map_iff in Hin. destruct Hin as (body & <- & Hb).
  apply filter_In in Hb. destruct Hb as [Hb Hl].
  exists (len body). split.
  - rewrite (form_decodes v p' body rest).
    + rewrite (same_packet_expected v p p' _ S Hv). reflexivity.
    + apply valid_enc_ok, (valid_same_packet v p p' S Hv).
    + exact Hb.
    + lia.
  - unfold frame. rewrite blen_cons, blen_app. change (len body) with (blen body). lia.
Qed.

(* the corollary named in the property: a DISCONNECT that carries only the reason code 0x04 *)
Corollary disconnect_with_will rest : Vbi.wf_bytes rest ->
  mochi_decode_packet 5 ([224; 1; 4] ++ rest) = Ok (expected 5 (SDisconnect 4 []) 1, rest).
Proof.
  intro Hw.
  destruct (permitted_encoding_decodes 5 (SDisconnect 4 []) [224; 1; 4] rest) as (rem & H & L).
  - reflexivity.
  - exists (SDisconnect 4 []). split.
    + constructor. split; [apply Permutation_refl | reflexivity].
    + vm_compute. tauto.
  - cbn [app]. repeat constructor; try lia. exact Hw.
  - change (blen [224; 1; 4]) with 3 in L. pose proof (blen_put_vbi_range rem).
    assert (rem = 0 \/ rem = 1) as [-> | ->] by lia; [discriminate L | exact H].
Qed.
