(* C42 / C26, decoder side: the mochi decoder model applied to any encoding the reference codec
   (SpecCodec.v) writes for a packet yields the packet the sender meant (SpecBridge.expected),
   provided the values fit their fields ([enc_ok]).

   Each body decoder is run over the reference body field by field.  A hypothesis
   [C : cur body off rest] says what the body holds from the decoder's offset on; the field at the
   front of [rest] is read with the lemma for its kind (decodeUint16_put, decodeString_fits,
   props_if_v5_put, ...), and [adv C] moves [C] past it. *)
From MV Require Import Base.Val Codec.Wire Codec.Props Codec.MochiCodec Codec.SpecCodec Codec.SpecFacts
  Codec.SpecBridge Codec.WireProofs Codec.CodecRT.
From Coq Require Import Lia.
Local Ltac Zify.zify_post_hook ::= Z.div_mod_to_equations.
Open Scope N_scope.

Ltac rb := cbn beta iota delta [bind bind_err].

(* what the decoder needs of a packet to read its encoding back; less than [valid_packet] asks: a
   will QoS or a retain handling of 3 fits its two bits *)
Definition plist_fits (pkt : N) (ps : list sprop) : bool :=
  forallb prop_fits ps && props_valid_for pkt ps && (len (put_props_body ps) <=? 268435455).
Definition plist_v (v pkt : N) (ps : list sprop) : bool :=
  if v =? 5 then plist_fits pkt ps else no_props ps.

Definition will_fits (lvl : N) (w : swill) : bool :=
  plist_v lvl WILLPROPS (will_props w) && str_fits (will_topic w) && bin_fits (will_payload w)
  && (will_qos w <? 4).

Definition filter_fits (v : N) (f : sfilter) : bool :=
  str_fits (f_filter f) && (f_qos f <=? 2)
  && (if v =? 5 then f_retain_handling f <? 4
      else negb (f_no_local f) && negb (f_retain_as_published f) && (f_retain_handling f =? 0)).

Definition enc_ok (v : N) (p : spkt) : bool :=
  match p with
  | SConnect lvl clean ka ps cid will user pass =>
      plist_v lvl CONNECT ps && str_fits cid && opt_ok (will_fits lvl) will
      && opt_ok bin_fits user && opt_ok bin_fits pass
  | SConnack sp code ps => plist_v v CONNACK ps
  | SPublish dup qos retain topic id ps payload =>
      (qos <=? 2) && ((1 <=? qos) || negb dup) && str_fits topic && plist_v v PUBLISH ps
      && ((1 <=? qos) || (id =? 0))
  | SAck k id reason ps => plist_v v (ack_type k) ps && ((v =? 5) || (reason =? 0))
  | SSubscribe id ps fs => plist_v v SUBSCRIBE ps && forallb (filter_fits v) fs
  | SSuback id ps codes => plist_v v SUBACK ps
  | SUnsubscribe id ps fs => plist_v v UNSUBSCRIBE ps && forallb str_fits fs
  | SUnsuback id ps codes => plist_v v UNSUBACK ps && ((v =? 5) || match codes with [] => true | _ => false end)
  | SPingreq | SPingresp => true
  | SDisconnect reason ps => plist_v v DISCONNECT ps && ((v =? 5) || (reason =? 0))
  | SAuth reason ps => plist_fits AUTH ps
  end.

Lemma decode_frame v hb fh body rest :
  fh_decode fh0 hb = Ok fh -> blen body <= 268435455 ->
  mochi_decode_packet v (hb :: put_vbi (len body) ++ body ++ rest) =
  (let* pk := mochi_decode_body v (set_fh_remaining (blen body) fh) body in Ok (pk, rest)).
Proof.
  intros Hfh Hl. unfold mochi_decode_packet. rewrite Hfh. rb.
  change (len body) with (blen body).
  rewrite (vbi_decode_put _ _ Hl).
  replace (blen (body ++ rest) <? blen body) with false by (rewrite blen_app; lia).
  rewrite firstn_app_exact, skipn_app_exact. reflexivity.
Qed.

Lemma plist_fits_parts pkt ps : plist_fits pkt ps = true ->
  forallb prop_fits ps = true /\ props_valid_for pkt ps = true /\ len (put_props_body ps) <= 268435455.
Proof.
  unfold plist_fits. intro H. apply andb_prop in H. destruct H as [H H3].
  apply andb_prop in H. destruct H as [H1 H2]. repeat split; try assumption. lia.
Qed.

Lemma decode_props_at_put pk buf off ps r :
  plist_fits (fh_type (pk_fh pk)) ps = true ->
  cur buf off (put_props ps ++ r) ->
  decode_props_at pk buf off = Ok (blen (put_props ps), set_pk_props (store_all ps (pk_props pk)) pk).
Proof.
  intros Hf H. destruct (plist_fits_parts _ _ Hf) as (H1 & H2 & H3).
  unfold decode_props_at. rewrite (slice_from_cur H). rb.
  rewrite (props_decode_put _ _ _ _ H1 H2 H3). reflexivity.
Qed.

Lemma props_if_v5_put pk buf off ps r :
  plist_v (pk_version pk) (fh_type (pk_fh pk)) ps = true ->
  cur buf off (put_props_v (pk_version pk) ps ++ r) ->
  props_if_v5 pk buf off =
  Ok (set_pk_props (store_all ps (pk_props pk)) pk, off + blen (put_props_v (pk_version pk) ps)).
Proof.
  unfold plist_v, props_if_v5, put_props_v, v5. intros Hf H.
  destruct (pk_version pk =? 5).
  - rewrite (decode_props_at_put _ _ _ _ _ Hf H). reflexivity.
  - destruct ps; [|discriminate]. cbn [store_all fold_left]. change (blen []) with 0.
    rewrite N.add_0_r. destruct pk; reflexivity.
Qed.

Definition qos_of (p : spkt) : N :=
  match p with
  | SPublish _ qos _ _ _ _ _ => qos
  | SAck KPubrel _ _ _ | SSubscribe _ _ _ | SUnsubscribe _ _ _ => 1
  | _ => 0
  end.
Definition dup_of (p : spkt) : bool := match p with SPublish dup _ _ _ _ _ _ => dup | _ => false end.
Definition retain_of (p : spkt) : bool := match p with SPublish _ _ retain _ _ _ _ => retain | _ => false end.
Definition fh_of (p : spkt) (rem : N) : fixedheader := mkfh rem (ptype p) (qos_of p) (dup_of p) (retain_of p).

Definition body_decodes (v : N) (p : spkt) (body : bytes) : Prop :=
  mochi_decode_body v (fh_of p (blen body)) body = Ok (expected v p (blen body)).

Lemma blen_put_props_pos ps : 1 <= blen (put_props ps).
Proof. unfold put_props. rewrite blen_app. pose proof (blen_put_vbi_range (len (put_props_body ps))). lia. Qed.

Ltac pkred :=
  cbn [fresh_packet packet0 pk_connect pk_props pk_payload pk_reason_codes pk_filters pk_topic pk_fh pk_mods
       pk_packet_id pk_version pk_session_present pk_reason_code pk_reserved_bit
       set_pk_connect set_pk_props set_pk_payload set_pk_reason_codes set_pk_filters set_pk_topic set_pk_fh
       set_pk_mods set_pk_packet_id set_pk_version set_pk_session_present set_pk_reason_code set_pk_reserved_bit
       fh_remaining fh_type fh_qos fh_dup fh_retain upd_connect fh_of ptype qos_of dup_of retain_of].
Ltac iftrue := match goal with |- context [if ?c then _ else _] => replace c with true by lia; cbv iota end.
Ltac iffalse := match goal with |- context [if ?c then _ else _] => replace c with false by lia; cbv iota end.
Ltac blens := repeat first [rewrite blen_app | rewrite blen_cons]; change (blen (@nil N)) with 0;
  repeat match goal with |- context [blen (put_u16 ?x)] => change (blen (put_u16 x)) with 2 end.

Lemma cur_next buf off b r : cur buf off (b :: r) -> cur buf (off + 1) r.
Proof. apply (cur_adv buf off [b] r). Qed.

Ltac adv C := first [apply cur_adv in C | apply cur_next in C];
  repeat match type of C with context [blen (put_u16 ?x)] => change (blen (put_u16 x)) with 2 in C end;
  repeat match type of C with context [blen [?x]] => change (blen [x]) with 1 in C end.

Lemma ack_decodes v k id reason ps body (p := SAck k id reason ps) :
  enc_ok v p = true -> In body (bodies v p) ->
  ack_decode (fresh_packet v (fh_of p (blen body))) body = Ok (expected v p (blen body)).
Proof.
  intros Hok Hin. subst p. unfold ack_decode. pkred.
  cbn [enc_ok] in Hok. apply andb_prop in Hok. destruct Hok as [Hp Hr].
  unfold bodies, v5 in Hin. unfold plist_v in Hp. pose proof (blen_put_props_pos ps) as Pp.
  destruct (v =? 5) eqn:Ev; cbn [negb] in Hin.
  - apply N.eqb_eq in Ev. subst v.
    cbn [full_body] in Hin. unfold v5 in Hin. change (5 =? 5) with true in Hin. cbv iota in Hin.
    apply (short_forms reason ps (put_u16 id)) in Hin.
    pose proof (cur_start body) as C.
    destruct Hin as [Hb | [[Hps Hb] | [Hps [Hr0 Hb]]]]; subst body; try subst ps; try subst reason.
    + rewrite (decodeUint16_put C). rb. adv C. pkred. blens. iftrue.
      rewrite (decodeByte_cur C). rb. pkred. iftrue.
      adv C.
      rewrite <- (app_nil_r (put_props ps)) in C |- *.
      erewrite decode_props_at_put; [ | exact Hp | exact C ].
      rb. destruct k; reflexivity.
    + rewrite (decodeUint16_put C). rb. adv C. pkred. blens. iftrue.
      rewrite (decodeByte_cur C). rb. pkred. iffalse.
      destruct k; reflexivity.
    + rewrite <- (app_nil_r (put_u16 id)) in C at 2. rewrite (decodeUint16_put C). rb.
      pkred. blens. iffalse. destruct k; reflexivity.
  - destruct Hin as [Hb|[]]. subst body. cbn [full_body]. unfold v5. rewrite Ev.
    apply no_props_nil in Hp. subst ps. cbn [orb] in Hr. apply N.eqb_eq in Hr. subst reason.
    pose proof (cur_start (put_u16 id ++ [])) as C.
    rewrite (decodeUint16_put C). rb. pkred. destruct k; reflexivity.
Qed.

Lemma disconnect_decodes v reason ps body (p := SDisconnect reason ps) :
  enc_ok v p = true -> In body (bodies v p) ->
  disconnect_decode (fresh_packet v (fh_of p (blen body))) body = Ok (expected v p (blen body)).
Proof.
  intros Hok Hin. subst p. unfold disconnect_decode. pkred.
  cbn [enc_ok] in Hok. apply andb_prop in Hok. destruct Hok as [Hp Hr].
  unfold bodies, v5 in Hin. unfold plist_v in Hp. pose proof (blen_put_props_pos ps) as Pp.
  destruct (v =? 5) eqn:Ev; cbn [negb] in Hin.
  - apply N.eqb_eq in Ev. subst v.
    cbn [full_body] in Hin. unfold v5 in Hin. change (5 =? 5) with true in Hin. cbv iota in Hin.
    apply (short_forms reason ps []) in Hin. cbn [app] in Hin.
    pose proof (cur_start body) as C.
    destruct Hin as [Hb | [[Hps Hb] | [Hps [Hr0 Hb]]]]; subst body; try subst ps; try subst reason.
    + pkred. blens. change (5 =? 5) with true. cbn [andb]. iftrue.
      rewrite (decodeByte_cur C). rb. adv C. pkred. iftrue.
      rewrite <- (app_nil_r (put_props ps)) in C |- *.
      erewrite decode_props_at_put; [ | exact Hp | exact C ].
      rb. reflexivity.
    + pkred. blens. change (5 =? 5) with true. cbn [andb]. iftrue.
      rewrite (decodeByte_cur C). rb. pkred. iffalse. reflexivity.
    + pkred. reflexivity.
  - destruct Hin as [Hb|[]]. subst body. cbn [full_body]. unfold v5. rewrite Ev.
    apply no_props_nil in Hp. subst ps. cbn [orb] in Hr. apply N.eqb_eq in Hr. subst reason.
    reflexivity.
Qed.

Lemma auth_decodes v reason ps body (p := SAuth reason ps) :
  enc_ok v p = true -> In body (bodies v p) ->
  auth_decode (fresh_packet v (fh_of p (blen body))) body = Ok (expected v p (blen body)).
Proof.
  intros Hp Hin. subst p. unfold auth_decode. pkred. cbn [enc_ok] in Hp.
  pose proof (blen_put_props_pos ps) as Pp.
  assert (Hin' : (body = reason :: put_props ps) \/ (ps = [] /\ body = [reason]) \/
                 (ps = [] /\ reason = 0 /\ body = [])).
  { unfold bodies in Hin. destruct (negb (v5 v)).
    - destruct Hin as [H|[]]. left. symmetry. exact H.
    - cbn [full_body] in Hin. apply (short_forms reason ps []) in Hin. exact Hin. }
  clear Hin. pose proof (cur_start body) as C.
  destruct Hin' as [Hb | [[Hps Hb] | [Hps [Hr0 Hb]]]]; subst body; try subst ps; try subst reason.
  - pkred. blens. iffalse.
    rewrite (decodeByte_cur C). rb. adv C. pkred. iftrue.
    rewrite <- (app_nil_r (put_props ps)) in C |- *.
    erewrite decode_props_at_put; [ | exact Hp | exact C ].
    rb. reflexivity.
  - pkred. blens. iffalse.
    rewrite (decodeByte_cur C). rb. pkred. iffalse. reflexivity.
  - pkred. reflexivity.
Qed.

Lemma publish_decodes v dup qos retain topic id ps payload (p := SPublish dup qos retain topic id ps payload) (body := full_body v p) :
  enc_ok v p = true ->
  publish_decode (fresh_packet v (fh_of p (blen body))) body = Ok (expected v p (blen body)).
Proof.
  intros Hok. subst p. cbn [enc_ok] in Hok.
  repeat (apply andb_prop in Hok; let H := fresh "Hk" in destruct Hok as [Hok H]).
  unfold publish_decode. pkred.
  pose proof (cur_start body) as C. unfold body in C at 2. cbn [full_body] in C.
  rewrite (decodeString_fits Hk1 C). rb. adv C. pkred.
  destruct (qos =? 0) eqn:Eq.
  - iffalse. rb. cbn [app] in C.
    erewrite props_if_v5_put; [ | exact Hk0 | exact C ]. rb. pkred. adv C.
    rewrite (slice_from_cur C). rb.
    assert (id = 0) as -> by lia. reflexivity.
  - iftrue. rewrite (decodeUint16_put C). rb. adv C. pkred.
    erewrite props_if_v5_put; [ | exact Hk0 | exact C ]. rb. pkred. adv C.
    rewrite (slice_from_cur C). rb. reflexivity.
Qed.

Lemma connack_decodes v sp code ps (p := SConnack sp code ps) (body := full_body v p) :
  enc_ok v p = true ->
  connack_decode (fresh_packet v (fh_of p (blen body))) body = Ok (expected v p (blen body)).
Proof.
  intros Hok. subst p. cbn [enc_ok] in Hok.
  unfold connack_decode. pkred.
  pose proof (cur_start body) as C. unfold body in C at 2. cbn [full_body] in C. cbn [app] in C.
  rewrite (decodeByteBool_cur C). rb. adv C.
  rewrite (decodeByte_cur C). rb. pkred. adv C.
  assert (Esp : (0 <? N.land 1 (if sp then 1 else 0)) = sp) by (destruct sp; reflexivity).
  rewrite Esp. unfold plist_v in Hok. unfold put_props_v, v5 in *.
  destruct (v =? 5) eqn:Ev.
  - rewrite <- (app_nil_r (put_props ps)) in C.
    erewrite decode_props_at_put; [ | exact Hok | exact C ].
    rb. reflexivity.
  - apply no_props_nil in Hok. subst ps. reflexivity.
Qed.

Lemma suback_decodes v id ps codes (p := SSuback id ps codes) (body := full_body v p) :
  enc_ok v p = true ->
  suback_decode (fresh_packet v (fh_of p (blen body))) body = Ok (expected v p (blen body)).
Proof.
  intros Hok. subst p. cbn [enc_ok] in Hok.
  unfold suback_decode. pkred.
  pose proof (cur_start body) as C. unfold body in C at 2. cbn [full_body] in C.
  rewrite (decodeUint16_put C). rb. adv C. pkred.
  erewrite props_if_v5_put; [ | exact Hok | exact C ]. rb. pkred. adv C.
  rewrite (slice_from_cur C). rb. reflexivity.
Qed.

Lemma unsuback_decodes v id ps codes (p := SUnsuback id ps codes) (body := full_body v p) :
  enc_ok v p = true ->
  unsuback_decode (fresh_packet v (fh_of p (blen body))) body = Ok (expected v p (blen body)).
Proof.
  intros Hok. subst p. cbn [enc_ok] in Hok. apply andb_prop in Hok. destruct Hok as [Hp Hc].
  unfold unsuback_decode. pkred.
  pose proof (cur_start body) as C. unfold body in C at 2. cbn [full_body] in C.
  rewrite (decodeUint16_put C). rb. adv C. pkred.
  unfold plist_v in Hp. unfold put_props_v, v5 in *.
  destruct (v =? 5) eqn:Ev.
  - erewrite decode_props_at_put; [ | exact Hp | exact C ].
    rb. adv C. rewrite (slice_from_cur C). rb. reflexivity.
  - apply no_props_nil in Hp. subst ps. cbn [orb] in Hc. destruct codes; [|discriminate]. reflexivity.
Qed.

(* the subscription options byte: what sub_encode writes for it and what sub_decode reads from it *)
Lemma sub_byte q nl rap rh : q <= 2 -> rh < 4 ->
  let b := q + bool_bit nl 2 + bool_bit rap 3 + 16 * rh in
  byte (N.lor (N.lor (N.lor q (if nl then 4 else 0)) (if rap then 8 else 0)) (N.shiftl rh 4)) = b /\
  N.land b 3 = q /\ Wire.bit b 2 = nl /\ Wire.bit b 3 = rap /\ N.land 3 (N.shiftr b 4) = rh.
Proof.
  intros Hq Hr.
  assert (Q : q = 0 \/ q = 1 \/ q = 2) by lia.
  assert (R : rh = 0 \/ rh = 1 \/ rh = 2 \/ rh = 3) by lia.
  destruct Q as [->|[->| ->]]; destruct R as [->|[->|[->| ->]]]; destruct nl; destruct rap; vm_compute; repeat split.
Qed.

Definition ident_of (ids : list N) : N := match ids with i :: _ => i | [] => 0 end.

Lemma subscribe_loop_put v ids : forall fs fuel buf off acc,
  (length fs <= fuel)%nat -> forallb (filter_fits v) fs = true ->
  cur buf off (concat (map (put_filter v) fs)) ->
  subscribe_loop fuel (v =? 5) ids buf off acc = Ok (acc ++ map (sub_of (ident_of ids)) fs).
Proof.
  induction fs as [|f fs IH]; intros fuel buf off acc Hfu Hfit C.
  - cbn [map concat] in C. pose proof (cur_le C) as L. change (blen []) with 0 in L.
    destruct fuel; cbn [subscribe_loop]; replace (blen buf <=? off) with true by lia;
      cbn [map]; rewrite app_nil_r; reflexivity.
  - destruct fuel as [|fu]; [cbn in Hfu; lia|]. cbn [length] in Hfu.
    cbn [forallb] in Hfit. apply andb_prop in Hfit. destruct Hfit as [Hf Hfs].
    unfold filter_fits in Hf. apply andb_prop in Hf. destruct Hf as [Hf Hopt].
    apply andb_prop in Hf. destruct Hf as [Hstr Hq].
    cbn [map concat] in C. unfold put_filter at 1 in C. rewrite <- !app_assoc in C.
    pose proof (cur_le C) as L. rewrite !blen_app in L. change (blen [_]) with 1 in L.
    cbn [subscribe_loop]. replace (blen buf <=? off) with false by lia.
    rewrite (decodeString_fits Hstr C). rb. adv C.
    cbn [app] in C. rewrite (decodeByte_cur C). rb. adv C.
    cbv zeta.
    match goal with |- context [acc ++ [?sub]] => assert (Hsub : sub = sub_of (ident_of ids) f) end.
    { destruct (v =? 5).
      - unfold sub_decode. destruct (sub_byte (f_qos f) (f_no_local f) (f_retain_as_published f) (f_retain_handling f))
          as (_ & -> & -> & -> & ->); [lia | lia |]. destruct ids; reflexivity.
      - apply andb_prop in Hopt. destruct Hopt as [Hopt Hrh]. apply andb_prop in Hopt. destruct Hopt as [Hnl Hrap].
        unfold sub_of.
        destruct (f_no_local f); [discriminate|]. destruct (f_retain_as_published f); [discriminate|].
        apply N.eqb_eq in Hrh. rewrite Hrh. cbn [bool_bit].
        replace (f_qos f + 0 + 0 + 16 * 0) with (f_qos f) by lia. destruct ids; reflexivity. }
    rewrite Hsub.
    replace (2 <? s_qos (sub_of (ident_of ids) f)) with false by (cbn [sub_of s_qos]; lia).
    rewrite (IH fu buf _ (acc ++ [sub_of (ident_of ids) f]) ltac:(lia) Hfs C).
    rewrite <- app_assoc. reflexivity.
Qed.

Lemma subscribe_decodes v id ps fs (p := SSubscribe id ps fs) (body := full_body v p) :
  enc_ok v p = true ->
  subscribe_decode (fresh_packet v (fh_of p (blen body))) body = Ok (expected v p (blen body)).
Proof.
  intros Hok. subst p. cbn [enc_ok] in Hok. apply andb_prop in Hok. destruct Hok as [Hp Hfs].
  unfold subscribe_decode. pkred.
  assert (Hfu : (length fs <= S (length body))%nat).
  { unfold body. cbn [full_body]. rewrite !app_length. pose proof (filters_count v fs). lia. }
  pose proof (cur_start body) as C. unfold body in C at 2. cbn [full_body] in C.
  rewrite (decodeUint16_put C). rb. adv C. pkred.
  erewrite props_if_v5_put; [ | exact Hp | exact C ]. rb. pkred. adv C.
  rewrite (subscribe_loop_put v _ fs _ _ _ [] Hfu Hfs C).
  rb. reflexivity.
Qed.

Lemma unsubscribe_loop_put : forall (fs : list bytes) fuel buf off acc,
  (length fs <= fuel)%nat -> forallb str_fits fs = true ->
  cur buf off (concat (map put_str fs)) ->
  unsubscribe_loop fuel buf off acc = Ok (acc ++ map (fun f => set_s_filter f sub0) fs).
Proof.
  induction fs as [|f fs IH]; intros fuel buf off acc Hfu Hfit C.
  - cbn [map concat] in C. pose proof (cur_le C) as L. change (blen []) with 0 in L.
    destruct fuel; cbn [unsubscribe_loop]; replace (blen buf <=? off) with true by lia;
      cbn [map]; rewrite app_nil_r; reflexivity.
  - destruct fuel as [|fu]; [cbn in Hfu; lia|]. cbn [length] in Hfu.
    cbn [forallb] in Hfit. apply andb_prop in Hfit. destruct Hfit as [Hf Hfs].
    cbn [map concat] in C.
    pose proof (cur_le C) as L. rewrite !blen_app in L.
    assert (2 <= blen (put_str f)) by (unfold put_str; rewrite blen_put_bin; lia).
    cbn [unsubscribe_loop]. replace (blen buf <=? off) with false by lia.
    rewrite (decodeString_fits Hf C). rb. adv C.
    rewrite (IH fu buf _ (acc ++ [set_s_filter f sub0]) ltac:(lia) Hfs C).
    rewrite <- app_assoc. reflexivity.
Qed.

Lemma unsubscribe_decodes v id ps fs (p := SUnsubscribe id ps fs) (body := full_body v p) :
  enc_ok v p = true ->
  unsubscribe_decode (fresh_packet v (fh_of p (blen body))) body = Ok (expected v p (blen body)).
Proof.
  intros Hok. subst p. cbn [enc_ok] in Hok. apply andb_prop in Hok. destruct Hok as [Hp Hfs].
  unfold unsubscribe_decode. pkred.
  assert (Hfu : (length fs <= S (length body))%nat).
  { unfold body. cbn [full_body]. rewrite !app_length. pose proof (strings_count fs). lia. }
  pose proof (cur_start body) as C. unfold body in C at 2. cbn [full_body] in C.
  rewrite (decodeUint16_put C). rb. adv C. pkred.
  erewrite props_if_v5_put; [ | exact Hp | exact C ]. rb. pkred. adv C.
  rewrite (unsubscribe_loop_put fs _ _ _ [] Hfu Hfs C).
  rb. reflexivity.
Qed.

(* the CONNECT flags byte: what connect_flags writes for it and what connect_decode reads from it *)
Lemma connect_flags_byte clean wf wq wr pf uf : wq < 4 -> (wf = true \/ (wq = 0 /\ wr = false)) ->
  let fl := bool_bit clean 1 + (if wf then 4 + 8 * wq + bool_bit wr 5 else 0) + bool_bit pf 6 + bool_bit uf 7 in
  byte (N.lor (N.lor (N.lor (N.lor (N.lor
    (N.shiftl (encodeBool clean) 1) (N.shiftl (encodeBool wf) 2)) (N.shiftl wq 3))
    (N.shiftl (encodeBool wr) 5)) (N.shiftl (encodeBool pf) 6)) (N.shiftl (encodeBool uf) 7)) = fl /\
  N.land 1 fl = 0 /\ Wire.bit fl 1 = clean /\ Wire.bit fl 2 = wf /\ N.land 3 (N.shiftr fl 3) = wq /\
  Wire.bit fl 5 = wr /\ Wire.bit fl 6 = pf /\ Wire.bit fl 7 = uf.
Proof.
  intros Hq Hw. assert (Q : wq = 0 \/ wq = 1 \/ wq = 2 \/ wq = 3) by lia.
  destruct Hw as [->|[-> ->]].
  - destruct Q as [->|[->|[->| ->]]]; destruct clean; destruct wr; destruct pf; destruct uf; vm_compute; repeat split.
  - destruct wf; destruct clean; destruct pf; destruct uf; vm_compute; repeat split.
Qed.

Lemma connect_flags_decode clean will user pass :
  opt_ok (fun w => will_qos w <? 4) will = true ->
  let fl := connect_flags_of clean will user pass in
  N.land 1 fl = 0 /\ Wire.bit fl 1 = clean /\ Wire.bit fl 2 = is_some will /\
  N.land 3 (N.shiftr fl 3) = match will with Some w => will_qos w | None => 0 end /\
  Wire.bit fl 5 = match will with Some w => will_retain w | None => false end /\
  Wire.bit fl 6 = is_some pass /\ Wire.bit fl 7 = is_some user.
Proof.
  intro Hq. destruct will as [w|]; cbn [opt_ok] in Hq.
  - apply (connect_flags_byte clean true (will_qos w) (will_retain w) (is_some pass) (is_some user)); [lia | auto].
  - apply (connect_flags_byte clean false 0 false (is_some pass) (is_some user)); [lia | auto].
Qed.

Lemma will_props_if_v5_put pk buf off wps r :
  plist_v (pk_version pk) WILLPROPS wps = true ->
  cur buf off (put_props_v (pk_version pk) wps ++ r) ->
  will_props_if_v5 pk buf off =
  Ok (upd_connect (set_c_will_props (store_all wps (c_will_props (pk_connect pk)))) pk,
      off + blen (put_props_v (pk_version pk) wps)).
Proof.
  unfold plist_v, will_props_if_v5, put_props_v, v5. intros Hf H.
  destruct (pk_version pk =? 5).
  - rewrite (slice_from_cur H). rb.
    destruct (plist_fits_parts _ _ Hf) as (P1 & P2 & P3).
    rewrite (props_decode_put _ _ _ _ P1 P2 P3). reflexivity.
  - destruct wps; [|discriminate]. cbn [store_all fold_left]. change (blen []) with 0.
    rewrite N.add_0_r. destruct pk as [c ? ? ? ? ? ? ? ? ? ? ? ?]; destruct c; reflexivity.
Qed.

Ltac connred :=
  cbn [c_will_flag c_username_flag c_password_flag c_will_props pk_connect set_c_protocol_name set_c_username_flag
       set_c_password_flag set_c_will_retain set_c_will_qos set_c_will_flag set_c_clean set_c_keepalive set_c_client_id
       set_c_will_props set_c_will_topic set_c_will_payload set_c_username set_c_password conn0
       c_password c_username c_protocol_name c_will_payload c_client_id c_will_topic c_keepalive c_will_qos c_will_retain c_clean].

Lemma connect_decodes v lvl clean ka ps cid will user pass (p := SConnect lvl clean ka ps cid will user pass) (body := full_body v p) :
  enc_ok v p = true ->
  connect_decode (fresh_packet v (fh_of p (blen body))) body = Ok (expected v p (blen body)).
Proof.
  intros Hok. subst p. cbn [enc_ok] in Hok.
  repeat (apply andb_prop in Hok; let H := fresh "Hk" in destruct Hok as [Hok H]).
  rename Hok into Hp, Hk2 into Hcid, Hk1 into Hwill, Hk0 into Huser, Hk into Hpass.
  unfold connect_decode. pkred.
  pose proof (cur_start body) as C. unfold body in C at 2. cbn [full_body] in C.
  set (name := if lvl =? 3 then bytes_of_string "MQIsdp" else bytes_of_string "MQTT") in *.
  assert (Hname : bin_fits name = true) by (unfold name; destruct (lvl =? 3); reflexivity).
  assert (Hq : opt_ok (fun w => will_qos w <? 4) will = true).
  { destruct will as [w|]; [|reflexivity]. cbn [opt_ok] in *. unfold will_fits in Hwill.
    apply andb_prop in Hwill. destruct Hwill as [_ Hwq]. exact Hwq. }
  pose proof (connect_flags_decode clean will user pass Hq) as Fl. cbv zeta in Fl.
  set (fl := connect_flags_of clean will user pass) in *.
  destruct Fl as (F0 & F1 & F2 & F3 & F5 & F6 & F7).
  change (put_str name) with (put_bin name) in C.
  rewrite (decodeBytes_fits Hname C). rb. adv C. pkred.
  cbn [app] in C. rewrite (decodeByte_cur C). rb. pkred. adv C.
  rewrite (decodeByte_cur C). rb. pkred. adv C.
  rewrite (decodeUint16_put C). rb. pkred. adv C.
  erewrite props_if_v5_put; [ | exact Hp | exact C ]. rb. pkred. adv C.
  rewrite (decodeString_fits Hcid C). rb. pkred. adv C.
  connred. rewrite F0, F1, F2, F3, F5, F6, F7.
  (* the will, if there is one; afterwards the buffer stands at the user name in both cases *)
  destruct will as [[wps wt wp wq wr]|]; cbn [is_some opt_ok will_props will_topic will_payload will_qos will_retain] in *.
  1: unfold will_fits in Hwill; cbn [will_props will_topic will_payload will_qos] in Hwill;
     apply andb_prop in Hwill; destruct Hwill as [Hwill _]; apply andb_prop in Hwill; destruct Hwill as [Hwill Hwp];
     apply andb_prop in Hwill; destruct Hwill as [Hwill Hwt]; rewrite <- !app_assoc in C.
  1: erewrite will_props_if_v5_put; [ | pkred; exact Hwill | pkred; exact C ].
  1: rb; pkred; connred; adv C.
  1: rewrite (decodeString_fits Hwt C); rb; pkred; connred; adv C.
  1: rewrite (decodeBytes_fits Hwp C); rb; pkred; connred; adv C.
  2: cbn [app] in C; cbv iota; rb; pkred; connred.
  all: pose proof (cur_le C) as L.
  all: destruct user as [u|]; destruct pass as [pw|]; cbn [is_some opt_ok app] in *; cbv iota; rb; pkred; connred;
    try reflexivity.
  1, 2, 4, 5: rewrite blen_app in L; assert (2 <= blen (put_str u)) by (unfold put_str; rewrite blen_put_bin; lia);
    iffalse; change (put_str u) with (put_bin u) in C;
    rewrite (decodeBytes_fits Huser C); rb; pkred; connred; try reflexivity; adv C.
  all: rewrite <- (app_nil_r (put_bin pw)) in C; rewrite (decodeBytes_fits Hpass C); rb; reflexivity.
Qed.

Theorem body_form_decodes v p body :
  enc_ok v p = true -> In body (bodies v p) -> body_decodes v p body.
Proof.
  destruct p; intros Hok Hin; try (apply bodies_full in Hin; [subst body | exact I]).
  - apply connect_decodes; assumption.
  - apply connack_decodes; assumption.
  - apply publish_decodes; assumption.
  - destruct kind; apply ack_decodes; assumption.
  - apply subscribe_decodes; assumption.
  - apply suback_decodes; assumption.
  - apply unsubscribe_decodes; assumption.
  - apply unsuback_decodes; assumption.
  - reflexivity.
  - reflexivity.
  - apply disconnect_decodes; assumption.
  - apply auth_decodes; assumption.
Qed.

Lemma header_byte v p : enc_ok v p = true ->
  fh_decode fh0 (ptype p * 16 + pflags p) = Ok (fh_of p 0) /\
  forall rem, fh_byte (fh_of p rem) = ptype p * 16 + pflags p.
Proof.
  destruct p; intro Hok; try (destruct kind); try (split; [|intro rem]; vm_compute; reflexivity).
  cbn [enc_ok] in Hok.
  repeat (apply andb_prop in Hok; let H := fresh "Hk" in destruct Hok as [Hok H]).
  assert (Q : qos = 0 \/ qos = 1 \/ qos = 2) by lia.
  destruct Q as [->|[->| ->]]; destruct dup; destruct retain; try discriminate;
    (split; [|intro rem]; vm_compute; reflexivity).
Qed.

(* nothing is asked of the bytes, in the packet or after it, beyond [enc_ok]: no decoder looks past
   what it consumes *)
Theorem form_decodes v p body rest :
  enc_ok v p = true -> In body (bodies v p) -> len body <= 268435455 ->
  mochi_decode_packet v (frame p body ++ rest) = Ok (expected v p (len body), rest).
Proof.
  intros Hok Hin Hl. unfold frame. cbn [app]. rewrite <- app_assoc.
  rewrite (decode_frame v _ _ body rest (proj1 (header_byte v p Hok)) Hl).
  change (set_fh_remaining (blen body) (fh_of p 0)) with (fh_of p (blen body)).
  rewrite (body_form_decodes v p body Hok Hin). reflexivity.
Qed.
