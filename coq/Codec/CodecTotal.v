(* C27: the packet decoders are total.  Every decoder of Props.v / MochiCodec.v ends in Ok or Err —
   never in Panic (an unchecked index or slice out of range) and never out of fuel: each is followed
   call by call with the postconditions of WireProofs.v, which keep the offsets inside the buffer.
   Then the statements about declared lengths: one that exceeds the bytes that remain is rejected. *)
From MV Require Import Base.Val Codec.Vbi Codec.Wire Codec.Props Codec.MochiCodec
  Codec.WireProofs Codec.CodecOrder Codec.CodecRT.
From Coq Require Import Lia ZifyBool ZifyN ZifyNat.
Open Scope N_scope.
Set Warnings "-unused-intro-pattern".

Lemma blen_nil : blen [] = 0.
Proof. reflexivity. Qed.

Lemma prop_case_post k bt off p : off <= blen bt ->
  post (prop_case k bt off p) (fun '(_, o) => off <= o /\ o <= blen bt).
Proof.
  intro Hoff. rewrite prop_case_read. destruct (existsb (N.eqb k) all_ids); [|cbn; lia].
  pstep ltac:(apply read_prop_post; exact Hoff). intros [c o] [H _]. cbn. lia.
Qed.

Lemma props_loop_post fuel : forall pkt bt n off p,
  off <= blen bt -> blen bt < off + N.of_nat fuel ->
  post (props_loop fuel pkt bt n off p) (fun _ => n <= blen bt).
Proof.
  induction fuel as [|f IH]; intros pkt bt n off p H1 H2.
  - lia.
  - cbn [props_loop]. destruct (n <=? off) eqn:E; [cbn; lia|].
    pstep ltac:(apply decodeByte_post). intros [k o1] (H3 & H4 & _).
    destruct (negb (valid_prop k pkt)); [exact I|].
    pstep ltac:(apply prop_case_post; exact H4). intros [p' o2] [H5 H6].
    apply IH; lia.
Qed.

Lemma props_decode_post pkt p b :
  post (props_decode pkt p b) (fun '(n, _) => n <= blen b).
Proof.
  unfold props_decode.
  destruct (vbi_decode b) as [n bu bt| |] eqn:E; [|exact I|exact I].
  apply vbi_decode_len in E.
  destruct (n =? 0) eqn:E0; [cbn; lia|].
  pstep ltac:(apply props_loop_post with (off := 0); unfold blen in *; lia). intros p' Hn.
  cbn. lia.
Qed.

Definition inside {A} (buf : bytes) : A * N -> Prop := fun '(_, o) => o <= blen buf.

Lemma decode_props_at_post pk buf off : off <= blen buf ->
  post (decode_props_at pk buf off) (fun '(n, _) => off + n <= blen buf).
Proof.
  intro H. unfold decode_props_at.
  pstep ltac:(apply slice_from_post; exact H). intros s Hs.
  pstep ltac:(apply props_decode_post). intros [n pr] Hn. cbn. lia.
Qed.

Lemma props_if_v5_post pk buf off : off <= blen buf ->
  post (props_if_v5 pk buf off) (inside buf).
Proof.
  intro H. unfold props_if_v5. destruct (pk_version pk =? 5); [|cbn; lia].
  pstep ltac:(apply decode_props_at_post; exact H). intros [n pk'] Hn. cbn. lia.
Qed.

(* one step of a body decoder: the first call is one of those characterised above; its
   postcondition, which says where the new offset lies, is put into the context *)
Local Ltac known :=
  first [ apply decodeBytes_post | apply decodeString_post | apply decodeByte_post
        | apply decodeByteBool_post | apply decodeUint16_post | apply decodeUint32_post
        | apply props_if_v5_post; lia | apply decode_props_at_post; lia
        | apply slice_from_post; lia ].
Local Ltac kstep := pstep known; let a := fresh "a" in let H := fresh "H" in
  intros a H; try (destruct a as [? ?]); unfold inside in H; cbn beta iota in H;
  repeat match goal with H' : _ /\ _ |- _ => destruct H' end; cbv zeta.

Definition total {A} (r : res A) : Prop := post r (fun _ => True).

Lemma connect_total pk buf : total (connect_decode pk buf).
Proof.
  unfold total, connect_decode.
  kstep. kstep. kstep. kstep. kstep. kstep.
  (* the will block and the user name block are conditionals, not calls: their postcondition
     [inside buf] is given by hand *)
  eapply post_bind with (Q := inside buf).
  { destruct (c_will_flag _); [|cbn; lia].
    eapply post_bind with (Q := inside buf).
    { unfold will_props_if_v5. destruct (pk_version _ =? 5); [|cbn; lia].
      kstep. pstep ltac:(apply props_decode_post). intros [nw wpw] Hnw. cbn in *. lia. }
    intros [pk1 o1] Ho1. cbn in Ho1. kstep. kstep. cbn. lia. }
  intros [pk2 o2] Ho2. cbn in Ho2.
  eapply post_bind with (Q := inside buf).
  { destruct (c_username_flag _); [|cbn; lia].
    destruct (blen buf <=? o2); [exact I|]. kstep. cbn. lia. }
  intros [pk3 o3] Ho3. cbn in Ho3.
  destruct (c_password_flag _); [|exact I]. kstep. exact I.
Qed.

Lemma connack_total pk buf : total (connack_decode pk buf).
Proof.
  unfold total, connack_decode. kstep. kstep.
  destruct (pk_version _ =? 5); [|exact I]. kstep. exact I.
Qed.

Lemma disconnect_total pk buf : total (disconnect_decode pk buf).
Proof.
  unfold total, disconnect_decode. destruct (_ && _); [|exact I]. kstep.
  destruct (1 <? _); [|exact I]. kstep. exact I.
Qed.

Lemma publish_total pk buf : total (publish_decode pk buf).
Proof.
  unfold total, publish_decode. kstep.
  eapply post_bind with (Q := inside buf).
  { destruct (0 <? _); [|cbn; lia]. kstep. cbn. lia. }
  intros [pk1 o1] Ho1. cbn in Ho1. kstep. kstep. exact I.
Qed.

Lemma ack_total pk buf : total (ack_decode pk buf).
Proof.
  unfold total, ack_decode. kstep. destruct (_ && _); [|exact I]. kstep.
  destruct (3 <? _); [|exact I]. kstep. exact I.
Qed.

Lemma suback_total pk buf : total (suback_decode pk buf).
Proof. unfold total, suback_decode. kstep. kstep. kstep. exact I. Qed.

Lemma subscribe_loop_total fuel : forall v5 ids buf off acc,
  off <= blen buf -> blen buf < off + N.of_nat fuel ->
  total (subscribe_loop fuel v5 ids buf off acc).
Proof.
  induction fuel as [|f IH]; intros v5 ids buf off acc H1 H2; [lia|].
  cbn [subscribe_loop]. destruct (blen buf <=? off); [exact I|].
  kstep. kstep. destruct (2 <? _); [exact I|]. apply IH; lia.
Qed.

Lemma subscribe_total pk buf : total (subscribe_decode pk buf).
Proof.
  unfold total, subscribe_decode. kstep. kstep.
  pstep ltac:(apply subscribe_loop_total; unfold blen in *; lia). intros fs _. exact I.
Qed.

Lemma unsubscribe_loop_total fuel : forall buf off acc,
  off <= blen buf -> blen buf < off + N.of_nat fuel ->
  total (unsubscribe_loop fuel buf off acc).
Proof.
  induction fuel as [|f IH]; intros buf off acc H1 H2; [lia|].
  cbn [unsubscribe_loop]. destruct (blen buf <=? off); [exact I|].
  kstep. apply IH; lia.
Qed.

Lemma unsubscribe_total pk buf : total (unsubscribe_decode pk buf).
Proof.
  unfold total, unsubscribe_decode. kstep. kstep.
  pstep ltac:(apply unsubscribe_loop_total; unfold blen in *; lia). intros fs _. exact I.
Qed.

Lemma unsuback_total pk buf : total (unsuback_decode pk buf).
Proof.
  unfold total, unsuback_decode. kstep. destruct (pk_version _ =? 5); [|exact I].
  kstep. kstep. exact I.
Qed.

Lemma auth_total pk buf : total (auth_decode pk buf).
Proof.
  unfold total, auth_decode. destruct (_ =? 0); [exact I|]. kstep.
  destruct (1 <? _); [|exact I]. kstep. exact I.
Qed.

Lemma decode_body_total pk px : total (decode_body pk px).
Proof.
  unfold decode_body. generalize (fh_type (pk_fh pk)) as ty. intro ty.
  case4 ty; try exact I;
  first [ apply connect_total | apply connack_total | apply disconnect_total | apply publish_total
        | apply ack_total | apply suback_total | apply subscribe_total | apply unsubscribe_total
        | apply unsuback_total | apply auth_total ].
Qed.

Theorem decode_body_never_panics v fh buf :
  mochi_decode_body v fh buf <> Panic /\ mochi_decode_body v fh buf <> Fuel.
Proof. eapply post_safe. apply decode_body_total. Qed.

Lemma fh_decode_total fh hb : total (fh_decode fh hb).
Proof.
  unfold total, fh_decode. cbv zeta.
  eapply post_bind with (Q := fun _ => True).
  - repeat match goal with |- post (if ?c then _ else _) _ => destruct c end; exact I.
  - intros fh' _. destruct (_ && _); exact I.
Qed.

Theorem decode_packet_never_panics v bs :
  mochi_decode_packet v bs <> Panic /\ mochi_decode_packet v bs <> Fuel.
Proof.
  eapply post_safe with (Q := fun _ => True). unfold mochi_decode_packet.
  destruct bs as [|hb r]; [exact I|].
  pstep ltac:(apply fh_decode_total). intros fh _.
  destruct (vbi_decode r) as [n bu r'| |]; [|exact I|exact I].
  destruct (blen r' <? n); [exact I|].
  pstep ltac:(apply decode_body_total). intros pk _. exact I.
Qed.

Theorem declared_length_checked buf off len o :
  decodeUint16 buf off = Ok (len, o) -> blen buf < o + len ->
  decodeBytes buf off = Err EOffsetBytesOutOfRange /\ decodeString buf off = Err EOffsetBytesOutOfRange.
Proof.
  intros H1 H2. unfold decodeString, decodeBytes. rewrite H1. cbn.
  replace (blen buf <? o + len) with true by lia. split; reflexivity.
Qed.

Theorem decoded_bytes_inside buf off s o :
  decodeBytes buf off = Ok (s, o) ->
  o = off + 2 + blen s /\ o <= blen buf /\
  s = firstn (N.to_nat (blen s)) (skipn (N.to_nat (off + 2)) buf).
Proof.
  intro H. pose proof (decodeBytes_post buf off) as P. rewrite H in P. destruct P as (P1 & P2 & _).
  split; [exact P1|]. split; [exact P2|].
  rewrite decodeBytes_suffix in H. destruct (suffix buf off) as [|a [|b r]] eqn:E; try discriminate H.
  destruct (blen r <? a * 256 + b) eqn:F; [discriminate H|]. injection H as <- _.
  change (skipn (N.to_nat (off + 2)) buf) with (suffix buf (off + blen [a; b])).
  rewrite (suffix_adv buf off [a; b] r E), blen_firstn by lia. reflexivity.
Qed.

Theorem declared_property_length_checked pkt p b n bu bt :
  vbi_decode b = VOk n bu bt -> blen bt < n -> exists e, props_decode pkt p b = Err e.
Proof.
  intros E H. pose proof (props_decode_post pkt p b) as P.
  unfold props_decode in *. rewrite E in *.
  destruct (n =? 0) eqn:E0; [lia|].
  pose proof (props_loop_post (S (length bt)) pkt bt n 0 p) as L.
  destruct (props_loop (S (length bt)) pkt bt n 0 p) as [p'|e| |].
  - cbn in L. unfold blen in *. lia.
  - exists e. reflexivity.
  - cbn in L. unfold blen in *. lia.
  - cbn in L. unfold blen in *. lia.
Qed.
